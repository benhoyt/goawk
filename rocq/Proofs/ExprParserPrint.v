(* C04 — the expression among the tokens of its statement: after the arguments of print an
   unparenthesised > is the redirection; the table order fails without the $$x++ guard of wf; in
   `expr | getline` the command is everything down to the ||-level to the left of the bar (in
   particular a whole concatenation) and the result is an operand of the enclosing assignment. *)
From Verif Require Import Lib.Base Model.ExprAst Model.ExprParser Proofs.ExprParserMono Proofs.ExprParserRel
  Proofs.PrecSpec Proofs.ExprParserPrinted Proofs.ExprParserMin.
Local Open Scope nat_scope.

Lemma par_not_multi fl pe req e : wf e -> match par fl pe req e with EMulti _ => False | _ => True end.
Proof.
  intros Hwf. unfold par. destruct (fl || _ || _); [exact I|].
  destruct e; try exact I; try contradiction.
  - destruct idx as [|x [|y r]]; exact I.
Qed.

Lemma all_M es : Forall M es.
Proof. apply Forall_forall. intros x _. apply parse_printed_all. Qed.

(* the three redirection tokens of print / printf *)
Definition redir_of (t : tok) : option redir :=
  match t with TGreater => Some RGreater | TAppend => Some RAppend | TPipe => Some RPipe | _ => None end.

Lemma last_wf_map (g : expr -> expr) : forall (l : list expr) d, l <> [] -> all_wf wf l ->
  exists x, wf x /\ last (map g l) d = g x.
Proof.
  induction l as [|x l IH]; intros d Hne Hw; [congruence|].
  destruct Hw as [Hx Hl]. destruct l as [|y l'].
  - exists x. split; [exact Hx | reflexivity].
  - destruct (IH d ltac:(discriminate) Hl) as (z & Hz & E). exists z. split; [exact Hz|].
    cbn [map] in *. exact E.
Qed.

(* inside print, > >> and | may follow any argument as written by either printer: every level
   function that is still open when the token arrives belongs to the print tower (which leaves
   them to the statement) or reads operands at the ^ level or above *)
Lemma ok_redirect fl e rt rd : wf e -> redir_of rt = Some rd -> ok true (par fl true 0 e) rt = true.
Proof.
  intros Hwf Hr. apply ok_par_pc; [exact Hwf | |]; destruct rt; try discriminate; cbn; lia.
Qed.

(* print a1, ..., an > dest (also >> and |): the arguments are the n trees, the token is the
   redirection, the destination is dest — for all well-formed arguments, in both writings.
   (Before the repair of F-C04-1/2 this needed the guard "the last argument does not end in an
   unparenthesised ?:".) *)
Theorem print_redirects : forall rt rd fl a args dest rest,
  redir_of rt = Some rd ->
  all_wf wf (a :: args) -> wf dest ->
  let args' := map (par fl true 0) (a :: args) in
  let dest' := par fl false 0 dest in
  tok_cont false (hd_tok rest) = 0 ->
  exists n0, forall n, n0 <= n ->
    p_simple_stmt n (TPrint :: commas flat args' ++ rt :: flat dest' ++ rest)
    = POk (TopPrint false rd (Some dest') args', rest).
Proof.
  intros rt rd fl a args dest rest Hrt Hw Hwd args' dest' Hz.
  assert (Hok : ok true (last args' (ENum [])) rt = true).
  { subst args'. destruct (last_wf_map (par fl true 0) (a :: args) (ENum []) ltac:(discriminate) Hw) as (x & Hx & ->).
    eapply ok_redirect; eassumption. }
  assert (HL : ExprList true true (commas flat args' ++ rt :: flat dest' ++ rest)
                 (args', rt :: flat dest' ++ rest)).
  { subst args'. cbn [map]. apply exprlist_all_pc.
    - destruct rt; try discriminate; reflexivity.
    - destruct rt; try discriminate; reflexivity.
    - apply all_M.
    - apply (all_fit_map fl true true (a :: args)); [auto | apply Forall_forall; intros x _; apply fits_pnode | exact Hw].
    - exact Hok. }
  destruct HL as [n1 HL].
  destruct (parse_par dest fl false 0 LExpr rest Hwd eq_refl ltac:(congruence) ltac:(cbn; lia) ltac:(cbn; lia))
    as [n2 HD].
  exists (Nat.max n1 n2). intros n Hn.
  cbn [p_simple_stmt]. eapply exprlist_mono with (m := n) in HL; [|lia].
  rewrite HL. cbn [pbind]. unfold dest'.
  assert (Hnm : match args' with [EMulti es] => es | _ => args' end = args').
  { subst args'. cbn [map]. destruct args as [|b args]; [|cbn [map]; destruct (par fl true 0 a); reflexivity]. cbn [map].
    destruct Hw as [Ha _]. pose proof (par_not_multi fl true 0 a Ha) as Hn'.
    destruct (par fl true 0 a); try reflexivity. contradiction. }
  destruct rt; try discriminate; injection Hrt as <-;
    rewrite (HD n) by lia; cbn [pbind]; rewrite Hnm; subst args'; cbn [map]; reflexivity.
Qed.

Lemma p_simple_stmt_le n m ts : n <= m -> le_res (p_simple_stmt n ts) (p_simple_stmt m ts).
Proof.
  intros Hnm. destruct (mono n m Hnm) as (I1 & _ & _ & _ & _ & I6 & _).
  unfold p_simple_stmt.
  destruct ts as [|t r]; [apply pbind_mono; [apply I1 | intros; apply le_res_refl]|].
  destruct t; try (apply pbind_mono; [apply I1 | intros; apply le_res_refl]).
  all: apply pbind_mono; [apply I6 | intros [args0 r1]];
    apply pbind_mono; [|intros; apply le_res_refl];
    destruct r1 as [|t1 r1']; try apply le_res_refl;
    destruct t1; try apply le_res_refl; (apply pbind_mono; [apply I1 | intros; apply le_res_refl]).
Qed.

Lemma p_simple_stmt_stable n m ts r : n <= m -> p_simple_stmt n ts = r -> r <> PFuel -> p_simple_stmt m ts = r.
Proof. intros Hnm H Hr. destruct (p_simple_stmt_le n m ts Hnm) as [E | E]; congruence. Qed.

(* ---- the statement of the property for print: formerly refuted (F-C04-1, F-C04-2), now theorems ---- *)

Definition print_gt_full_statement : Prop :=
  forall fl a args dest rest,
  all_wf wf (a :: args) -> wf dest ->
  let args' := map (par fl true 0) (a :: args) in
  let dest' := par fl false 0 dest in
  tok_cont false (hd_tok rest) = 0 ->
  exists n0, forall n, n0 <= n ->
    p_simple_stmt n (TPrint :: commas flat args' ++ TGreater :: flat dest' ++ rest)
    = POk (TopPrint false RGreater (Some dest') args', rest).

Theorem print_gt_is_redirect : print_gt_full_statement.
Proof. intros fl a args dest rest. apply (print_redirects TGreater RGreater). reflexivity. Qed.

Definition print_pipe_full_statement : Prop :=
  forall fl a args dest rest,
  all_wf wf (a :: args) -> wf dest ->
  let args' := map (par fl true 0) (a :: args) in
  let dest' := par fl false 0 dest in
  tok_cont false (hd_tok rest) = 0 ->
  exists n0, forall n, n0 <= n ->
    p_simple_stmt n (TPrint :: commas flat args' ++ TPipe :: flat dest' ++ rest)
    = POk (TopPrint false RPipe (Some dest') args', rest).

Theorem print_pipe_is_redirect : print_pipe_full_statement.
Proof. intros fl a args dest rest. apply (print_redirects TPipe RPipe). reflexivity. Qed.

(* the former witnesses: print 1 ? 2 : 3 > "f" }   and   print 1 ? 2 : 3 | "f" } *)
Definition w_cond : expr := ECond (ENum [49%Z]) (ENum [50%Z]) (ENum [51%Z]).
Definition w_dest : expr := EStr [102%Z].

Lemma w_print_gt_computed :
  p_simple_stmt 60 (TPrint :: pp_min true w_cond ++ TGreater :: pp_min false w_dest ++ [TRBrace])
  = POk (TopPrint false RGreater (Some w_dest) [w_cond], [TRBrace]).
Proof. vm_compute. reflexivity. Qed.

Lemma w_print_pipe_computed :
  p_simple_stmt 60 (TPrint :: pp_min true w_cond ++ TPipe :: pp_min false w_dest ++ [TRBrace])
  = POk (TopPrint false RPipe (Some w_dest) [w_cond], [TRBrace]).
Proof. vm_compute. reflexivity. Qed.

(* ---- the table order "++ -- below $" without the guard of wf: $$x++ ---- *)

Definition wf_posix (e : expr) : Prop :=
  wf e \/ exists op i, e = EIncr op false (EField (EField i)) /\ wf i.

Definition table_full_statement : Prop :=
  forall e rest, wf_posix e -> tok_cont false (hd_tok rest) = 0 ->
  exists n0, forall n, n0 <= n ->
    exists e1, p_lv n LExpr false None (pp_min false e ++ rest) = POk (e1, rest) /\ strip e1 = e.

Definition w_ddincr : expr := EIncr IIncr false (EField (EField (EVar [120%Z]))).

Lemma w_ddincr_computed :
  p_lv 60 LExpr false None (pp_min false w_ddincr ++ []) =
  POk (EField (EIncr IIncr false (EField (EVar [120%Z]))), []).
Proof. vm_compute. reflexivity. Qed.

Theorem table_full_refuted : ~ table_full_statement.
Proof.
  intros H.
  destruct (H w_ddincr []) as [n0 Hn]; [right; exists IIncr, (EVar [120%Z]); split; [reflexivity | exact I] | reflexivity |].
  destruct (Hn (Nat.max n0 60) ltac:(lia)) as (e1 & Hp & Hs).
  pose proof (p_lv_mono 60 (Nat.max n0 60) ltac:(lia) _ _ _ _ _ w_ddincr_computed) as Hc.
  rewrite Hc in Hp. injection Hp as <-. discriminate.
Qed.

(* the second cond() call of getline(): primary() consumes "| getline", every level above stops *)
Lemma pend_tower cmd r :
  tok_cont false (hd_tok r) = 0 ->
  Parses LCond false (Some cmd) (TPipe :: TGetline :: r) (EGetline (Some cmd) None None, r).
Proof.
  intros Hz.
  assert (HP : Parses LPrimary false (Some cmd) (TPipe :: TGetline :: r) (EGetline (Some cmd) None None, r)).
  { exists 3. cbn [p_lv primary opt_lvalue].
    destruct r as [|t r']; [reflexivity|]. destruct t; cbn in Hz; try lia; reflexivity. }
  assert (St : forall l, 2 <= rk l -> Afters l false (EGetline (Some cmd) None None) r (EGetline (Some cmd) None None, r)).
  { intros l Hl. apply afters_stop; [rewrite Hz; lia | reflexivity]. }
  repeat (eapply parses_step; [congruence | congruence | cbn [higher] | apply St; cbn; lia]).
  exact HP.
Qed.

Lemma aft_getline e ts R : Parses LCond false (Some e) (TPipe :: ts) R -> Afters LGetline false e (TPipe :: ts) R.
Proof. intros [n H]. exists (S n). exact H. Qed.

Lemma par_req_irrelevant fl pe req req' e : req <= tlevel e -> req' <= tlevel e -> par fl pe req e = par fl pe req' e.
Proof.
  intros H1 H2. unfold par.
  rewrite (proj2 (Nat.ltb_ge _ _) H1), (proj2 (Nat.ltb_ge _ _) H2). reflexivity.
Qed.

Theorem getline_binds_looser : forall e rest,
  wf e -> 3 <= tlevel e -> tok_cont false (hd_tok rest) = 0 ->
  exists n0, forall n, n0 <= n ->
    p_lv n LExpr false None (pp_min false e ++ TPipe :: TGetline :: rest)
    = POk (EGetline (Some (par false false 0 e)) None None, rest).
Proof.
  intros e rest Hwf Hlv Hz. apply parses_all_fuel.
  unfold pp_min. rewrite (par_req_irrelevant false false 0 3 e) by lia.
  eapply parses_step; [congruence | reflexivity | | apply afters_stop; [rewrite Hz; cbn; lia | congruence]].
  cbn [higher].
  eapply parses_step; [congruence | reflexivity | | apply aft_getline; apply pend_tower; exact Hz].
  cbn [higher].
  apply (M_closed _ (proj1 (parse_printed_all _)) LCond false); try discriminate.
  - eapply fits_mono; [apply (fits_par e (fits_pnode e) Hwf false false false 3); auto | cbn; lia].
  - apply ok_par; [exact Hwf | cbn; lia].
  - cbn. lia.
Qed.
