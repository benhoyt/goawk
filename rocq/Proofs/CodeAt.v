(* C01 (used by C02 and C15 as well): addressing lemmas for instruction lists (word offsets). *)
From Verif Require Import Lib.Base Model.Ast Model.Instr.

Lemma isize_pos i : 0 < isize i.
Proof. destruct i; cbn [isize]; try lia. pose proof (zlen_nonneg arrs). lia. Qed.

Lemma csize_nonneg c : 0 <= csize c.
Proof. induction c as [|i c IH]; cbn [csize]; [lia|]. pose proof (isize_pos i). lia. Qed.

Lemma csize_app a b : csize (a ++ b) = csize a + csize b.
Proof. induction a as [|i a IH]; cbn [csize app]; [lia|]. rewrite IH. lia. Qed.

Lemma csize_cons i c : csize (i :: c) = isize i + csize c.
Proof. reflexivity. Qed.

Lemma csize_one i : csize [i] = isize i.
Proof. cbn [csize]. lia. Qed.

Definition code_at (C : code) (p : Z) (c : code) : Prop :=
  exists pre post, C = pre ++ c ++ post /\ csize pre = p.

Lemma code_at_whole C : code_at C 0 C.
Proof. exists [], []. rewrite app_nil_r. split; reflexivity. Qed.

Lemma code_at_app_l C p a b : code_at C p (a ++ b) -> code_at C p a.
Proof. intros (pre & post & -> & Hp). exists pre, (b ++ post). rewrite <- app_assoc. split; [reflexivity|exact Hp]. Qed.

Lemma code_at_app_r C p a b : code_at C p (a ++ b) -> code_at C (p + csize a) b.
Proof.
  intros (pre & post & -> & Hp). exists (pre ++ a), post. split.
  - rewrite <- !app_assoc. reflexivity.
  - rewrite csize_app. lia.
Qed.

Lemma code_at_app C p a b : code_at C p (a ++ b) -> code_at C p a /\ code_at C (p + csize a) b.
Proof. intros H. split; [eapply code_at_app_l|eapply code_at_app_r]; exact H. Qed.

Lemma code_at_tail C p i c : code_at C p (i :: c) -> code_at C (p + isize i) c.
Proof. intros H. change (i :: c) with ([i] ++ c) in H. apply code_at_app_r in H. rewrite csize_one in H. exact H. Qed.

Lemma code_at_nonneg C p c : code_at C p c -> 0 <= p.
Proof. intros (pre & post & _ & Hp). pose proof (csize_nonneg pre). lia. Qed.

Lemma code_at_bound C p c : code_at C p c -> p + csize c <= csize C.
Proof.
  intros (pre & post & -> & Hp). rewrite !csize_app. pose proof (csize_nonneg post). lia.
Qed.

(* the tests by which fetch, drop_words and take_words step over one instruction *)
Lemma skip_head i n :
  0 <= n -> (isize i + n =? 0) = false /\ (isize i + n <? isize i) = false /\ isize i + n - isize i = n.
Proof.
  intros H. pose proof (isize_pos i). split; [apply Z.eqb_neq; lia|]. split; [apply Z.ltb_ge; lia|lia].
Qed.

Lemma fetch_app_pre pre rest : fetch (pre ++ rest) (csize pre) = fetch rest 0.
Proof.
  induction pre as [|i pre IH]; cbn [app csize fetch]; [reflexivity|].
  destruct (skip_head i (csize pre) (csize_nonneg pre)) as (-> & -> & ->). exact IH.
Qed.

Lemma code_at_fetch C p i c : code_at C p (i :: c) -> fetch C p = Some i.
Proof.
  intros (pre & post & -> & Hp). subst p. rewrite fetch_app_pre. reflexivity.
Qed.

Lemma code_at_lt C p i c : code_at C p (i :: c) -> p < csize C.
Proof.
  intros H. apply code_at_bound in H. rewrite csize_cons in H.
  pose proof (isize_pos i). pose proof (csize_nonneg c). lia.
Qed.

Lemma drop_words_app pre rest : drop_words (pre ++ rest) (csize pre) = Some rest.
Proof.
  induction pre as [|i pre IH]; cbn [app csize].
  - destruct rest; reflexivity.
  - cbn [drop_words]. destruct (skip_head i (csize pre) (csize_nonneg pre)) as (-> & -> & ->). exact IH.
Qed.

Lemma take_words_app body post : take_words (body ++ post) (csize body) = Some body.
Proof.
  induction body as [|i body IH]; cbn [app csize].
  - destruct post; reflexivity.
  - cbn [take_words]. destruct (skip_head i (csize body) (csize_nonneg body)) as (-> & -> & ->).
    rewrite IH. reflexivity.
Qed.

Lemma sub_code_at C p body : code_at C p body -> sub_code C p (csize body) = Some body.
Proof.
  intros (pre & post & -> & Hp). subst p. unfold sub_code.
  rewrite drop_words_app. apply take_words_app.
Qed.
