(* C16: the layout of a body as steps ([flat_event]) numbers the arguments of a
   call below the number of arguments, so the arity check at the call head is
   all that is needed for the parameter look-ups to be in range: the
   precondition [wf] follows from its part about call heads and names. *)
From Verif Require Import Lib.Base Model.Resolver Proofs.Resolver.
Open Scope Z_scope.

(* [event] recurses through [list arg]: the induction principle Coq generates has
   no hypothesis for the events inside the arguments of a call *)

Definition arg_all (Pe : event -> Prop) (a : arg) : Prop :=
  match a with ArgVar _ => True | ArgExpr es => Forall Pe es end.

Section EventInd.
Variable Pe : event -> Prop.
Hypothesis Huse : forall v t, Pe (Use v t).
Hypothesis Hcall : forall f args, Forall (arg_all Pe) args -> Pe (Call f args).

Fixpoint event_ind' (e : event) : Pe e.
Proof.
  destruct e as [v t|f args].
  - apply Huse.
  - apply Hcall. induction args as [|a r IH]; constructor; [|exact IH].
    destruct a as [v|es]; cbn [arg_all]; [exact I|].
    induction es as [|e' es' IHes]; constructor; [apply event_ind' | exact IHes].
Defined.
End EventInd.

Fixpoint flat_args (f : name) (i : nat) (l : list arg) : list step :=
  match l with
  | [] => []
  | ArgVar v :: r => SArgVar f i v :: flat_args f (S i) r
  | ArgExpr es :: r => SArgExpr f i :: flat_events es ++ flat_args f (S i) r
  end.

Lemma flat_event_call f args :
  flat_event (Call f args) = SCallHead f (zlen args) :: flat_args f 0 args.
Proof.
  cbn [flat_event]. f_equal. generalize 0%nat. induction args as [|a r IH]; intros i; [reflexivity|].
  destruct a as [v|es]; cbn [flat_args]; rewrite <- IH; reflexivity.
Qed.

Definition wf_step0 (P : program) (cur : name) (st : step) : bool :=
  match st with
  | SArgExpr _ _ => true
  | SArgVar _ _ v => global_ok P cur v
  | _ => wf_step P cur st
  end.

Definition wf0 (P : program) : bool :=
  match first_dup [] (fnames P) with Some _ => false | None => true end
  && forallb (fun fd => negb (is_empty (f_name fd))) (p_funcs P)
  && negb (is_func P n_ARGV) && negb (is_func P n_ENVIRON) && negb (is_func P n_FIELDS)
  && forallb (fun fd => forallb (wf_step0 P (f_name fd)) (flat_events (f_body fd))) (p_funcs P)
  && forallb (wf_step0 P []) (flat_events (p_main P)).

Section Flat.
Variable P : program.
Variable cur : name.

Definition lifts (l : list step) : Prop :=
  forallb (wf_step0 P cur) l = true -> forallb (wf_step P cur) l = true.

Lemma lifts_app a b : lifts a -> lifts b -> lifts (a ++ b).
Proof. unfold lifts. rewrite !forallb_app, !andb_true_iff. tauto. Qed.

Lemma flat_events_lifts es : Forall (fun e => lifts (flat_event e)) es -> lifts (flat_events es).
Proof.
  unfold flat_events. induction 1 as [|e es He _ IH]; cbn [flat_map]; [intros _; reflexivity|].
  apply lifts_app; assumption.
Qed.

Lemma flat_args_lifts f (bound : nat) :
  (forall i, (i < bound)%nat -> arg_ok P f i = true) ->
  forall l i, (i + length l <= bound)%nat ->
  Forall (arg_all (fun e => lifts (flat_event e))) l -> lifts (flat_args f i l).
Proof.
  intros Hb. induction l as [|a r IH]; intros i Hi Hall; cbn [flat_args]; [intros _; reflexivity|].
  inversion Hall as [|x y H1 H2]; subst. cbn [length] in Hi. specialize (IH (S i) ltac:(lia) H2).
  destruct a as [v|es]; unfold lifts in *; cbn [forallb wf_step wf_step0]; rewrite (Hb i) by lia; cbn [andb].
  - rewrite !andb_true_iff. tauto.
  - apply lifts_app; [apply flat_events_lifts; exact H1 | exact IH].
Qed.

Lemma flat_event_lifts e : lifts (flat_event e).
Proof.
  induction e as [v t|f args IH] using event_ind'; [intros H; exact H|].
  rewrite flat_event_call. unfold lifts. cbn [forallb wf_step0]. intros H.
  apply andb_true_iff in H. destruct H as [Hhead Hr]. rewrite Hhead. cbn [andb].
  revert Hr. apply (flat_args_lifts f (length args)); [|lia | exact IH].
  intros i Hi. cbn [wf_step] in Hhead. apply andb_true_iff in Hhead. destruct Hhead as [_ Hhead].
  destruct (func_info P f) as [fi|] eqn:Efi; [|discriminate].
  apply (arity_arg_ok P f fi (zlen args) Efi); [|unfold zlen; lia].
  destruct (fi_native fi); [left; reflexivity | right; apply negb_true_iff; exact Hhead].
Qed.

Lemma forallb_flat_events es :
  forallb (wf_step0 P cur) (flat_events es) = true -> forallb (wf_step P cur) (flat_events es) = true.
Proof. apply flat_events_lifts. apply Forall_forall. intros e _. apply flat_event_lifts. Qed.

End Flat.

Lemma wf0_spec P : wf0 P = true <-> wf_props (wf_step0 P) P.
Proof. apply wf_with_spec. Qed.

Theorem wf0_wf P : wf0 P = true -> wf P = true.
Proof.
  intros H. apply wf_spec. apply wf0_spec in H. revert H. apply wf_props_mono. apply forallb_flat_events.
Qed.

Lemma wf_wf0 P : wf P = true -> wf0 P = true.
Proof.
  intros H. apply wf0_spec. apply wf_spec in H. revert H. apply wf_props_mono.
  intros cur es H. rewrite forallb_forall in *. intros st Hst. specialize (H st Hst).
  destruct st as [v t|f n|f i|f i v]; cbn [wf_step wf_step0] in *; auto.
  apply andb_true_iff in H. apply H.
Qed.
