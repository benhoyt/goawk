(* C09: %s and %c.  fmt pads and truncates by runes (utf8.RuneCount): equal to
   C (bytes) for ASCII text, and whenever neither width nor precision is given. *)
From Verif Require Import Lib.Base Lib.Dyadic Lib.Utf8 Model.Printf
  Proofs.PrintfSpec Proofs.Utf8Facts Proofs.PrintfBase Proofs.PrintfInt Proofs.PrintfDir Proofs.PrintfSprintf Proofs.PrintfParse.

Lemma ascii_ztake n s : ascii s = true -> ascii (ztake n s) = true.
Proof. apply forallb_firstn. Qed.

Theorem fmt_s_ascii chars f r s : st_matches f r -> space_pad f -> ascii s = true ->
  fmt_s f s = c_string chars r s.
Proof.
  intros (Hw & HwP & Hw0 & Hm & Hp & Hs & Hsp & Hz & Hpr & Hp0) Hsp0 Ha.
  unfold fmt_s, c_string. rewrite pad_norm; [| exact Hsp0 | rewrite Hw; exact HwP | rewrite Hw; exact Hw0].
  assert (Hu : units chars s = List.map (fun b => [b]) s) by (unfold units; destruct chars; [apply runes_ascii; exact Ha | reflexivity]).
  rewrite Hu, Hpr, <- Hm, Hw. unfold truncate. rewrite (runes_ascii s Ha).
  destruct (precP f).
  - rewrite ztake_map, concat_singletons, zlen_map. rewrite (rune_count_ascii _ (ascii_ztake (prec f) s Ha)).
    destruct (fminus f); reflexivity.
  - rewrite concat_singletons, zlen_map, (rune_count_ascii s Ha). destruct (fminus f); reflexivity.
Qed.

(* no width and no precision: any bytes, either mode *)
Theorem fmt_s_plain chars f r s : st_matches f r -> r_width r = 0 -> r_prec r = None ->
  fmt_s f s = s /\ c_string chars r s = s.
Proof.
  intros (Hw & HwP & Hw0 & Hm & Hp & Hs & Hsp & Hz & Hpr & Hp0) W0 P0.
  rewrite P0 in Hpr. destruct (precP f) eqn:EP; [discriminate|].
  split.
  - unfold fmt_s, truncate, pad. rewrite EP. rewrite Hw, W0. rewrite orb_true_r. reflexivity.
  - unfold c_string. rewrite P0, W0.
    assert (0 <= zlen (units chars s)) by apply zlen_nonneg. rewrite !rep_nonpos by lia.
    assert (E : concat (units chars s) = s).
    { unfold units. destruct chars; [apply runes_concat | apply concat_singletons]. }
    rewrite E. destruct (r_minus r); [rewrite app_nil_r|]; reflexivity.
Qed.

(* the character (one byte, or in character mode one rune) is padded to the width with spaces *)
Theorem fmt_s_char f r ch : st_matches f r -> space_pad f -> r_prec r = None -> rune_count ch = 1 ->
  fmt_s f ch = c_char r ch.
Proof.
  intros (Hw & HwP & Hw0 & Hm & Hp & Hs & Hsp & Hz & Hpr & Hp0) Hsp0 P0 H1.
  rewrite P0 in Hpr. destruct (precP f) eqn:EP; [discriminate|].
  unfold fmt_s, truncate, c_char. rewrite EP.
  rewrite pad_norm; [| exact Hsp0 | rewrite Hw; exact HwP | rewrite Hw; exact Hw0].
  rewrite H1, <- Hm, Hw. reflexivity.
Qed.

Lemma f2i32_awk_int x n : awk_int x = Some n -> -2147483648 <= n < 2147483648 -> f2i32 x = n.
Proof.
  destruct x as [| |m e]; cbn [awk_int]; try discriminate. intros [= <-] H. unfold f2i32.
  replace (-2147483648 <=? ftrunc m e) with true by lia.
  replace (ftrunc m e <? 2147483648) with true by lia. reflexivity.
Qed.

(* what %c converts its argument to (functions.go `case 'c'`), byte mode *)
Theorem conv_c_number_bytes ffmt x n : awk_int x = Some n -> -2147483648 <= n < 2147483648 ->
  conv_c false ffmt (VNum x) = Ok [n mod 256].
Proof. intros Ha H. unfold conv_c. cbn [v_is_true_str]. rewrite (f2i32_awk_int x n Ha H). reflexivity. Qed.

Theorem conv_c_number_chars ffmt x n : awk_int x = Some n -> -2147483648 <= n < 2147483648 ->
  conv_c true ffmt (VNum x) = Ok (encode_rune n).
Proof. intros Ha H. unfold conv_c. cbn [v_is_true_str]. rewrite (f2i32_awk_int x n Ha H). reflexivity. Qed.

Theorem conv_c_string_bytes ffmt b t n : conv_c false ffmt (VStr (b :: t) n) = Ok [b].
Proof. reflexivity. Qed.

(* character mode: the bytes of the first rune (one byte if it is not valid UTF-8) *)
Theorem conv_c_string_chars ffmt b t n :
  conv_c true ffmt (VStr (b :: t) n) = Ok (ztake (snd (decode_rune (b :: t))) (b :: t)).
Proof.
  unfold conv_c. cbn [v_is_true_str v_str rbind].
  pose proof (decode_rune_width (b :: t) ltac:(discriminate)) as W.
  unfold slice. replace (0 <=? 0) with true by reflexivity.
  replace (0 <=? snd (decode_rune (b :: t))) with true by lia.
  replace (snd (decode_rune (b :: t)) <=? zlen (b :: t)) with true by lia.
  cbn [andb]. rewrite Z.sub_0_r. reflexivity.
Qed.

(* the empty string: goawk prints a NUL byte (the property leaves this case open) *)
Lemma conv_c_empty_string chars ffmt n : conv_c chars ffmt (VStr [] n) = Ok [0].
Proof. reflexivity. Qed.

Lemma st_space_pad f d wv pv : st_matches f (resolve d wv pv) -> has 48 (d_flags d) = false -> space_pad f.
Proof.
  intros (Hw & HwP & Hw0 & Hm & Hp & Hs & Hsp & Hz & Hpr & Hp0) H48. unfold space_pad.
  destruct (fminus f) eqn:EM; [rewrite andb_false_r; reflexivity|].
  cbn [negb]. rewrite andb_true_r. rewrite Hz by (symmetry; exact Hm). exact H48.
Qed.

Lemma rune_count_whole c : c <> [] -> snd (decode_rune c) = zlen c -> rune_count c = 1.
Proof.
  intros Hne Hw. unfold rune_count. rewrite (runes_cons c Hne), Hw, zdrop_all by lia. reflexivity.
Qed.

Lemma rune_count_single b : rune_count [b] = 1.
Proof.
  apply rune_count_whole; [discriminate|].
  pose proof (decode_rune_width [b] ltac:(discriminate)) as H. rewrite zlen_cons, zlen_nil in *. lia.
Qed.

(* the first rune of a non-empty string counts as one character *)
Theorem first_rune_is_one_unit s : s <> [] -> rune_count (ztake (snd (decode_rune s)) s) = 1.
Proof.
  intros H. pose proof (decode_rune_width s H) as W. set (w := snd (decode_rune s)) in *.
  assert (Hz : zlen (ztake w s) = w) by (apply zlen_ztake; lia).
  assert (Hne : ztake w s <> []) by (intros E; rewrite E, zlen_nil in Hz; lia).
  apply rune_count_whole; [exact Hne|]. rewrite Hz.
  rewrite <- (decode_rune_prefix (ztake w s) (zdrop w s) Hne); rewrite ztake_zdrop; [reflexivity | fold w; lia].
Qed.

Lemma rune_count_seq r s : utf8_seq r s -> rune_count s = 1.
Proof.
  intros H. apply rune_count_whole; [destruct H; discriminate|].
  rewrite <- (app_nil_r s) at 1. rewrite (decode_seq r s [] H). reflexivity.
Qed.

(* utf8.EncodeRune produces exactly one rune (invalid code points become U+FFFD) *)
Theorem encode_rune_is_one_unit n : rune_count (encode_rune n) = 1.
Proof.
  destruct ((n <? 0) || (1114111 <? n) || ((55296 <=? n) && (n <=? 57343))) eqn:E.
  - unfold encode_rune. rewrite E. reflexivity.
  - apply (rune_count_seq n), encode_rune_seq.
    apply orb_false_iff in E as [E E3]. apply orb_false_iff in E as [E1 E2]. apply Z.ltb_ge in E1, E2.
    apply andb_false_iff in E3 as [E3|E3]; apply Z.leb_gt in E3; lia.
Qed.
