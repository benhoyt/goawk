(* C19: parsing is deterministic - what holds of the resolver whatever the order of its walk.
   The table an accepted run ends with has a set of keys fixed by the program, and the
   program meets C16's precondition [wf]; so two accepted runs give the same types and - the
   global names being sorted before they are numbered - the same indexes.  From that: types
   and indexes, verdict, error and whole result of [resolve] under any two permutation
   oracles; and the programs on which the order of the walk shows, evaluated on the model. *)
From Verif Require Import Lib.Base Model.Resolver Model.Determinism Proofs.Resolver Proofs.ResolverSound
  Proofs.ResolverExact Proofs.ResolverBound Proofs.ResolverOrder Proofs.ResolverFlat Proofs.ResolverLoop
  Proofs.ResolverMain Proofs.DeterminismSort Proofs.DeterminismPerm.
From Coq Require Import Permutation.
Open Scope Z_scope.

Definition nofunc (P : program) (t : vtable) : Prop :=
  forall v : name, get t (gk v) <> None -> is_func P v = false.

Lemma record_var_nofunc P s cur v typ s' :
  nofunc P (st_vars s) -> record_var P s cur v typ = ROk s' -> nofunc P (st_vars s').
Proof.
  intros Hn H. pose proof (record_var_out P s cur v typ) as O. rewrite H in O.
  inversion O as [|sc vf _ G _|_ Ef| |]; subst; cbn [st_vars]; [exact Hn| |];
    intros x Hx; rewrite get_put in Hx.
  - destruct (key_eqb (gk x) (vf, v)) eqn:E; [|apply Hn; exact Hx].
    apply key_eqb_eq in E. rewrite <- E in G. apply Hn. congruence.
  - destruct (key_eqb (gk x) (gk v)) eqn:E; [|apply Hn; exact Hx].
    apply key_eqb_eq in E. injection E as ->. exact Ef.
Qed.

Lemma init_vars_nofunc P : names_ok P -> nofunc P (init_vars P).
Proof.
  intros Hne v Hv. exfalso. destruct (init_vars_key P _ Hv) as [fd [p [Hfd [_ E]]]].
  injection E as E _. apply (Hne fd Hfd). congruence.
Qed.

Section Dom.
Variable P : program.
Hypothesis Hnodup : NoDup (fnames P).
Hypothesis Hnonempty : names_ok P.

(* everything known about the state an accepted run ends in *)
Record accepted (order : list name) (s : state) (F : final) : Prop := {
  acc_by : accepted_by P s F;
  acc_quiet : pass_quiet P s order;
  acc_bounded : bounded P s;
  acc_nofunc : nofunc P (st_vars s)
}.

Lemma resolve_order_accepted cut order F :
  resolve_order cut order P = ROk F -> exists s, accepted order s F.
Proof.
  rewrite resolve_order_eq. intros H. destruct (finish_ROk _ _ _ H) as [_ [s [Ep ->]]].
  destruct (passes_ok P Hnodup Hnonempty order cut s Ep) as [Hok [Hb Hq]].
  exists s. split.
  - split; [reflexivity | split; assumption].
  - exact Hq.
  - exact (passes_bounded P Hnodup Hnonempty order cut s Ep).
  - exact (passes_kept P _ (record_var_nofunc P) order cut s (init_vars_nofunc P Hnonempty) Ep).
Qed.

Lemma quiet_constraint_keys s cur st c k :
  inv P (st_vars s) -> quiet P s cur st -> In c (constr_of_step P cur st) -> mentions c k ->
  kspecial k = false -> get (st_vars s) k <> None.
Proof.
  intros Hi [_ [_ Hp]] Hc Hk Hs.
  destruct (constr_of_step_mentions P Hnonempty cur st c k Hc Hk) as [Hv|[f [p [Hf [Hin ->]]]]].
  - assert (Hpres : present (st_vars s) k) by (destruct st; try contradiction; subst k; exact Hp).
    destruct Hpres as [Hpres|Hpres]; [congruence | exact Hpres].
  - exact (local_present P _ f p Hi Hf Hin).
Qed.

(* DOMAIN: the keys an accepted run ends with are exactly the non-special keys
   the program mentions - a set that does not depend on the order of the walk *)
Lemma accepted_domain order s F :
  covers P order -> accepted order s F ->
  forall k, get (st_vars s) k <> None <-> (In k (var_keys P) /\ kspecial k = false).
Proof.
  intros Hcov [[_ [[Hi _] [B1 [B2 B3]]]] Hpq [_ [Hincl _]] _] k.
  pose proof (pass_quiet_all P Hnodup s order Hcov Hpq) as Haq.
  split.
  - intros Hk. split.
    + apply Hincl. apply get_present_keys. exact Hk.
    + destruct (kspecial k) eqn:Es; [|reflexivity]. exfalso. apply Hk.
      destruct (kspecial_true k Es) as [v [-> Hv]]. destruct Hi as [_ I2]. apply I2. exact Hv.
  - intros [Hk Hs]. unfold var_keys in Hk. rewrite !in_app_iff in Hk. destruct Hk as [Hk|[Hk|Hk]].
    + cbn [In] in Hk. destruct Hk as [<-|[<-|[<-|[]]]]; congruence.
    + unfold local_keys in Hk. apply in_flat_map in Hk. destruct Hk as [fd [Hfd Hk]].
      apply in_map_iff in Hk. destruct Hk as [p [<- Hp]].
      apply (local_present P _ (f_name fd) p Hi (Hnonempty fd Hfd)).
      rewrite (params_of_fd P Hnodup fd Hfd). exact Hp.
    + apply in_flat_map in Hk. destruct Hk as [c [Hc Hk]].
      destruct (prog_constraint_quiet P s c Haq Hc) as [cur [st [Hq Hcs]]].
      exact (quiet_constraint_keys s cur st c k Hi Hq Hcs (keys_of_mentions c k Hk) Hs).
Qed.

Lemma present_global_ok t cur v :
  nofunc P t -> present t (scope_key P cur v) -> global_ok P cur v = true.
Proof.
  intros Hn Hp. destruct (scope_key_cases P cur v) as [[Hc [Hv _]]|[_ E]].
  - apply global_ok_param; assumption.
  - rewrite E in Hp. unfold global_ok. destruct Hp as [Hp|Hp].
    + rewrite kspecial_gk in Hp. rewrite Hp, orb_true_r. reflexivity.
    + rewrite (Hn v Hp). cbn [negb]. apply orb_true_r.
Qed.

Lemma quiet_wf_step s cur st :
  inv P (st_vars s) -> nofunc P (st_vars s) -> quiet P s cur st -> wf_step P cur st = true.
Proof.
  intros Hi Hn [Hv [_ Hp]]. destruct st as [v t|f nargs|f i|f i v].
  - exact (present_global_ok _ cur v Hn Hp).
  - exact (visit_head_wf P cur s f nargs Hi Hv).
  - apply (visit_arg_ok P cur s f i s). left. exact Hv.
  - cbn [wf_step]. apply andb_true_iff. split; [|exact (present_global_ok _ cur v Hn Hp)].
    apply (visit_arg_ok P cur s f i s). right. exists v. exact Hv.
Qed.

Lemma accepted_wf cut order F :
  covers P order -> resolve_order cut order P = ROk F -> wf P = true.
Proof.
  intros Hcov H. destruct (resolve_order_accepted cut order F H) as [s [[_ [[Hi _] [B1 [B2 B3]]]] Hpq _ Hn]].
  destruct (pass_quiet_all P Hnodup s order Hcov Hpq) as [Hfq Hmq].
  assert (Hst : forall cur l, Forall (quiet P s cur) l -> forallb (wf_step P cur) l = true).
  { intros cur l Hl. apply forallb_forall. rewrite Forall_forall in Hl.
    intros st Hst. apply (quiet_wf_step s); auto. }
  apply wf_spec. split; [exact Hnodup|]. split; [exact Hnonempty|]. split; [|split].
  - repeat split; apply Hn; congruence.
  - intros fd Hfd. apply Hst, Hfq, Hfd.
  - apply Hst, Hmq.
Qed.

(* the result depends on the final table only through its defaulted types: the global names
   are sorted before they are numbered *)
Lemma finalize_equiv s s' :
  NoDup (map fst (st_vars s)) -> NoDup (map fst (st_vars s')) ->
  (forall k, get (defaulted (st_vars s)) k = get (defaulted (st_vars s')) k) ->
  final_equiv (finalize P s) (finalize P s').
Proof.
  intros Hnd Hnd' Hget. unfold final_equiv.
  rewrite !fin_types_finalize, !fin_gidx_finalize, !fin_lidx_finalize.
  set (t := defaulted (st_vars s)) in *. set (t' := defaulted (st_vars s')) in *.
  assert (Hgu : forall fn n, get_or_unknown t (fn, n) = get_or_unknown t' (fn, n)).
  { intros fn n. unfold get_or_unknown. rewrite Hget. reflexivity. }
  split; [exact Hget|]. split.
  - assert (Hperm : Permutation (global_names t) (global_names t')).
    { apply NoDup_Permutation.
      - apply NoDup_global_names. unfold t. rewrite map_fst_defaulted. exact Hnd.
      - apply NoDup_global_names. unfold t'. rewrite map_fst_defaulted. exact Hnd'.
      - intros x. rewrite !In_global_names, <- !get_present_keys, Hget. reflexivity. }
    rewrite (sort_names_canonical _ _ Hperm). apply assign_idx_ext. intros n. apply Hgu.
  - apply map_ext. intros fd. f_equal. apply assign_idx_ext. intros n. apply Hgu.
Qed.

(* the two tables have the same keys (DOMAIN), and which of the keys are arrays is
   determined by the constraints of the program (C16: [types_correspond]) *)
Theorem accepted_final_equiv cut cut' order order' F F' :
  covers P order -> covers P order' ->
  resolve_order cut order P = ROk F -> resolve_order cut' order' P = ROk F' ->
  final_equiv F F'.
Proof.
  intros Hcov Hcov' H H'.
  pose proof (types_correspond P P (fun k => k) (fun k => k) (fun _ => eq_refl) (fun _ => eq_refl)
                (fun rho => iff_refl _) cut cut' order order' F F' Hnonempty Hnonempty Hcov Hcov' H H') as Hrho.
  destruct (resolve_order_accepted cut order F H) as [s Hacc].
  destruct (resolve_order_accepted cut' order' F' H') as [s' Hacc'].
  assert (Hdom : forall k, get (st_vars s) k <> None <-> get (st_vars s') k <> None).
  { intros k. rewrite (accepted_domain order s F Hcov Hacc), (accepted_domain order' s' F' Hcov' Hacc'). reflexivity. }
  destruct Hacc as [[-> _] _ [Hnd _] _]. destruct Hacc' as [[-> _] _ [Hnd' _] _].
  apply finalize_equiv; [exact Hnd | exact Hnd'|].
  intros k. specialize (Hrho k). specialize (Hdom k). rewrite !fin_types_finalize in Hrho.
  unfold rho_of in Hrho. rewrite !get_defaulted in *.
  destruct (get (st_vars s) k) as [a|]; destruct (get (st_vars s') k) as [a'|]; cbn [option_map] in *.
  - destruct a, a'; cbn [default_ty] in *; congruence.
  - exfalso. apply (proj1 Hdom); [discriminate | reflexivity].
  - exfalso. apply (proj2 Hdom); [discriminate | reflexivity].
  - reflexivity.
Qed.

End Dom.

(* ---------- the resolver under any two map iteration orders ---------------------------- *)

Lemma resolve_ok_order pi P F :
  perm_oracle pi -> resolve pi P = ROk F ->
  exists order, covers P order /\ resolve_order (pass_fuel P) order P = ROk F /\ NoDup (fnames P).
Proof.
  rewrite resolve_is_cut. intros Hpi H.
  destruct (resolve_cut_order _ pi P _ H ltac:(discriminate)) as [[order [Ho Hr]]|[f Hf]]; [|discriminate].
  exists order. split; [eapply ordered_funcs_covers; eassumption|]. split; [exact Hr|].
  eapply resolve_order_nodup; [exact Hr | intros f; discriminate].
Qed.

(* TYPES AND INDEXES: no guard is needed - two accepted runs of the resolver on
   the same program answer every LookupVar alike *)
Theorem accepted_deterministic pi pi' P F F' :
  perm_oracle pi -> perm_oracle pi' -> names_ok P ->
  resolve pi P = ROk F -> resolve pi' P = ROk F' -> final_equiv F F'.
Proof.
  intros Hpi Hpi' Hne H H'.
  destruct (resolve_ok_order pi P F Hpi H) as [order [Hcov [Hr Hnd]]].
  destruct (resolve_ok_order pi' P F' Hpi' H') as [order' [Hcov' [Hr' _]]].
  exact (accepted_final_equiv P Hnd Hne _ _ order order' F F' Hcov Hcov' Hr Hr').
Qed.

(* an accepted program meets C16's precondition, so C16's theorems apply to it *)
Theorem accepted_wf0 pi P F :
  perm_oracle pi -> names_ok P -> resolve pi P = ROk F -> wf0 P = true.
Proof.
  intros Hpi Hne H. destruct (resolve_ok_order pi P F Hpi H) as [order [Hcov [Hr Hnd]]].
  apply wf_wf0. exact (accepted_wf P Hnd Hne _ order F Hcov Hr).
Qed.

Lemma accepted_any_order pi pi' P F :
  perm_oracle pi -> perm_oracle pi' -> names_ok P -> resolve pi P = ROk F -> exists F', resolve pi' P = ROk F'.
Proof.
  intros Hpi Hpi' Hne HF. pose proof (accepted_wf0 pi P F Hpi Hne HF) as Hwf.
  pose proof (resolve_never_gives_up pi P) as Hn. pose proof (resolve_never_gives_up pi' P) as Hn'.
  rewrite resolve_is_cut in HF, Hn. rewrite resolve_is_cut in Hn' |- *.
  apply (main_map_order_irrelevant _ pi pi' P Hpi Hpi' Hwf Hn Hn'). eauto.
Qed.

(* VERDICT: the resolver never answering "too many iterations", acceptance does
   not depend on the order of the walk *)
Theorem verdict_any_order pi pi' P :
  perm_oracle pi -> perm_oracle pi' -> names_ok P ->
  ((exists F, resolve pi P = ROk F) <-> (exists F', resolve pi' P = ROk F')).
Proof.
  intros Hpi Hpi' Hne. split; intros [F HF].
  - exact (accepted_any_order pi pi' P F Hpi Hpi' Hne HF).
  - exact (accepted_any_order pi' pi P F Hpi' Hpi Hne HF).
Qed.

Theorem lookup_deterministic F F' :
  final_equiv F F' -> forall fn v, lookup_final F fn v = lookup_final F' fn v.
Proof.
  intros [Ht [Hg Hl]] fn v. unfold lookup_final. rewrite Hg, Hl, !Ht. reflexivity.
Qed.

(* anything computed from the syntax tree through LookupVar/LookupFunc - as the
   compiler is, Model/Compiler.v being a function of the tree annotated with
   these answers - is the same for the two results *)
Theorem compiled_deterministic {A} (compile : (name -> name -> option (scope * ty * Z)) -> A) F F' :
  (forall l l', (forall fn v, l fn v = l' fn v) -> compile l = compile l') ->
  final_equiv F F' -> compile (lookup_final F) = compile (lookup_final F').
Proof. intros Hext He. apply Hext. apply lookup_deterministic. exact He. Qed.

Lemma rerr_eqb_eq a b : rerr_eqb a b = true -> a = b.
Proof.
  destruct a, b; cbn [rerr_eqb]; intros H; try discriminate H; try reflexivity.
  1-6: apply neqb_eq in H; congruence.
  1-2: rewrite !andb_true_iff, !ty_eqb_eq, neqb_eq in H; destruct H as [[-> ->] ->]; reflexivity.
Qed.

Lemma one_error_same cut P e e' :
  one_error cut P = true ->
  In (RErr e) (order_outcomes cut P) -> In (RErr e') (order_outcomes cut P) -> e = e'.
Proof.
  unfold one_error. intros H He He'.
  assert (Hf : forall x, In (RErr x) (order_outcomes cut P) ->
               In (RErr x) (filter (fun r => negb (is_ok r)) (order_outcomes cut P))).
  { intros x Hx. apply filter_In. split; [exact Hx | reflexivity]. }
  apply Hf in He, He'.
  destruct (filter (fun r => negb (is_ok r)) (order_outcomes cut P)) as [|r0 rs]; [destruct He|].
  rewrite forallb_forall in H.
  assert (G : forall x, In (RErr x) (r0 :: rs) -> err_of r0 = Some x).
  { intros x [->|Hx]; [reflexivity|]. specialize (H _ Hx). cbn [err_of] in H.
    destruct (err_of r0) as [a|]; [|discriminate]. apply rerr_eqb_eq in H. congruence. }
  apply G in He, He'. congruence.
Qed.

(* ERROR (guard = "the error set is a singleton", a computable check over the
   orders of the functions; it holds in particular when the program has at most
   one function) *)
Theorem error_any_order pi pi' P e e' :
  perm_oracle pi -> perm_oracle pi' -> names_ok P -> one_error (pass_fuel P) P = true ->
  resolve pi P = RErr e -> resolve pi' P = RErr e' -> e = e'.
Proof.
  intros Hpi Hpi' Hne H1 He He'.
  pose proof (outcome_enumerated pi P Hpi Hne) as Hi. rewrite He in Hi.
  pose proof (outcome_enumerated pi' P Hpi' Hne) as Hi'. rewrite He' in Hi'.
  eapply one_error_same; eassumption.
Qed.

(* at most one function: there is one order, the whole result is determined *)
Theorem single_function_deterministic pi pi' P :
  perm_oracle pi -> perm_oracle pi' -> names_ok P -> (length (p_funcs P) <= 1)%nat ->
  resolve pi P = resolve pi' P.
Proof.
  intros Hpi Hpi' Hne Hl.
  pose proof (outcome_enumerated pi P Hpi Hne) as Hi.
  pose proof (outcome_enumerated pi' P Hpi' Hne) as Hi'.
  unfold order_outcomes, fnames in Hi, Hi'.
  destruct (p_funcs P) as [|fd [|fd2 r]]; cbn [map perms flat_map insert_all app In length] in *; try lia.
  all: destruct Hi as [Hi|[]]; destruct Hi' as [Hi'|[]]; congruence.
Qed.

(* THE WHOLE RESULT (one guard: the error set is a singleton) *)
Theorem result_any_order pi pi' P :
  perm_oracle pi -> perm_oracle pi' -> names_ok P -> one_error (pass_fuel P) P = true ->
  same_result (resolve pi P) (resolve pi' P).
Proof.
  intros Hpi Hpi' Hne H1.
  pose proof (resolve_no_panic pi P) as Hp. pose proof (resolve_no_panic pi' P) as Hp'.
  pose proof (resolve_no_fuel pi P Hpi) as Hf. pose proof (resolve_no_fuel pi' P Hpi') as Hf'.
  destruct (resolve pi P) as [F|e| |] eqn:E; destruct (resolve pi' P) as [F'|e'| |] eqn:E';
    try congruence; cbn [same_result].
  - eapply accepted_deterministic; [exact Hpi | exact Hpi' | exact Hne | exact E | exact E'].
  - destruct (accepted_any_order pi pi' P F Hpi Hpi' Hne E) as [F' HF']. congruence.
  - destruct (accepted_any_order pi' pi P F' Hpi' Hpi Hne E') as [F HF]. congruence.
  - eapply error_any_order; [exact Hpi | exact Hpi' | exact Hne | exact H1 | exact E | exact E'].
Qed.

Lemma remove_first_perm x l : In x l -> Permutation (x :: remove_first x l) l.
Proof.
  induction l as [|y r IH]; intros H; [destruct H|]. cbn [remove_first].
  destruct (neqb y x) eqn:E.
  - apply neqb_eq in E. subst. apply Permutation_refl.
  - destruct H as [H|H]; [apply neqb_neq in E; congruence|].
    eapply Permutation_trans; [apply perm_swap | apply perm_skip; apply IH; exact H].
Qed.

Lemma front_oracle_perm x : perm_oracle (front_oracle x).
Proof.
  intros k l. unfold front_oracle. destruct (mem x l) eqn:E; [|apply Permutation_refl].
  apply remove_first_perm. apply mem_In. exact E.
Qed.

(* ---------- the witnesses and the non-vacuity examples, evaluated on the model ------------ *)

Lemma names_ok_forallb P :
  forallb (fun fd => negb (is_empty (f_name fd))) (p_funcs P) = true -> names_ok P.
Proof.
  intros H fd Hfd. rewrite forallb_forall in H. specialize (H fd Hfd).
  apply negb_true_iff in H. apply is_empty_false. exact H.
Qed.

(* two independent type errors: which one is reported depends on the function walked first,
   and the guard of ERROR excludes the program *)
Lemma two_bad_names : names_ok two_bad.
Proof. apply names_ok_forallb. reflexivity. Qed.

Lemma two_bad_f_first : resolve (front_oracle [102]) two_bad = RErr (EUse TArray n_a TScalar).
Proof. vm_compute. reflexivity. Qed.

Lemma two_bad_g_first : resolve (front_oracle [103]) two_bad = RErr (EUse TArray n_b TScalar).
Proof. vm_compute. reflexivity. Qed.

Lemma two_bad_guard : one_error (pass_fuel two_bad) two_bad = false.
Proof. vm_compute. reflexivity. Qed.

Lemma one_bad_guard : names_ok one_bad /\ one_error (pass_fuel one_bad) one_bad = true /\
  resolve (front_oracle [103]) one_bad = RErr (EUse TArray n_a TScalar).
Proof. split; [apply names_ok_forallb; reflexivity|]. split; vm_compute; reflexivity. Qed.

Lemma good_prog_accepted : names_ok good_prog /\ one_error (pass_fuel good_prog) good_prog = true /\
  is_ok (resolve (front_oracle [102]) good_prog) = true /\ is_ok (resolve (front_oracle [103]) good_prog) = true.
Proof. split; [apply names_ok_forallb; reflexivity|]. repeat split; vm_compute; reflexivity. Qed.

(* function f(a) { natv(a) } with the Go function natv: both have index 0, only natv is entered *)
Lemma native_clash_shown :
  func_keys native_clash = [n_natv; [102]] /\
  name_shown native_clash [n_natv; [102]] 0 = Some n_natv /\
  name_shown native_clash [[102]; n_natv] 0 = Some n_natv.
Proof. repeat split; vm_compute; reflexivity. Qed.

(* the repaired resolver walks in name order: f before g, so f's error *)
Lemma two_bad_sorted : resolve name_order_oracle two_bad = RErr (EUse TArray n_a TScalar).
Proof. vm_compute. reflexivity. Qed.
