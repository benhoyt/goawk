(* goawk level: interp.newScanner's dispatch on RS, and what holds for each kind of RS. *)
From Verif Require Import Lib.Base Model.Scanner Model.Splitters
  Proofs.Scanner Proofs.Splitters Proofs.SplittersBlank.

(* RS is handled by regexSplitter: not "\n", and two or more bytes *)
Definition rs_is_regex (rs : bytes) : bool :=
  negb (bytes_eqb rs [10]) && (2 <=? zlen rs).

Section Goawk.
  Variable find : bytes -> option (Z * Z).
  Hypothesis find_bounds : forall d s e, find d = Some (s, e) -> 0 <= s /\ s <= e /\ e <= zlen d.

  (* newScanner's dispatch: what holds of ScanLines, of blankLineSplitter, of every byteSplitter
     and of the regexSplitter for the RS it is chosen for holds of goawk's split function *)
  Lemma goawk_split_cases rs (P : splitfn unit record -> Prop) :
    P lines_split -> P blank_full -> (forall c, P (byte_split c)) ->
    (rs_is_regex rs = true -> P (to_split rs (regex_scan find))) ->
    P (goawk_split rs find).
  Proof.
    intros Hl Hb Hc Hre. unfold goawk_split, new_scanner_raw.
    destruct (bytes_eqb rs [10]) eqn:E.
    - apply bytes_eqb_eq in E. subst rs. exact Hl.
    - destruct rs as [|c [|c2 rs]]; [exact Hb|exact (Hc c)|].
      apply Hre. unfold rs_is_regex. rewrite E. cbn [negb andb]. rewrite !zlen_cons.
      pose proof (zlen_nonneg rs). apply Z.leb_le. lia.
  Qed.

  Lemma goawk_split_stable rs :
    (rs_is_regex rs = true -> match_final find) ->
    stable unit record (goawk_split rs find).
  Proof.
    intros Hre. apply goawk_split_cases.
    - exact lines_stable.
    - exact blank_full_stable.
    - exact byte_stable.
    - intros H. exact (regex_stable find rs find_bounds (Hre H)).
  Qed.

  (* every RS: records AND RT are independent of the delivery (a regex RS needs match_final) *)
  Theorem goawk_chunk_independence rs :
    (rs_is_regex rs = true -> match_final find) ->
    forall last_eof chunks, reader_ok last_eof O chunks ->
    scan unit record (goawk_split rs find) last_eof tt chunks
    = scan unit record (goawk_split rs find) false tt [concat chunks].
  Proof.
    intros Hre last_eof chunks Hr.
    apply chunk_independence; [apply goawk_split_stable; assumption|exact Hr].
  Qed.

  (* RS = "": ($0, RT) and NR are independent of the delivery, unconditionally *)
  Theorem goawk_blank_chunk_independent :
    forall last_eof chunks, reader_ok last_eof O chunks ->
    scan unit record (goawk_split [] find) last_eof tt chunks
    = scan unit record (goawk_split [] find) false tt [concat chunks].
  Proof.
    intros last_eof chunks Hr. apply goawk_chunk_independence; [|exact Hr].
    unfold rs_is_regex. cbn. discriminate.
  Qed.

  (* every split function of goawk: never panics, advances within the data, never delivers a
     token without advancing (so bufio's "too many empty tokens" panic and the errors
     ErrNegativeAdvance / ErrAdvanceTooFar are unreachable) *)
  Lemma goawk_split_wb rs : wb unit record (goawk_split rs find).
  Proof.
    apply goawk_split_cases.
    - exact (st_wb _ _ _ lines_stable).
    - exact blank_full_wb.
    - intros c. exact (st_wb _ _ _ (byte_stable c)).
    - intros _. exact (regex_wb find rs find_bounds).
  Qed.

  Theorem goawk_scan_never_fails rs last_eof chunks :
    reader_ok last_eof O chunks ->
    snd (scan unit record (goawk_split rs find) last_eof tt chunks) = Done.
  Proof. exact (scan_from_done unit record _ (goawk_split_wb rs) last_eof chunks tt [] O). Qed.

  (* regex RS: record ++ RT, concatenated in order, is the input - for EVERY delivery, also
     the ones on which the records themselves depend on the delivery (F-C07-1) *)
  Theorem goawk_regex_lossless rs : rs_is_regex rs = true ->
    forall last_eof chunks, reader_ok last_eof O chunks ->
    let r := scan unit record (goawk_split rs find) last_eof tt chunks in
    snd r = Done /\ concat (map (fun t => fst t ++ snd t) (fst r)) = concat chunks.
  Proof.
    intros Hre last_eof chunks Hr.
    unfold rs_is_regex in Hre. apply andb_true_iff in Hre as [E1 E2].
    apply negb_true_iff in E1. apply Z.leb_le in E2.
    unfold goawk_split, new_scanner_raw. rewrite E1.
    destruct rs as [|c [|c2 rs]]; [rewrite zlen_nil in E2; lia|rewrite zlen_cons, zlen_nil in E2; lia|].
    exact (scan_lossless unit record _ _ (regex_consuming find (c :: c2 :: rs) find_bounds)
             last_eof chunks tt [] O Hr).
  Qed.
End Goawk.
