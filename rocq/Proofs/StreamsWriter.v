(* C13 proofs: the single writer of an *os.File Output, and write failures of
   an unbuffered Output.  Both read off [steady] what everything but the write
   of a print statement to standard output does, and look at that write. *)
From Verif Require Import Lib.Base Model.Streams Proofs.StreamsBase Proofs.StreamsSpec Proofs.StreamsTrace.

(* without a bufio.Writer Output, writeCSV hands the record on as print does *)
Lemma printrec_as_print E s d rec : (forall cap, e_mode E <> Buf cap) ->
  step E s (PrintRec d rec) = step E s (Print d [rec]).
Proof.
  intros Hm. cbn [step]. unfold step_print. destruct (get_output_stream E s d) as [s1 [[|n]|]]; auto.
  unfold write_stdout_rec. destruct (e_mode E) as [| |cap]; auto. destruct (Hm cap eq_refl).
Qed.

Section OsFile.
Variable E : env.
Hypothesis Hmode : e_mode E = OsFile.

Lemma ov_steady s s' : steady E s s' -> st_overlap s' = st_overlap s.
Proof. intros (_ & H & _). exact (H Hmode). Qed.

Lemma ov_step_print s d ps : st_overlap (fst (step E s (Print d ps))) = st_overlap s.
Proof.
  cbn [step]. unfold step_print.
  pose proof (ov_steady _ _ (get_output_stream_steady E s d)) as H1.
  destruct (get_output_stream E s d) as [s1 [[|n]|]]; cbn [fst] in *; auto.
  - rewrite <- H1, <- (ov_steady _ _ (touch_steady E s1)). unfold write_stdout. rewrite Hmode.
    destruct (write_pieces_direct _ _) as [k [|]]; reflexivity.
  - destruct (alookup n (st_outs s1)) as [os|]; cbn [fst]; auto.
    set (s1' := add_log s1 _). pose proof (ov_steady _ _ (write_ostream_steady E s1' n os (concat ps))) as H2.
    destruct (write_ostream _ _ _ _ _) as [s2 os']. cbn [fst st_overlap set_outs] in *. rewrite H2. exact H1.
Qed.

Lemma ov_step s o : st_overlap (fst (step E s o)) = st_overlap s.
Proof.
  destruct (op_print o) as [[d data]|] eqn:Eo; [|apply ov_steady, step_steady, Eo].
  destruct o; try discriminate.
  - apply ov_step_print.
  - rewrite printrec_as_print by (rewrite Hmode; discriminate). apply ov_step_print.
Qed.

Lemma ov_exec ops : forall s, st_overlap (fst (exec E s ops)) = st_overlap s.
Proof.
  induction ops as [|o ops IH]; intros s; cbn [exec]; [reflexivity|].
  pose proof (ov_step s o) as H. destruct (step E s o) as [s1 [| |]]; cbn [fst] in *; auto.
  rewrite IH. exact H.
Qed.

Theorem single_writer_osfile s0 ops : st_overlap (fst (run E s0 ops)) = st_overlap s0.
Proof.
  unfold run. pose proof (ov_exec ops s0) as H. destruct (exec E s0 ops) as [s1 r]. cbn [fst] in *.
  rewrite (ov_steady _ _ (close_all_steady E s1)). exact H.
Qed.
End OsFile.

Section Direct.
Variable E : env.
Hypothesis Hmode : e_mode E = Unbuf \/ e_mode E = OsFile.
(* no child writes to the shared standard output *)
Hypothesis Hsilent : forall c, c_stdout (e_spec E c) = [] /\ c_echo (e_spec E c) = false.

(* the invariant: the sink holds exactly what the program's own statements wrote, and that fits *)
Definition usink (k : nat) (s : state) : Prop :=
  sk_limit (st_sink s) = Some k /\ sk_data (st_sink s) = own_stdout (st_log s) /\ (length (sk_data (st_sink s)) <= k)%nat.

Lemma own_stdout_calm l log : Forall calm l -> own_stdout (l ++ log) = own_stdout log.
Proof.
  induction 1 as [|e l He _ IH]; cbn [app own_stdout]; auto. rewrite IH.
  destruct e; try contradiction; apply app_nil_r.
Qed.

Lemma usink_steady k s s' : steady E s s' -> usink k s -> usink k s'.
Proof.
  intros ((l & Hl & Fl) & _ & Hk) (A & B & C). unfold usink.
  rewrite (Hk Hmode Hsilent), Hl, (own_stdout_calm _ _ Fl). auto.
Qed.

Lemma write_pieces_direct_ok L ps : forall k k', write_pieces_direct k ps = (k', true) -> sk_limit k = Some L ->
  (length (sk_data k) <= L)%nat ->
  sk_limit k' = Some L /\ sk_data k' = sk_data k ++ concat ps /\ (length (sk_data k') <= L)%nat.
Proof.
  induction ps as [|p ps IH]; intros k k'; cbn [write_pieces_direct concat].
  - intros H; injection H as <-. rewrite app_nil_r. auto.
  - unfold sink_write. intros H Hl Hle. rewrite Hl in H.
    destruct (length p <=? L - length (sk_data k))%nat eqn:Ele; [|discriminate].
    apply Nat.leb_le in Ele.
    destruct (IH _ _ H eq_refl) as (A & B & C); [cbn [sk_data]; rewrite app_length; lia|].
    repeat split; auto. rewrite B. cbn [sk_data]. rewrite app_assoc. auto.
Qed.

Lemma write_stdout_usink k s ps s' : usink k s -> write_stdout E s ps = (s', true) -> usink k s'.
Proof.
  intros Hu. unfold write_stdout. pose proof (usink_steady k _ _ (touch_steady E s) Hu) as (A & B & C).
  set (s1 := touch E s) in *.
  destruct Hmode as [Hm | Hm]; rewrite Hm;
    (destruct (write_pieces_direct _ ps) as [k1 ok1] eqn:Ew; intros H; injection H as <- ->;
     cbn [st_sink add_log] in Ew; destruct (write_pieces_direct_ok k ps _ _ Ew A C) as (A1 & B1 & C1);
     unfold usink; cbn [st_sink st_log set_out add_log own_stdout]; rewrite B1, B in *; auto).
Qed.

Lemma step_print_usink k s d ps s' oc : usink k s -> step E s (Print d ps) = (s', oc) -> oc <> Fail -> usink k s'.
Proof.
  intros Hu. cbn [step]. unfold step_print.
  pose proof (usink_steady k _ _ (get_output_stream_steady E s d) Hu) as H1.
  destruct (get_output_stream E s d) as [s1 [[|n]|]]; cbn [fst] in *.
  - destruct (write_stdout E s1 ps) as [s2 [|]] eqn:Ew; intros H Hoc; injection H as <- <-; [|congruence].
    apply (write_stdout_usink k s1 ps s2); auto.
  - destruct (alookup n (st_outs s1)) as [os|]; [|intros H Hoc; injection H as <- <-; congruence].
    set (s1' := add_log s1 _).
    assert (H1' : usink k s1').
    { destruct H1 as (A & B & C). unfold usink. subst s1'. cbn [st_sink st_log add_log own_stdout].
      destruct (os_kind os); rewrite app_nil_r; auto. }
    pose proof (usink_steady k _ _ (write_ostream_steady E s1' n os (concat ps)) H1') as H2.
    destruct (write_ostream _ _ _ _ _) as [s2 os']. intros H _; injection H as <- <-. exact H2.
  - intros H Hoc; injection H as <- <-; congruence.
Qed.

Lemma step_usink k s o s' oc : usink k s -> step E s o = (s', oc) -> oc <> Fail -> usink k s'.
Proof.
  intros Hu Hs Hoc. destruct (op_print o) as [[d data]|] eqn:Eo.
  - assert (Hm : forall cap, e_mode E <> Buf cap) by (intros cap; destruct Hmode as [H|H]; rewrite H; discriminate).
    destruct o; try discriminate; [|rewrite (printrec_as_print _ _ _ _ Hm) in Hs]; eapply step_print_usink; eauto.
  - replace s' with (fst (step E s o)) by (rewrite Hs; reflexivity). exact (usink_steady k _ _ (step_steady E s o Eo) Hu).
Qed.

Lemma exec_usink k ops : forall s s' r, usink k s -> exec E s ops = (s', r) -> r <> RError -> usink k s'.
Proof.
  induction ops as [|o ops IH]; intros s s' r Hu; cbn [exec].
  - intros H _; injection H as <- <-; auto.
  - destruct (step E s o) as [s1 [| |]] eqn:Es.
    + intros H Hr. apply (IH s1 s' r); auto. apply (step_usink k s o s1 Running); auto. discriminate.
    + intros H _; injection H as <- <-. apply (step_usink k s o s1 (Halt code)); auto. discriminate.
    + intros H Hr; injection H as <- <-. congruence.
Qed.

(* write_failure_surfaces for an unbuffered Output: if the program's own
   statements wrote more than the writer accepts, the run ends in an error *)
Theorem write_failure_unbuffered fs k ops s r :
  run E (init_state fs (Some k)) ops = (s, r) ->
  (k < length (own_stdout (st_log s)))%nat -> r = RError.
Proof.
  unfold run. destruct (exec E _ ops) as [s1 r1] eqn:Ee. intros H Hlen; injection H as <- <-.
  destruct r1 as [code|]; auto. exfalso.
  assert (H0 : usink k (init_state fs (Some k))) by (unfold usink; cbn; repeat split; auto; lia).
  pose proof (exec_usink k _ _ _ _ H0 Ee) as H1. specialize (H1 ltac:(discriminate)).
  pose proof (usink_steady k _ _ (close_all_steady E s1) H1) as (_ & B & C). rewrite <- B in Hlen. lia.
Qed.
End Direct.
