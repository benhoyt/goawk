(* C13 proofs: what a step does besides the write of its own print statement.
   Everything under [step] is [steady]; in particular it appends only calm
   events to the log: no write of the program, and no start of a process while
   goawk still holds bytes of standard output that could be delivered.  Program
   order follows here, flush-before-child in StreamsOrder.v, the single writer
   and the failing unbuffered writer in StreamsWriter.v. *)
From Verif Require Import Lib.Base Model.Streams Proofs.StreamsBase Proofs.StreamsSpec.

Definition quiet_ev (e : event) : Prop := match e with EvWrite _ _ => False | _ => True end.

Definition qext (s s' : state) : Prop := exists l, st_log s' = l ++ st_log s /\ Forall quiet_ev l.

Lemma qext_ok s s' : qext s s' -> Forall quiet_ev (st_log s) -> Forall quiet_ev (st_log s').
Proof. intros (l & -> & F) H. apply Forall_app; auto. Qed.

Definition lext (P : event -> Prop) (s s' : state) : Prop := exists l, st_log s' = l ++ st_log s /\ Forall P l.

Lemma lext_refl {P : event -> Prop} s : lext P s s.
Proof. exists []. auto. Qed.
Lemma lext_same {P : event -> Prop} s s' : st_log s' = st_log s -> lext P s s'.
Proof. intros H. exists []. auto. Qed.
Lemma lext_trans {P : event -> Prop} s1 s2 s3 : lext P s1 s2 -> lext P s2 s3 -> lext P s1 s3.
Proof.
  intros (l1 & H1 & F1) (l2 & H2 & F2). exists (l2 ++ l1). rewrite H2, H1, app_assoc. split; auto.
  apply Forall_app; auto.
Qed.
Lemma lext_mono {P Q : event -> Prop} s s' : (forall e, P e -> Q e) -> lext P s s' -> lext Q s s'.
Proof. intros H (l & Hl & F). exists l. split; [exact Hl|]. eapply Forall_impl; eauto. Qed.

Definition calm (e : event) : Prop :=
  match e with EvWrite _ _ => False | EvStart _ pending err => pending = 0%nat \/ err = true | _ => True end.

Lemma calm_start_ok e : calm e -> start_ok e.
Proof. destruct e; cbn; auto. Qed.

(* the writes the program issued, newest first *)
Definition writes (log : list event) : list (wdest * bytes) :=
  flat_map (fun e => match e with EvWrite w b => [(w, b)] | _ => [] end) log.

Lemma writes_calm l : Forall calm l -> writes l = [].
Proof.
  induction 1 as [|e l He _ IH]; auto. unfold writes in *. cbn [flat_map]. rewrite IH.
  destruct e; try contradiction; auto.
Qed.
Lemma writes_app a b : writes (a ++ b) = writes a ++ writes b.
Proof. unfold writes. apply flat_map_app. Qed.
Lemma lext_writes s s' : lext calm s s' -> writes (st_log s') = writes (st_log s).
Proof. intros (l & -> & F). rewrite writes_app, writes_calm; auto. Qed.

(* goawk's stdout buffer holds nothing that could still be delivered *)
Definition flushed (E : env) (s : state) : Prop :=
  match e_mode E with Buf _ => bw_buf (st_out s) = [] \/ bw_err (st_out s) = true | _ => True end.

Lemma bw_flush_flushed w k w' k' ok : bw_flush w k = (w', k', ok) -> bw_buf w' = [] \/ bw_err w' = true.
Proof.
  unfold bw_flush. destruct (bw_err w) eqn:Ee; [intros H; injection H as <- <- <-; auto|].
  destruct (bw_buf w) eqn:Eb; [intros H; injection H as <- <- <-; auto|].
  destruct (sink_write k _) as [[k1 n] [|]]; intros H; injection H as <- <- <-; cbn; auto.
Qed.

Lemma flush_stdout_log E s : st_log (fst (flush_stdout E s)) = st_log s /\ flushed E (fst (flush_stdout E s)).
Proof.
  split; [apply flush_stdout_frame|]. unfold flush_stdout, flushed. destruct (e_mode E); cbn [fst]; auto.
  destruct (bw_flush _ _) as [[w k] ok] eqn:Ef. cbn [fst st_out set_out]. eapply bw_flush_flushed; eauto.
Qed.

Lemma flushed_flush_again E s : flushed E s -> flushed E (fst (flush_stdout E s)).
Proof. intros _. apply flush_stdout_log. Qed.

(* no child writes to the shared standard output *)
Definition silent (E : env) : Prop := forall c, c_stdout (e_spec E c) = [] /\ c_echo (e_spec E c) = false.

(* What everything under [step] leaves alone, the write of a print statement
   itself excepted: the log grows by calm events; goawk never touches an
   *os.File Output while a copying goroutine could (there is none); an
   unbuffered Output whose children are silent receives nothing. *)
Definition steady (E : env) (s s' : state) : Prop :=
  lext calm s s' /\
  (e_mode E = OsFile -> st_overlap s' = st_overlap s) /\
  (e_mode E = Unbuf \/ e_mode E = OsFile -> silent E -> st_sink s' = st_sink s).

Lemma steady_refl E s : steady E s s.
Proof. split; [apply lext_refl|auto]. Qed.
Lemma steady_trans E s1 s2 s3 : steady E s1 s2 -> steady E s2 s3 -> steady E s1 s3.
Proof.
  intros (L1 & O1 & K1) (L2 & O2 & K2). split; [exact (lext_trans _ _ _ L1 L2)|split].
  - intros H. rewrite O2, O1; auto.
  - intros H H'. rewrite K2, K1; auto.
Qed.
Lemma steady_same E s s' : st_log s' = st_log s -> st_overlap s' = st_overlap s -> st_sink s' = st_sink s -> steady E s s'.
Proof. intros H1 H2 H3. split; [apply lext_same, H1|auto]. Qed.
Lemma steady_add_log E s e : calm e -> steady E s (add_log s e).
Proof. intros H. split; [exists [e]; cbn; auto|auto]. Qed.

(* the three places where Output or the overlap flag is touched *)
Lemma touch_steady E s : steady E s (touch E s).
Proof.
  destruct (touch_fields E s) as (_ & K & _ & _ & _ & L & _). split; [apply lext_same, L|split; [|auto]].
  intros Hm. unfold touch. rewrite Hm. cbn [is_osfile negb andb]. destruct (any_active (st_outs s)); reflexivity.
Qed.

Lemma flush_stdout_steady E s : steady E s (fst (flush_stdout E s)).
Proof.
  split; [apply lext_same, flush_stdout_log|]. unfold flush_stdout.
  destruct (e_mode E); cbn [fst]; auto. split; [discriminate|intros [H|H]; discriminate].
Qed.

Lemma child_out_steady E s cg data : (silent E -> data = []) -> steady E s (fst (child_out E s cg data)).
Proof.
  intros Hd. destruct data as [|b d]; [apply steady_refl|].
  destruct (child_out_frame E s cg (b :: d)) as (_ & Ho & Hl).
  split; [exists [EvChildOut (b :: d)]; split; [exact Hl|repeat constructor]|split; [auto|]].
  intros _ Hs. discriminate (Hd Hs).
Qed.

Lemma start_proc_steady E s c : flushed E s -> steady E s (fst (start_proc E s c)).
Proof.
  intros Hf. unfold start_proc. cbn [fst].
  assert (Hs : calm (EvStart c (stdout_pending E s) (bw_err (st_out s)))).
  { unfold calm, stdout_pending, flushed in *. destruct (e_mode E); auto. destruct Hf as [-> | ->]; auto. }
  eapply steady_trans; [apply (steady_add_log _ _ _ Hs)|].
  destruct (c_sink (e_spec E c)); [|apply steady_refl].
  eapply steady_trans; [|apply steady_add_log; exact I]. apply steady_same; auto.
Qed.

Lemma if_unmod_steady E (b : bool) s : steady E s (if b then set_unmod s else s).
Proof. destruct b; [apply steady_same; auto|apply steady_refl]. Qed.

Lemma if_print_errorf_steady E (b : bool) s : steady E s (if b then print_errorf E s else s).
Proof. destruct b; [apply flush_stdout_steady|apply steady_refl]. Qed.

Lemma deliver_steady E s n o data : steady E s (fst (deliver E s n o data)).
Proof.
  unfold deliver. destruct data as [|b d]; [apply steady_refl|].
  destruct (os_kind o).
  - destruct (os_off o); apply steady_same; auto.
  - destruct (c_drain (e_spec E n)); [|cbn [fst]; destruct (is_synced E s n); [apply steady_refl|apply steady_same; auto]].
    set (s1 := match c_sink (e_spec E n) with Some t => _ | None => s end).
    assert (H1 : steady E s s1) by (subst s1; destruct (c_sink (e_spec E n)); [apply steady_same; auto|apply steady_refl]).
    destruct (c_echo (e_spec E n)) eqn:Ee; auto.
    assert (H2 : steady E s1 (fst (child_out E s1 (os_cgfail o) (b :: d)))).
    { apply child_out_steady. intros Hs. destruct (Hs n) as (_ & He). congruence. }
    destruct (child_out E s1 _ _) as [s2 ok]. cbn [fst] in *. eapply steady_trans; eauto.
Qed.

Lemma flush_ostream_steady E s n o : steady E s (fst (flush_ostream E s n o)).
Proof.
  unfold flush_ostream. pose proof (deliver_steady E s n o (os_buf o)) as H.
  destruct (deliver _ _ _ _ _). auto.
Qed.

Lemma write_ostream_steady E s n o p : steady E s (fst (write_ostream E s n o p)).
Proof.
  unfold write_ostream. destruct (buf_bytes _ _ _) as [f r].
  pose proof (deliver_steady E s n o f) as H. destruct (deliver _ _ _ _ _). auto.
Qed.

Lemma flush_named_steady E s n o : steady E s (flush_named E s n o).
Proof.
  unfold flush_named. pose proof (flush_ostream_steady E s n o) as H.
  destruct (flush_ostream _ _ _ _) as [s1 o1]. cbn [fst] in H. cbv zeta.
  apply (steady_trans _ _ s1); auto. eapply steady_trans; [|apply if_print_errorf_steady]. apply steady_same; auto.
Qed.

Lemma flush_streams_steady E ns : forall s, steady E s (flush_streams E s ns).
Proof.
  induction ns as [|n ns IH]; intros s; cbn [flush_streams]; [apply steady_refl|].
  destruct (alookup n (st_outs s)); auto. eapply steady_trans; [apply flush_named_steady|apply IH].
Qed.

Lemma flush_all_steady E s : steady E s (fst (flush_all E s)) /\ flushed E (fst (flush_all E s)).
Proof.
  unfold flush_all. set (s1 := flush_streams E s _).
  assert (H1 : steady E s s1) by apply flush_streams_steady.
  pose proof (flush_stdout_steady E s1) as H2. destruct (flush_stdout_log E s1) as (_ & Hf).
  destruct (flush_stdout E s1) as [s2 [|]]; cbn [fst] in *.
  - split; auto. eapply steady_trans; eauto.
  - split; [|apply flush_stdout_log].
    eapply steady_trans; eauto. eapply steady_trans; eauto. apply flush_stdout_steady.
Qed.

Lemma close_ostream_steady E s n o : steady E s (fst (fst (close_ostream E s n o))).
Proof.
  unfold close_ostream, child_eof. pose proof (flush_ostream_steady E s n o) as H.
  destruct (flush_ostream _ _ _ _) as [s1 o1]. cbn [fst] in H. destruct (os_kind o1); auto.
  destruct (wait_result _ _). auto.
Qed.

Lemma close_streams_steady E ns : forall s, steady E s (close_streams E s ns).
Proof.
  induction ns as [|n ns IH]; intros s; cbn [close_streams]; [apply steady_refl|].
  destruct (alookup n (st_outs s)) as [o|]; auto.
  pose proof (close_ostream_steady E (set_outs s (aremove n (st_outs s))) n o) as H.
  destruct (close_ostream _ _ _ _) as [[s1 code] err]. cbn [fst] in H.
  eapply steady_trans; [|apply IH]. eapply steady_trans; [|apply steady_add_log; exact I].
  eapply steady_trans; eauto. apply steady_same; auto.
Qed.

Lemma close_all_steady E s : steady E s (close_all E s).
Proof.
  unfold close_all, flush_out_err.
  eapply steady_trans; [|apply flush_stdout_steady].
  eapply steady_trans; [|apply close_streams_steady]. apply steady_same; auto.
Qed.

Lemma get_output_stream_steady E s d : steady E s (fst (get_output_stream E s d)).
Proof.
  unfold get_output_stream. destruct d as [| | |r n]; try apply steady_refl.
  - apply flush_stdout_steady.
  - destruct (amem n (st_ins s)); [apply steady_refl|]. destruct (amem n (st_outs s)); [apply steady_refl|].
    pose proof (flush_stdout_steady E s) as H1. destruct (flush_stdout_log E s) as (_ & Hf).
    fold (flush_out_err E s) in H1, Hf. set (s1 := flush_out_err E s) in *.
    assert (Hfile : forall fs trunc o, steady E s
              (set_outs (add_log (set_fs s1 fs) (EvOpen n KFile trunc)) (aset n o (st_outs (add_log (set_fs s1 fs) (EvOpen n KFile trunc)))))).
    { intros fs trunc o. eapply steady_trans; [exact H1|].
      eapply steady_trans; [|apply steady_same; reflexivity]. eapply steady_trans; [|apply steady_add_log; exact I].
      apply steady_same; auto. }
    destruct r.
    + destruct (e_bad E n); cbn [fst]; auto.
    + destruct (e_bad E n); cbn [fst]; auto.
    + match goal with |- context [if ?c then set_unmod s1 else s1] => set (s2 := if c then set_unmod s1 else s1) end.
      assert (H2 : steady E s1 s2) by apply if_unmod_steady.
      assert (Hf2 : flushed E (add_log s2 (EvOpen n KCmd false))).
      { unfold flushed in *. subst s2. match goal with |- context [if ?c then set_unmod s1 else s1] => destruct c end; cbn; auto. }
      pose proof (start_proc_steady E _ n Hf2) as H3. destruct (start_proc E _ n) as [s4 cg]. cbn [fst] in H3.
      assert (H4 : steady E s4 (fst (child_out E s4 cg (c_stdout (e_spec E n))))) by (apply child_out_steady; intros Hs; apply Hs).
      destruct (child_out E s4 cg _) as [s5 ok]. cbn [fst] in *.
      apply (steady_trans _ _ s1); auto. apply (steady_trans _ _ s2); auto.
      apply (steady_trans _ _ (add_log s2 (EvOpen n KCmd false))); [apply steady_add_log; exact I|].
      apply (steady_trans _ _ s4); auto. apply (steady_trans _ _ s5); auto.
      eapply steady_trans; [apply if_unmod_steady|]. apply steady_same; reflexivity.
Qed.

Lemma scan_stream_steady E s n i : steady E s (scan_stream s n i).
Proof. unfold scan_stream. destruct (is_rest i); [apply steady_same; auto|]. destruct (scan_line _ _). apply steady_same; auto. Qed.

Lemma getline_file_steady E s n : steady E s (fst (getline_file E s n)).
Proof.
  unfold getline_file. set (s0 := if sink_busy E s n then set_unmod s else s).
  assert (H0 : steady E s s0) by (subst s0; apply if_unmod_steady). clearbody s0.
  apply (steady_trans _ _ s0); auto.
  destruct (amem n (st_outs s0)); [apply steady_refl|].
  destruct (alookup n (st_ins s0)) as [i|]; cbn [fst]; [apply scan_stream_steady|].
  destruct (alookup n (st_fs s0)); cbn [fst]; [|apply steady_same; auto].
  eapply steady_trans; [|apply scan_stream_steady]. apply steady_same; auto.
Qed.

(* which program statement a write event belongs to *)
Definition dest_matches (d : dest) (w : wdest) : Prop :=
  match d, w with
  | DRedir _ n, WFile m => n = m
  | DRedir _ n, WCmd m => n = m
  | DRedir _ _, WStdout => False
  | _, WStdout => True
  | _, _ => False
  end.

Lemma get_output_stream_target E s d s' r : get_output_stream E s d = (s', Some r) ->
  match r with TStdout => dest_matches d WStdout | TStream n => dest_matches d (WFile n) /\ dest_matches d (WCmd n) end.
Proof.
  unfold get_output_stream. destruct d as [| | |rd n]; try (intros H; injection H as <- <-; exact I).
  destruct (amem n (st_ins s)); [discriminate|]. destruct (amem n (st_outs s)); [intros H; injection H as <- <-; cbn; auto|].
  destruct rd.
  - destruct (e_bad E n); [discriminate|]. intros H; injection H as <- <-; cbn; auto.
  - destruct (e_bad E n); [discriminate|]. intros H; injection H as <- <-; cbn; auto.
  - destruct (start_proc E _ n) as [s4 cg]. destruct (child_out E s4 cg _) as [s5 ok]. intros H; injection H as <- <-; cbn; auto.
Qed.

(* the print statements: their destination and the bytes they hand over *)
Definition op_print (o : op) : option (dest * bytes) :=
  match o with
  | Print d ps => Some (d, concat ps)
  | PrintRec d rec => Some (d, rec)
  | _ => None
  end.

Lemma step_print_log E s d ps wr :
  (forall s1, st_log (fst (wr s1)) = EvWrite WStdout (concat ps) :: st_log s1) ->
  lext calm s (fst (step_print E s d ps wr)) \/
  exists w l1 l2, dest_matches d w /\ Forall calm l1 /\ Forall calm l2 /\
    st_log (fst (step_print E s d ps wr)) = l2 ++ EvWrite w (concat ps) :: l1 ++ st_log s.
Proof.
  intros Hwr. unfold step_print.
  destruct (get_output_stream_steady E s d) as ((l1 & H1 & F1) & _).
  destruct (get_output_stream E s d) as [s1 [[|n]|]] eqn:Eg; cbn [fst] in *.
  - right. exists WStdout, l1, []. split; [apply (get_output_stream_target _ _ _ _ _ Eg)|]. split; [exact F1|split; [constructor|]].
    pose proof (Hwr s1) as H2. destruct (wr s1) as [s2 [|]]; cbn [fst] in *; rewrite H2, H1; reflexivity.
  - destruct (alookup n (st_outs s1)) as [os|]; cbn [fst]; [|left; exists l1; auto].
    right. set (w := match os_kind os with KFile => WFile n | KCmd => WCmd n end).
    destruct (write_ostream_steady E (add_log s1 (EvWrite w (concat ps))) n os (concat ps)) as ((l2 & H2 & F2) & _).
    exists w, l1, l2. split.
    { destruct (get_output_stream_target _ _ _ _ _ Eg) as (A & B). subst w. destruct (os_kind os); auto. }
    split; [exact F1|split; [exact F2|]].
    destruct (write_ostream _ _ _ _ _) as [s2 os']. cbn [fst st_log set_outs add_log] in *. rewrite H2, H1. reflexivity.
  - left. exists l1; auto.
Qed.

Lemma obs_steady E s s1 v : steady E s s1 -> steady E s (add_obs s1 v).
Proof. intros H. eapply steady_trans; [exact H|apply steady_same; auto]. Qed.

(* a statement other than print/printf *)
Lemma step_steady E s o : op_print o = None -> steady E s (fst (step E s o)).
Proof.
  destruct o as [d ps|n|[n|]|c|n|c| |code| |n|d rec]; try discriminate; intros _; cbn [step].
  - destruct (alookup n (st_ins s)) as [i|].
    + destruct (if is_cmd i then _ else _) as [code err]. cbn [fst].
      apply obs_steady. eapply steady_trans; [|apply if_print_errorf_steady].
      eapply steady_trans; [|apply steady_add_log; exact I]. apply steady_same; auto.
    + destruct (alookup n (st_outs s)) as [os|]; [|apply steady_same; auto].
      pose proof (close_ostream_steady E (set_outs s (aremove n (st_outs s))) n os) as H.
      destruct (close_ostream _ _ _ _) as [[s1 code] err]. cbn [fst] in *.
      apply obs_steady. eapply steady_trans; [|apply if_print_errorf_steady].
      eapply steady_trans; [|apply steady_add_log; exact I]. eapply steady_trans; eauto. apply steady_same; auto.
  - destruct (alookup n (st_outs s)) as [os|]; cbn [fst]; apply obs_steady.
    + apply flush_named_steady.
    + apply flush_stdout_steady.
  - destruct (flush_all_steady E s) as (H & _). destruct (flush_all E s) as [s1 ok]. apply obs_steady, H.
  - destruct (flush_all_steady E s) as (H & Hf). destruct (flush_all E s) as [s1 ok]. cbn [fst] in *.
    pose proof (start_proc_steady E s1 c Hf) as H2. destruct (start_proc E s1 c) as [s2 cg]. cbn [fst] in *.
    assert (H3 : steady E s2 (fst (child_out E s2 cg (c_stdout (e_spec E c))))) by (apply child_out_steady; intros Hs; apply Hs).
    destruct (child_out E s2 cg _) as [s3 ok3]. unfold child_eof. destruct (wait_result _ _) as [code err]. cbn [fst] in *.
    apply obs_steady. eapply steady_trans; [|apply if_print_errorf_steady].
    apply (steady_trans _ _ s1); auto. apply (steady_trans _ _ s2); auto.
  - apply getline_file_steady.
  - destruct (amem c (st_outs s)); [apply steady_refl|].
    destruct (alookup c (st_ins s)) as [i|]; cbn [fst]; [apply scan_stream_steady|].
    pose proof (flush_stdout_steady E s) as H1. destruct (flush_stdout_log E s) as (_ & Hf). fold (flush_out_err E s) in H1, Hf.
    pose proof (start_proc_steady E _ c Hf) as H2. destruct (start_proc E _ c) as [s2 cg]. cbn [fst] in *.
    eapply steady_trans; [exact H1|]. eapply steady_trans; eauto.
    eapply steady_trans; [|apply scan_stream_steady]. apply steady_same; auto.
  - apply obs_steady, flush_stdout_steady.
  - apply steady_refl.
  - apply steady_refl.
  - destruct (amem n (st_outs s)); [apply steady_refl|].
    destruct (negb (amem n (st_ins s)) && negb (amem n (st_fs s))); [apply steady_same; auto|].
    apply (steady_trans _ _ (add_synced s n)); [apply steady_same; auto|apply getline_file_steady].
Qed.

(* print/printf issues at most one write, its own *)
Lemma step_log E s o :
  lext calm s (fst (step E s o)) \/
  exists d data w l1 l2, op_print o = Some (d, data) /\ dest_matches d w /\ Forall calm l1 /\ Forall calm l2 /\
    st_log (fst (step E s o)) = l2 ++ EvWrite w data :: l1 ++ st_log s.
Proof.
  destruct (op_print o) as [[d data]|] eqn:Eo; [|left; apply step_steady, Eo].
  destruct o as [d' ps| | | | | | | | | |d' rec]; try discriminate; injection Eo as -> <-; cbn [step].
  - destruct (step_print_log E s d ps (fun s1 => write_stdout E s1 ps)) as [H|(w & l1 & l2 & H)];
      [intros; apply write_stdout_frame|left; exact H|].
    right. exists d, (concat ps), w, l1, l2. auto.
  - assert (Hc : concat [rec] = rec) by (cbn; apply app_nil_r).
    destruct (step_print_log E s d [rec] (fun s1 => write_stdout_rec E s1 rec)) as [H|(w & l1 & l2 & H)];
      [intros; rewrite Hc; apply write_stdout_rec_frame|left; exact H|].
    right. exists d, rec, w, l1, l2. rewrite Hc in H. auto.
Qed.

Lemma step_writes E s o :
  writes (st_log (fst (step E s o))) = writes (st_log s) \/
  exists d data w, op_print o = Some (d, data) /\ dest_matches d w /\ writes (st_log (fst (step E s o))) = (w, data) :: writes (st_log s).
Proof.
  destruct (step_log E s o) as [H|(d & data & w & l1 & l2 & Hop & Hm & F1 & F2 & Hl)]; [left; apply lext_writes, H|].
  right. exists d, data, w. split; [exact Hop|split; [exact Hm|]].
  rewrite Hl, writes_app, (writes_calm _ F2). change (writes (EvWrite w data :: l1 ++ st_log s)) with ((w, data) :: writes (l1 ++ st_log s)).
  rewrite writes_app, (writes_calm _ F1). reflexivity.
Qed.

(* evs (oldest first) is a subsequence of the print statements of ops, in order, each with its bytes *)
Inductive sub_trace : list op -> list (wdest * bytes) -> Prop :=
| st_done ops : sub_trace ops []
| st_skip o ops evs : sub_trace ops evs -> sub_trace (o :: ops) evs
| st_emit o d data w ops evs : op_print o = Some (d, data) -> dest_matches d w -> sub_trace ops evs ->
    sub_trace (o :: ops) ((w, data) :: evs).

Lemma exec_writes E ops : forall s, exists evs,
  rev (writes (st_log (fst (exec E s ops)))) = rev (writes (st_log s)) ++ evs /\ sub_trace ops evs.
Proof.
  induction ops as [|o ops IH]; intros s; cbn [exec].
  - exists []. rewrite app_nil_r. split; [auto|constructor].
  - pose proof (step_writes E s o) as Hs. destruct (step E s o) as [s1 oc]. cbn [fst] in Hs.
    assert (Hrest : exists evs, rev (writes (st_log (fst (match oc with Running => exec E s1 ops | Halt c => (s1, RStatus c) | Fail => (s1, RError) end)))) =
                      rev (writes (st_log s1)) ++ evs /\ sub_trace ops evs).
    { destruct oc; [apply IH| |]; exists []; rewrite app_nil_r; split; auto; constructor. }
    destruct Hrest as (evs & He & Ht).
    destruct Hs as [Hs|(d & data & w & Hop & Hm & Hs)].
    + exists evs. rewrite He, Hs. split; auto. apply st_skip; auto.
    + exists ((w, data) :: evs). rewrite He, Hs. cbn [rev]. rewrite <- app_assoc. split; auto. eapply st_emit; eauto.
Qed.

(* program order: the writes of a run, oldest first, are print statements of
   the program in program order, each with exactly that statement's bytes *)
Theorem program_order E s0 ops s r : writes (st_log s0) = [] -> run E s0 ops = (s, r) ->
  sub_trace ops (rev (writes (st_log s))).
Proof.
  intros H0. unfold run. destruct (exec_writes E ops s0) as (evs & He & Ht). destruct (exec E s0 ops) as [s1 r1]. cbn [fst] in He.
  intros H; injection H as <- <-. rewrite (lext_writes _ _ (proj1 (close_all_steady E s1))), He, H0. auto.
Qed.
