(* C17: the conversion table AWK value -> Go value (toNative) and back (fromNative). *)
From Verif Require Import Lib.Base Lib.Dyadic Model.Native Proofs.NativeCheck.

(* ---- integer kinds: in-range numbers are truncated toward zero ---- *)
Definition int_range (w : width) (t : Z) : Prop := - 2 ^ (wbits w - 1) <= t < 2 ^ (wbits w - 1).
Definition uint_range (w : width) (t : Z) : Prop := 0 <= t < 2 ^ (wbits w).

Lemma between_spec lo hi t : reflect (lo <= t < hi) ((lo <=? t) && (t <? hi)).
Proof. destruct (Z.leb_spec0 lo t), (Z.ltb_spec0 t hi); constructor; lia. Qed.

Lemma wrap_s_small n z : 0 < n -> - 2 ^ (n - 1) <= z < 2 ^ (n - 1) -> wrap_s n z = z.
Proof.
  intros Hn H. unfold wrap_s.
  assert (P : 2 ^ n = 2 * 2 ^ (n - 1)) by (rewrite <- Z.pow_succ_r by lia; f_equal; lia).
  destruct (Z_lt_le_dec z 0) as [Hneg|Hpos].
  - rewrite <- (Z_mod_plus_full z 1 (2 ^ n)), Z.mod_small by lia.
    rewrite (proj2 (Z.ltb_ge _ _)) by lia. lia.
  - rewrite Z.mod_small by lia. rewrite (proj2 (Z.ltb_lt _ _)) by lia. reflexivity.
Qed.

Lemma f2i32_in_range m e : - two31 <= ftrunc m e < two31 -> f2i32 (FFin m e) = ftrunc m e.
Proof.
  intros H. unfold f2i32, in_i32.
  destruct (between_spec (- two31) two31 (ftrunc m e)); [reflexivity|contradiction].
Qed.

Lemma f2i64_in_range m e : - two63 <= ftrunc m e < two63 -> f2i64 (FFin m e) = ftrunc m e.
Proof.
  intros H. unfold f2i64, in_i64.
  destruct (between_spec (- two63) two63 (ftrunc m e)); [reflexivity|contradiction].
Qed.

Lemma ftrunc_int z : ftrunc z 0 = z.
Proof. unfold ftrunc. cbn. lia. Qed.

Theorem to_int_in_range w m e : int_range w (ftrunc m e) -> to_int w (FFin m e) = ftrunc m e.
Proof.
  unfold int_range. destruct w; cbn [wbits to_int]; intros H.
  1, 2: rewrite f2i32_in_range by (unfold two31; lia); apply wrap_s_small; [lia|exact H].
  - apply f2i32_in_range. exact H.
  - apply f2i64_in_range. exact H.
  - apply f2i64_in_range. exact H.
Qed.

(* unsigned kinds: every number whose truncation fits the kind arrives truncated *)
Lemma to_uint64_in_range m e : 0 <= ftrunc m e < two64 -> to_uint64 (FFin m e) = ftrunc m e.
Proof.
  intros H. unfold to_uint64.
  destruct (between_spec two63 two64 (ftrunc m e)) as [|N]; [reflexivity|].
  unfold wrap_u. rewrite f2i64_in_range by (unfold two63 in *; lia).
  apply Z.mod_small. exact H.
Qed.

Theorem to_uint_in_range w m e : uint_range w (ftrunc m e) -> to_uint w (FFin m e) = ftrunc m e.
Proof.
  unfold uint_range. intros H.
  destruct w; cbn [to_uint wbits] in *; try (apply to_uint64_in_range; exact H).
  all: unfold wrap_u; rewrite f2i64_in_range by (unfold two63; lia); apply Z.mod_small; exact H.
Qed.

Lemma wrap_u_min_int64 : wrap_u 64 (- two63) = two63.
Proof. reflexivity. Qed.

(* ... and what a uint64/uint parameter receives for the numbers outside its range (unchanged by
   the repair of F-C17-6): negative numbers in the int64 range wrap modulo 2^64; below -2^63, from
   2^64 on, and for NaN and the infinities the amd64 int64 conversion gives -2^63, i.e. 2^63 *)
Theorem to_uint64_out_of_range :
  (forall m e, - two63 <= ftrunc m e < 0 -> to_uint64 (FFin m e) = ftrunc m e + two64) /\
  (forall m e, ftrunc m e < - two63 \/ two64 <= ftrunc m e -> to_uint64 (FFin m e) = two63) /\
  to_uint64 FNaN = two63 /\ (forall s, to_uint64 (FInf s) = two63).
Proof.
  split; [|split; [|split; [exact wrap_u_min_int64|intros s; exact wrap_u_min_int64]]].
  - intros m e H. unfold to_uint64.
    destruct (between_spec two63 two64 (ftrunc m e)); [unfold two63 in *; lia|].
    unfold wrap_u. rewrite f2i64_in_range by (unfold two63 in *; lia).
    change (2 ^ 64) with two64. rewrite <- (Z_mod_plus_full _ 1 two64).
    apply Z.mod_small. unfold two63, two64 in *. lia.
  - intros m e H. unfold to_uint64, f2i64, in_i64.
    destruct (between_spec two63 two64 (ftrunc m e)); [unfold two63, two64 in *; lia|].
    destruct (between_spec (- two63) two63 (ftrunc m e)); [unfold two63, two64 in *; lia|].
    exact wrap_u_min_int64.
Qed.

(* ---- rounding: float32(x) and int64/uint64 -> float64 ---- *)
Lemma fround_exact prec emin emax m e :
  m <> 0 -> e + (Z.log2 (Z.abs m) + 1) - prec <= e -> emin <= e -> e + (Z.log2 (Z.abs m) + 1) <= emax ->
  fround prec emin emax m e = FFin m e.
Proof.
  intros Hm H1 H2 H3. unfold fround.
  destruct (Z.eqb_spec m 0) as [E0|E0]; [congruence|].
  destruct (Z.max (e + (Z.log2 (Z.abs m) + 1) - prec) emin <=? e) eqn:E1; [|apply Z.leb_gt in E1; lia].
  destruct (e + (Z.log2 (Z.abs m) + 1) <=? emax) eqn:E2; [reflexivity|apply Z.leb_gt in E2; lia].
Qed.

(* a number that is a float32 (24-bit mantissa, exponent in range) passes unchanged *)
Theorem to_f32_exact m e :
  m <> 0 -> Z.log2 (Z.abs m) + 1 <= 24 -> -149 <= e -> e + (Z.log2 (Z.abs m) + 1) <= 128 ->
  to_f32 (FFin m e) = FFin m e.
Proof. intros. cbn [to_f32]. apply fround_exact; lia. Qed.

Lemma to_f32_zero e : to_f32 (FFin 0 e) = FFin 0 0.
Proof. reflexivity. Qed.

(* integers below 2^53 in magnitude convert to float64 exactly *)
Theorem z_to_f64_exact z : Z.abs z < two53 -> z_to_f64 z = FFin z 0.
Proof.
  intros H. unfold z_to_f64. destruct (Z.eq_dec z 0) as [->|Hz]; [reflexivity|].
  assert (L : Z.log2 (Z.abs z) < 53) by (apply Z.log2_lt_pow2; [lia|exact H]).
  apply fround_exact; lia.
Qed.

(* the rounding step is to nearest, ties to even: for a = q*2^s + r the chosen q' is
   within half a unit, and exactly half only if q' is even *)
Theorem fround_step_nearest a s :
  0 <= a -> 1 <= s ->
  let q := a / 2 ^ s in let r := a mod 2 ^ s in let half := 2 ^ (s - 1) in
  let q' := if (half <? r) || ((r =? half) && Z.odd q) then q + 1 else q in
  Z.abs (a - q' * 2 ^ s) <= half /\ (Z.abs (a - q' * 2 ^ s) = half -> Z.odd q' = false).
Proof.
  intros Ha Hs q r half q'.
  assert (P : 2 ^ s = 2 * half) by (unfold half; rewrite <- Z.pow_succ_r by lia; f_equal; lia).
  assert (Hh : 0 < half) by (unfold half; apply Z.pow_pos_nonneg; lia).
  assert (D : a = q * 2 ^ s + r) by (unfold q, r; rewrite Z.mul_comm; apply Z.div_mod; lia).
  assert (R : 0 <= r < 2 ^ s) by (unfold r; apply Z.mod_pos_bound; lia).
  unfold q'. destruct (Z.ltb_spec half r) as [E1|E1]; cbn [orb].
  - split; [lia|]. intros Habs. exfalso. lia.
  - destruct (Z.eqb_spec r half) as [E2|E2]; cbn [andb].
    + destruct (Z.odd q) eqn:O.
      * split; [lia|]. intros _. rewrite Z.add_1_r, Z.odd_succ, <- Z.negb_odd, O. reflexivity.
      * split; [lia|]. intros _. exact O.
    + split; [lia|]. intros Habs. exfalso. lia.
Qed.

Lemma width_eqb_refl w : width_eqb w w = true.
Proof. destruct w; reflexivity. Qed.

Lemma width_eqb_eq a b : width_eqb a b = true -> a = b.
Proof. destruct a, b; intros H; try discriminate; reflexivity. Qed.

Lemma ty_eqb_refl t : ty_eqb t t = true.
Proof.
  induction t; cbn [ty_eqb]; rewrite ?width_eqb_refl, ?Bool.eqb_reflx, ?IHt; reflexivity.
Qed.

Lemma ty_eqb_eq a : forall b, ty_eqb a b = true -> a = b.
Proof.
  induction a; intros b; destruct b; cbn [ty_eqb]; intros H; try discriminate H; try reflexivity.
  all: try apply andb_true_iff in H as [H1 H].
  all: f_equal; auto using width_eqb_eq, Bool.eqb_prop.
Qed.

Section Prims.
  Variable parse_float : bytes -> option fnum.
  Variable parse_prefix : bytes -> fnum.
  Variable fmt_float : fnum -> bytes.

  Notation to_native := (to_native parse_float parse_prefix fmt_float).
  Notation v_boolean := (v_boolean parse_float).
  Notation v_num := (v_num parse_prefix).
  Notation v_str := (v_str fmt_float).

  (* the value callNative builds for a parameter of a documented kind (toNative, then the
     conversion to the parameter's own type), as a total function *)
  Definition conv (v : value) (t : ty) : gval :=
    match kind_of t with
    | KBool => GV t (DBool (v_boolean v))
    | KInt w => GV t (DInt (to_int w (v_num v)))
    | KUint w => GV t (DUint (to_uint w (v_num v)))
    | KFloat32 => GV t (DFloat (to_f32 (v_num v)))
    | KFloat64 => GV t (DFloat (v_num v))
    | KString => GV t (DStr (v_str v))
    | KSlice => GV t (DBytes (v_str v))
    | KOther => GV TOther DOpaque
    end.

  (* toNative + Convert never panic on a documented kind, user-defined types included *)
  Lemma to_native_conv v t : valid_native_type t = true ->
    (ndo v0 <- to_native v t; convert_arg v0 t) = NOk (conv v t).
  Proof.
    destruct t as [d|w d|w d|d|d|d|e d| |]; cbn [valid_native_type kind_of]; intros H; try discriminate;
      unfold Native.to_native, conv; cbn [kind_of elem nbind];
      try (destruct d; try destruct w; reflexivity).
    rewrite H. cbn [nbind]. unfold convert_arg. cbn [gty]. rewrite ty_eqb_refl. reflexivity.
  Qed.

  (* toNative reaches one of its "unexpected" arms exactly on undocumented types *)
  Lemma to_native_panics_iff v t :
    (exists k, to_native v t = NPanic k) <-> valid_native_type t = false.
  Proof.
    destruct t as [d|w d|w d|d|d|d|e d| |]; cbn [valid_native_type kind_of];
      unfold Native.to_native; cbn [kind_of elem nbind];
      try (split; [intros [k H]; discriminate|discriminate]);
      try (split; [reflexivity|intros _; eexists; reflexivity]).
    destruct (is_uint8_kind (kind_of e)); split; try discriminate; try reflexivity.
    - intros [k H]. discriminate.
    - intros _. eexists; reflexivity.
  Qed.

  (* the documented table, kind by kind *)
  Theorem conv_bool v t : kind_of t = KBool -> conv v t = GV t (DBool (v_boolean v)).
  Proof. intros K. unfold conv. rewrite K. reflexivity. Qed.

  Theorem conv_int v t w m e :
    kind_of t = KInt w -> v_num v = FFin m e -> int_range w (ftrunc m e) ->
    conv v t = GV t (DInt (ftrunc m e)).
  Proof. intros K N R. unfold conv. rewrite K, N, (to_int_in_range w m e R). reflexivity. Qed.

  Theorem conv_uint v t w m e :
    kind_of t = KUint w -> v_num v = FFin m e -> uint_range w (ftrunc m e) ->
    conv v t = GV t (DUint (ftrunc m e)).
  Proof. intros K N R. unfold conv. rewrite K, N, (to_uint_in_range w m e R). reflexivity. Qed.

  Theorem conv_f64 v t : kind_of t = KFloat64 -> conv v t = GV t (DFloat (v_num v)).
  Proof. intros K. unfold conv. rewrite K. reflexivity. Qed.

  Theorem conv_f32 v t : kind_of t = KFloat32 -> conv v t = GV t (DFloat (to_f32 (v_num v))).
  Proof. intros K. unfold conv. rewrite K. reflexivity. Qed.

  Theorem conv_string v t : kind_of t = KString -> conv v t = GV t (DStr (v_str v)).
  Proof. intros K. unfold conv. rewrite K. reflexivity. Qed.

  Theorem conv_bytes v t : kind_of t = KSlice -> conv v t = GV t (DBytes (v_str v)).
  Proof. intros K. unfold conv. rewrite K. reflexivity. Qed.

  (* the string form: strings as they are, unset = "", integers in decimal *)
  Theorem v_str_table :
    (forall s, v_str (VStr s) = s) /\ (forall s, v_str (VNumStr s) = s) /\ v_str VNull = [] /\
    (forall z, - two63 <= z < two63 -> v_str (VNum (FFin z 0)) = z_to_dec z) /\
    v_str (VNum FNaN) = [110;97;110] /\ v_str (VNum (FInf false)) = [105;110;102] /\
    v_str (VNum (FInf true)) = [45;105;110;102].
  Proof.
    repeat split; try reflexivity.
    intros z Hz. cbn [Native.v_str num_str].
    assert (E : f2i64 (FFin z 0) = z) by (rewrite f2i64_in_range; rewrite ftrunc_int; [reflexivity|exact Hz]).
    rewrite E. unfold feq, fin_cmp. rewrite Z.min_id, Z.sub_diag, Z.compare_refl. reflexivity.
  Qed.

  (* the truth value *)
  Theorem v_boolean_table :
    v_boolean VNull = false /\ (forall s, v_boolean (VStr s) = negb (bytes_eqb s [])) /\
    (forall x, v_boolean (VNum x) = negb (is_zero x)) /\
    (forall s f, parse_float s = Some f -> v_boolean (VNumStr s) = negb (is_zero f)) /\
    (forall s, parse_float s = None -> v_boolean (VNumStr s) = negb (bytes_eqb s [])).
  Proof.
    repeat split; try reflexivity.
    - intros s f H. cbn [Native.v_boolean]. rewrite H. reflexivity.
    - intros s H. cbn [Native.v_boolean]. rewrite H. reflexivity.
  Qed.

  (* the built value has the parameter's own type *)
  Lemma gty_conv v t : valid_native_type t = true -> gty (conv v t) = t.
  Proof.
    unfold conv. destruct t; cbn [valid_native_type kind_of]; intros H; try discriminate; reflexivity.
  Qed.

  Lemma kind_conv v t : valid_native_type t = true -> kind_of (gty (conv v t)) = kind_of t.
  Proof. intros H. rewrite gty_conv by exact H. reflexivity. Qed.
End Prims.

(* ---- reflect.Zero ---- *)
Theorem zero_value_table :
  (forall d, zero_value (TBool d) = GV (TBool d) (DBool false)) /\
  (forall w d, zero_value (TInt w d) = GV (TInt w d) (DInt 0)) /\
  (forall w d, zero_value (TUint w d) = GV (TUint w d) (DUint 0)) /\
  (forall d, zero_value (TFloat32 d) = GV (TFloat32 d) (DFloat (FFin 0 0))) /\
  (forall d, zero_value (TFloat64 d) = GV (TFloat64 d) (DFloat (FFin 0 0))) /\
  (forall d, zero_value (TString d) = GV (TString d) (DStr [])) /\
  (forall e d, zero_value (TSlice e d) = GV (TSlice e d) DNilSlice).
Proof. repeat split. Qed.

(* ---- fromNative: the inverse table ---- *)
(* Go's typing: the data of a reflect.Value fits its type *)
Definition data_fits (t : ty) (d : gdata) : Prop :=
  match t with
  | TBool _ => exists b, d = DBool b
  | TInt _ _ => exists z, d = DInt z
  | TUint _ _ => exists z, d = DUint z
  | TFloat32 _ | TFloat64 _ => exists x, d = DFloat x
  | TString _ => exists s, d = DStr s
  | TSlice _ _ => d = DNilSlice \/ exists s, d = DBytes s
  | TError => d = DErrNil \/ exists id, d = DErr id
  | TOther => True
  end.

Theorem from_native_table :
  (forall d b, from_native (GV (TBool d) (DBool b)) = NOk (VNum (FFin (if b then 1 else 0) 0))) /\
  (forall w d z, from_native (GV (TInt w d) (DInt z)) = NOk (VNum (z_to_f64 z))) /\
  (forall w d z, from_native (GV (TUint w d) (DUint z)) = NOk (VNum (z_to_f64 z))) /\
  (forall d x, from_native (GV (TFloat32 d) (DFloat x)) = NOk (VNum x)) /\
  (forall d x, from_native (GV (TFloat64 d) (DFloat x)) = NOk (VNum x)) /\
  (forall d s, from_native (GV (TString d) (DStr s)) = NOk (VStr s)) /\
  (forall e d s, kind_of e = KUint W8 -> from_native (GV (TSlice e d) (DBytes s)) = NOk (VStr s)) /\
  (forall e d, kind_of e = KUint W8 -> from_native (GV (TSlice e d) DNilSlice) = NOk (VStr [])).
Proof.
  repeat split; intros e d; intros; unfold from_native; cbn [gty gdat kind_of];
    match goal with H : kind_of e = _ |- _ => rewrite H end; reflexivity.
Qed.

(* fromNative takes every result type that checkNativeFunc accepts (user-defined ones included) *)
Theorem from_native_ok o :
  valid_native_type (gty o) = true -> data_fits (gty o) (gdat o) -> exists v, from_native o = NOk v.
Proof.
  destruct o as [t d]. cbn [gty gdat].
  destruct t; cbn [valid_native_type kind_of data_fits]; intros S F; try discriminate.
  1-6: destruct F as [x ->]; eexists; reflexivity.
  unfold from_native. cbn [gty gdat kind_of]. rewrite S.
  destruct F as [->|[s ->]]; eexists; reflexivity.
Qed.

(* round trips: a value sent to Go and returned unchanged comes back as the same AWK value *)
Section RoundTrip.
  Variable parse_float : bytes -> option fnum.
  Variable parse_prefix : bytes -> fnum.
  Variable fmt_float : fnum -> bytes.

  Theorem round_trip_int w d z :
    int_range w z -> Z.abs z < two53 ->
    from_native (conv parse_float parse_prefix fmt_float (VNum (FFin z 0)) (TInt w d)) = NOk (VNum (FFin z 0)).
  Proof.
    intros R B.
    rewrite (conv_int parse_float parse_prefix fmt_float (VNum (FFin z 0)) (TInt w d) w z 0 eq_refl eq_refl)
      by (rewrite ftrunc_int; exact R).
    rewrite ftrunc_int. unfold from_native. cbn [gty gdat kind_of]. rewrite (z_to_f64_exact z B). reflexivity.
  Qed.

  Theorem round_trip_uint w d z :
    uint_range w z -> z < two53 ->
    from_native (conv parse_float parse_prefix fmt_float (VNum (FFin z 0)) (TUint w d)) = NOk (VNum (FFin z 0)).
  Proof.
    intros R B. unfold uint_range in R.
    rewrite (conv_uint parse_float parse_prefix fmt_float (VNum (FFin z 0)) (TUint w d) w z 0 eq_refl eq_refl)
      by (rewrite ftrunc_int; exact R).
    rewrite ftrunc_int. unfold from_native. cbn [gty gdat kind_of].
    rewrite (z_to_f64_exact z) by (rewrite Z.abs_eq; lia). reflexivity.
  Qed.

  Theorem round_trip_string d s :
    from_native (conv parse_float parse_prefix fmt_float (VStr s) (TString d)) = NOk (VStr s).
  Proof. reflexivity. Qed.

  Theorem round_trip_bytes e d s : kind_of e = KUint W8 ->
    from_native (conv parse_float parse_prefix fmt_float (VStr s) (TSlice e d)) = NOk (VStr s).
  Proof. intros H. unfold conv, from_native. cbn [kind_of gty gdat]. rewrite H. reflexivity. Qed.

  Theorem round_trip_f64 d x :
    from_native (conv parse_float parse_prefix fmt_float (VNum x) (TFloat64 d)) = NOk (VNum x).
  Proof. reflexivity. Qed.

  Theorem round_trip_bool d v :
    from_native (conv parse_float parse_prefix fmt_float v (TBool d)) =
    NOk (VNum (FFin (if Native.v_boolean parse_float v then 1 else 0) 0)).
  Proof. reflexivity. Qed.
End RoundTrip.
