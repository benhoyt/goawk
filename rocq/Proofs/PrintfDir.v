(* C09: the modelled doPrintf / parseFmtTypes on a conversion specification
   written by [render]: flags, width, precision are read as C reads them. *)
From Verif Require Import Lib.Base Lib.Dyadic Lib.Utf8 Model.Printf Proofs.PrintfSpec Proofs.PrintfBase Proofs.PrintfInt.

Definition apply_flag (f : fmts) (c : Z) : fmts :=
  if c =? 35 then set_sharp f true
  else if c =? 48 then set_zero f true
  else if c =? 43 then set_plus f true
  else if c =? 45 then set_minus f true
  else if c =? 32 then set_space f true
  else f.

Lemma is_flag_cases c : is_flag c = true -> c = 45 \/ c = 43 \/ c = 32 \/ c = 35 \/ c = 48.
Proof. unfold is_flag. intros H. repeat (apply orb_true_iff in H as [H|H]); apply Z.eqb_eq in H; auto 6. Qed.

Lemma go_flags_app fl : forall s f, forallb is_flag fl = true ->
  go_flags (fl ++ s) f = go_flags s (fold_left apply_flag fl f).
Proof.
  induction fl as [|c t IH]; intros s f H; [reflexivity|].
  cbn [forallb] in H. apply andb_true_iff in H as [Hc Ht]. cbn [app fold_left].
  destruct (is_flag_cases c Hc) as [->|[->|[->|[->| ->]]]]; cbn; apply IH; exact Ht.
Qed.

Definition not_flag_head (s : bytes) : Prop :=
  match s with c :: _ => is_flag c = false | [] => True end.

Lemma go_flags_stop s f : not_flag_head s -> go_flags s f = (f, s).
Proof.
  destruct s as [|c t]; intros H; [reflexivity|]. cbn [not_flag_head] in H. unfold is_flag in H.
  cbn [go_flags].
  destruct (c =? 45); [discriminate|]. destruct (c =? 43); [discriminate|].
  destruct (c =? 32); [discriminate|]. destruct (c =? 35); [discriminate|].
  destruct (c =? 48); [discriminate|]. reflexivity.
Qed.

Lemma flags_fields fl : forall f, forallb is_flag fl = true ->
  fold_left apply_flag fl f
  = mkF (wid f) (widP f) (prec f) (precP f) (fminus f || has 45 fl) (fplus f || has 43 fl)
        (fsharp f || has 35 fl) (fspace f || has 32 fl) (fzero f || has 48 fl).
Proof.
  induction fl as [|c t IH]; intros f H.
  - destruct f. cbn. rewrite !orb_false_r. reflexivity.
  - cbn [forallb] in H. apply andb_true_iff in H as [Hc Ht]. cbn [fold_left]. rewrite (IH _ Ht).
    destruct (is_flag_cases c Hc) as [->|[->|[->|[->| ->]]]]; cbn; rewrite ?orb_true_r; reflexivity.
Qed.

Definition dval_from (num : Z) (ds : bytes) : Z := fold_left (fun a c => a * 10 + (c - 48)) ds num.

Definition not_digit_head (s : bytes) : Prop :=
  match s with c :: _ => is_digit c = false | [] => True end.

Lemma dval_from_mono ds : forall num, forallb is_dig ds = true -> 0 <= num -> num <= dval_from num ds.
Proof.
  induction ds as [|c t IH]; intros num H Hn; [cbn; lia|].
  cbn [forallb] in H. apply andb_true_iff in H as [Hc Ht]. unfold is_dig in Hc.
  apply andb_true_iff in Hc as [H1 H2]. apply Z.leb_le in H1, H2.
  cbn [dval_from fold_left]. fold (dval_from (num * 10 + (c - 48)) t).
  etransitivity; [|apply IH; [exact Ht|lia]]. lia.
Qed.

Lemma too_large_false n : -1000000 <= n <= 1000000 -> too_large n = false.
Proof. intros H. unfold too_large. lia. Qed.

Lemma parsenum_digits ds : forall num isnum s, forallb is_dig ds = true -> not_digit_head s ->
  0 <= num -> dval_from num ds <= 1000000 ->
  parsenum (ds ++ s) num isnum = (dval_from num ds, isnum || negb (match ds with [] => true | _ => false end), s).
Proof.
  induction ds as [|c t IH]; intros num isnum s H Hs Hn Hb.
  - cbn [app dval_from fold_left negb]. rewrite orb_false_r.
    destruct s as [|c t]; [reflexivity|]. cbn [not_digit_head] in Hs. cbn [parsenum]. rewrite Hs. reflexivity.
  - pose proof H as Hall. cbn [forallb] in H. apply andb_true_iff in H as [Hc Ht].
    assert (Hc' : is_digit c = true) by exact Hc.
    cbn [app parsenum]. rewrite Hc'.
    pose proof (dval_from_mono (c :: t) num Hall Hn) as Hm.
    rewrite too_large_false by lia.
    unfold is_dig in Hc. apply andb_true_iff in Hc as [H1 H2]. apply Z.leb_le in H1, H2.
    rewrite IH; [| exact Ht | exact Hs | lia | exact Hb].
    cbn [dval_from fold_left negb]. rewrite orb_true_r. reflexivity.
Qed.

(* the conversion byte after parseFmtTypes' rewriting *)
Definition go_conv_byte (c : conv) : Z :=
  match c with
  | Cd | Ci | Cu => 100 | Co => 111 | Cx => 120 | CX => 88 | Cc | Cs => 115
  | Ce => 101 | CE => 69 | Cf => 102 | Cg => 103 | CG => 71
  end.
Definition conv_ty (c : conv) : ty :=
  match c with
  | Cd | Ci => TyD | Co | Cu | Cx | CX => TyU | Cc => TyC | Cs => TyS
  | Ce | CE | Cf | Cg | CG => TyF
  end.

Lemma verb_info_conv c : verb_info (conv_byte c) = Some (go_conv_byte c, conv_ty c).
Proof. destruct c; reflexivity. Qed.

(* the text after the '%', as written and as rewritten *)
Definition tail_of (d : dir) (verb : Z) : bytes :=
  d_flags d ++ render_w (d_width d) ++ render_p (d_prec d) ++ [verb].

Lemma render_tail d : render d = 37 :: tail_of d (conv_byte (d_conv d)).
Proof. reflexivity. Qed.

Definition no_pct (s : bytes) : bool := forallb (fun c => negb (c =? 37)) s.

Lemma starts_bracket_other c t : c <> 91 -> starts_bracket (c :: t) = false.
Proof. intros H. unfold starts_bracket. lit_case c. Qed.

Lemma go_width_star f t args :
  go_width f (42 :: t) args =
    let '(num, ok, args') := int_from_arg args in
    let f := set_wid f num ok in
    let f := if num <? 0 then set_zero (set_minus (set_wid f (- num) ok) true) false else f in
    (if ok then [] else s_badwidth, f, t, args').
Proof. reflexivity. Qed.

Lemma go_width_other f c t args : c <> 42 ->
  go_width f (c :: t) args =
    let '(num, ok, r) := parsenum (c :: t) 0 false in ([], set_wid f num ok, r, args).
Proof. intros H. unfold go_width. lit_case c. Qed.

Lemma go_prec_none f c t args : c <> 46 -> go_prec f (c :: t) args = Ok ([], f, c :: t, args).
Proof. intros H. unfold go_prec. lit_case c. Qed.

Lemma go_prec_star f t args :
  go_prec f (46 :: 42 :: t) args =
    let '(num, ok, args') := int_from_arg args in
    let '(num, ok) := if num <? 0 then (0, false) else (num, ok) in
    Ok (if ok then [] else s_badprec, set_prec f num ok, t, args').
Proof. reflexivity. Qed.

Lemma go_prec_lit f c t args : c <> 42 -> c <> 91 ->
  go_prec f (46 :: c :: t) args =
    let '(num, ok, r) := parsenum (c :: t) 0 false in
    Ok ([], (if ok then set_prec f num true else set_prec f 0 true), r, args).
Proof.
  intros H1 H2. cbn [go_prec]. rewrite (starts_bracket_other c t H2). lit_case c.
Qed.

Lemma go_verb_arg out f verb rest a more : verb <> 91 -> verb < 128 -> verb <> 37 ->
  go_verb out f (verb :: rest) (a :: more) =
    match print_arg f a verb with
    | Ok o => Ok (out ++ o, rest, more, false)
    | Err m => Err m | Panic => Panic | Unmod => Unmod
    end.
Proof.
  intros H1 H2 H3. unfold go_verb. rewrite (starts_bracket_other verb rest H1).
  replace (128 <=? verb) with false by lia.
  replace (verb =? 37) with false by lia. reflexivity.
Qed.

Definition star_gargs (d : dir) (wv pv : Z) : list garg :=
  (match d_width d with WStar => [GInt wv] | _ => [] end)
  ++ (match d_prec d with PrStar => [GInt pv] | _ => [] end).

(* width / precision within fmt's limit; a '*' precision not negative *)
Definition in_lim (d : dir) (wv pv : Z) : Prop :=
  match d_width d with
  | WLit ds => dval ds <= 1000000 | WStar => -1000000 <= wv <= 1000000 | WNone => True end /\
  match d_prec d with
  | PrLit ds => dval ds <= 1000000 | PrStar => 0 <= pv <= 1000000 | PrNone => True end.

Definition verb_ok (verb : Z) : Prop :=
  verb < 128 /\ verb <> 37 /\ verb <> 91 /\ verb <> 42 /\ verb <> 46 /\ is_flag verb = false /\ is_digit verb = false.

Lemma go_conv_byte_ok c : verb_ok (go_conv_byte c).
Proof. destruct c; cbn; repeat split; try lia; reflexivity. Qed.

Lemma int_from_arg_int n rest : -1000000 <= n <= 1000000 -> int_from_arg (GInt n :: rest) = (n, true, rest).
Proof.
  intros H. cbn [int_from_arg]. rewrite (too_large_false n H). reflexivity.
Qed.

Lemma dval_nonneg ds : forallb is_dig ds = true -> 0 <= dval ds.
Proof. intros H. apply (dval_from_mono ds 0 H). lia. Qed.

Lemma is_dig_not_flag c : is_dig c = true -> c <> 48 -> is_flag c = false.
Proof.
  unfold is_dig, is_flag. intros H N. apply andb_true_iff in H as [H1 H2]. apply Z.leb_le in H1, H2.
  repeat (apply orb_false_iff; split); apply Z.eqb_neq; lia.
Qed.

(* the formatter state after the width and after the precision of a directive *)
Definition width_st (f : fmts) (w : wd) (wv : Z) : fmts :=
  match w with
  | WNone => set_wid f 0 false
  | WLit ds => set_wid f (dval ds) true
  | WStar => if wv <? 0 then set_zero (set_minus (set_wid (set_wid f wv true) (- wv) true) true) false
             else set_wid f wv true
  end.
Definition prec_st (f : fmts) (p : pr) (pv : Z) : fmts :=
  match p with PrNone => f | PrLit ds => set_prec f (dval ds) true | PrStar => set_prec f pv true end.

(* the hypotheses on w and p are the conjuncts of [wf_dir] and [in_lim] *)
Lemma go_width_render f w wv X args :
  match w with WLit (c :: ds) => is_dig c && negb (c =? 48) && forallb is_dig ds | WLit [] => false | _ => true end = true ->
  match w with WLit ds => dval ds <= 1000000 | WStar => -1000000 <= wv <= 1000000 | WNone => True end ->
  match X with c :: _ => c <> 42 /\ is_digit c = false | [] => True end ->
  go_width f (render_w w ++ X) ((match w with WStar => [GInt wv] | _ => [] end) ++ args)
  = ([], width_st f w wv, X, args).
Proof.
  intros Hwf Hlim HX. destruct w as [|[|c0 t0]|]; try discriminate; cbn [render_w app width_st].
  - destruct X as [|c t]; [reflexivity|]. destruct HX as [N42 Nd]. rewrite go_width_other by exact N42.
    cbn [parsenum]. rewrite Nd. reflexivity.
  - apply andb_true_iff in Hwf as [Hwf Ht0]. apply andb_true_iff in Hwf as [Hc0 _].
    assert (Hall : forallb is_dig (c0 :: t0) = true) by (cbn [forallb]; rewrite Hc0, Ht0; reflexivity).
    assert (N42 : c0 <> 42) by (unfold is_dig in Hc0; apply andb_true_iff in Hc0 as [A _]; apply Z.leb_le in A; lia).
    rewrite go_width_other by exact N42. change (c0 :: t0 ++ X) with ((c0 :: t0) ++ X).
    rewrite parsenum_digits; [reflexivity | exact Hall | | lia | exact Hlim].
    destruct X as [|c t]; [exact I | exact (proj2 HX)].
  - rewrite go_width_star, int_from_arg_int by exact Hlim. destruct (wv <? 0); reflexivity.
Qed.

Lemma go_prec_render f p pv verb post args :
  match p with PrLit ds => forallb is_dig ds | _ => true end = true ->
  match p with PrLit ds => dval ds <= 1000000 | PrStar => 0 <= pv <= 1000000 | PrNone => True end ->
  verb_ok verb ->
  go_prec f (render_p p ++ verb :: post) ((match p with PrStar => [GInt pv] | _ => [] end) ++ args)
  = Ok ([], prec_st f p pv, verb :: post, args).
Proof.
  intros Hwp Hlp (Hv128 & Hv37 & Hv91 & Hv42 & Hv46 & Hvf & Hvd).
  destruct p as [|[|c0 t0]|]; cbn [render_p app prec_st].
  - apply go_prec_none. exact Hv46.
  - rewrite go_prec_lit by assumption. cbn [parsenum]. rewrite Hvd. reflexivity.
  - pose proof Hwp as Hall. cbn [forallb] in Hwp. apply andb_true_iff in Hwp as [Hc0 _].
    assert (c0 <> 42 /\ c0 <> 91) as [N1 N2].
    { unfold is_dig in Hc0. apply andb_true_iff in Hc0 as [A B]. apply Z.leb_le in A, B. lia. }
    rewrite go_prec_lit by assumption. change (c0 :: t0 ++ verb :: post) with ((c0 :: t0) ++ verb :: post).
    rewrite parsenum_digits; [reflexivity | exact Hall | exact Hvd | lia | exact Hlp].
  - rewrite go_prec_star, int_from_arg_int by lia.
    replace (pv <? 0) with false by lia. reflexivity.
Qed.

Lemma dir_state_matches d wv pv : wf_dir d = true -> in_lim d wv pv ->
  st_matches (prec_st (width_st (fold_left apply_flag (d_flags d) f0) (d_width d) wv) (d_prec d) pv)
             (resolve d wv pv).
Proof.
  intros Hwf [Hlw Hlp]. unfold wf_dir in Hwf. apply andb_true_iff in Hwf as [Hwf Hwp]. apply andb_true_iff in Hwf as [Hfl Hww].
  destruct d as [fl w p c]. cbn [d_flags d_width d_prec] in *. rewrite (flags_fields fl f0 Hfl).
  cbn [f0 wid widP prec precP fminus fplus fsharp fspace fzero orb].
  set (f2 := width_st _ w wv).
  (* the precision touches only its own two fields, which the width leaves unset *)
  assert (P : forall g : fmts -> bool, (forall f n b, g (set_prec f n b) = g f) -> g (prec_st f2 p pv) = g f2)
    by (intros g Hg; destruct p; cbn [prec_st]; rewrite ?Hg; reflexivity).
  assert (W : wid (prec_st f2 p pv) = wid f2) by (destruct p; reflexivity).
  assert (P2 : prec f2 = 0 /\ precP f2 = false) by (unfold f2; destruct w; cbn [width_st]; [| |destruct (wv <? 0)]; split; reflexivity).
  assert (Hw0 : match w with WLit ds => 0 <= dval ds | _ => True end).
  { destruct w as [|[|c0 t0]|]; try exact I; try discriminate. apply dval_nonneg.
    apply andb_true_iff in Hww as [Hww Ht0]. apply andb_true_iff in Hww as [Hc0 _]. cbn [forallb]. rewrite Hc0, Ht0. reflexivity. }
  unfold st_matches, resolve. cbn [d_flags d_width d_prec r_width r_minus r_plus r_sharp r_space r_zero r_prec].
  rewrite W, !P by reflexivity. clear W P. destruct P2 as [P0 PP]. repeat split.
  1-8: unfold f2; destruct w as [|ds|]; cbn [width_st];
       [ | replace (dval ds <? 0) with false by lia
         | destruct (wv <? 0) eqn:EW; [apply Z.ltb_lt in EW | apply Z.ltb_ge in EW] ];
       cbn [set_wid set_minus set_zero wid widP fminus fplus fsharp fspace fzero];
       rewrite ?orb_false_r, ?orb_true_r; try reflexivity; try discriminate; lia.
  - destruct p as [|ps|]; cbn [prec_st set_prec prec precP]; [rewrite PP; reflexivity | reflexivity |].
    replace (pv <? 0) with false by lia. reflexivity.
  - destruct p as [|ps|]; cbn [prec_st set_prec prec]; [lia | apply dval_nonneg; exact Hwp | lia].
Qed.

Theorem go_directive_render d wv pv verb a more post :
  wf_dir d = true -> in_lim d wv pv -> verb_ok verb ->
  exists f, st_matches f (resolve d wv pv) /\
    go_directive (tail_of d verb ++ post) (star_gargs d wv pv ++ a :: more)
    = match print_arg f a verb with
      | Ok o => Ok (o, post, more, false)
      | Err m => Err m | Panic => Panic | Unmod => Unmod
      end.
Proof.
  intros Hwf Hlim Hv. eexists. split; [exact (dir_state_matches d wv pv Hwf Hlim)|].
  destruct Hlim as [Hlw Hlp]. pose proof Hv as (Hv128 & Hv37 & Hv91 & Hv42 & Hv46 & Hvf & Hvd).
  unfold wf_dir in Hwf. apply andb_true_iff in Hwf as [Hwf Hwp]. apply andb_true_iff in Hwf as [Hfl Hww].
  destruct d as [fl w p c]. cbn [d_flags d_width d_prec d_conv] in *.
  unfold tail_of, star_gargs, go_directive. cbn [d_flags d_width d_prec d_conv].
  rewrite <- !app_assoc. change ([verb] ++ post) with (verb :: post). rewrite (go_flags_app fl _ f0 Hfl).
  (* what follows the width is '.' or the verb; what follows the flags a digit but 0, '*', or that *)
  set (X := render_p p ++ verb :: post).
  assert (HX : exists c0 t0, X = c0 :: t0 /\ c0 <> 42 /\ is_digit c0 = false /\ is_flag c0 = false /\ c0 <> 91).
  { unfold X. destruct p; cbn [render_p app]; eexists _, _; (split; [reflexivity|]); repeat split; try assumption; try reflexivity; lia. }
  assert (HW : exists c1 t1, render_w w ++ X = c1 :: t1 /\ is_flag c1 = false /\ c1 <> 91).
  { destruct HX as (c0 & t0 & -> & _ & _ & Hf & N91). destruct w as [|[|c1 t1]|]; try discriminate; cbn [render_w app].
    - eauto.
    - apply andb_true_iff in Hww as [Hww _]. apply andb_true_iff in Hww as [Hc1 N48]. apply negb_true_iff, Z.eqb_neq in N48.
      exists c1, (t1 ++ c0 :: t0). split; [reflexivity|]. split; [apply is_dig_not_flag; assumption|].
      unfold is_dig in Hc1. apply andb_true_iff in Hc1 as [A B]. apply Z.leb_le in A, B. lia.
    - eexists _, _. split; [reflexivity|]. split; [reflexivity | lia]. }
  destruct HW as (c1 & t1 & EW & Hf1 & N91). rewrite go_flags_stop by (rewrite EW; exact Hf1).
  replace (starts_bracket (render_w w ++ X)) with false by (rewrite EW; symmetry; apply starts_bracket_other; exact N91).
  rewrite (go_width_render _ w wv X _ Hww Hlw) by (destruct HX as (c0 & t0 & -> & N42 & Nd & _); split; assumption).
  unfold X. rewrite (go_prec_render _ p pv verb post _ Hwp Hlp Hv), go_verb_arg by assumption. reflexivity.
Qed.
