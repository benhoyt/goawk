(* C09: the modelled parseFmtTypes on literal text and on a conversion
   specification written by [render]: translated bytes, argument types and the
   recorded offsets of '*' precisions. *)
From Verif Require Import Lib.Base Lib.Dyadic Lib.Utf8 Model.Printf
  Proofs.PrintfSpec Proofs.PrintfBase Proofs.PrintfInt Proofs.PrintfDir.

Definition prepend (l : bytes) (tys : list ty) (sts : list Z) (r : res pres) : res pres :=
  match r with
  | Ok (o, ts, st) => Ok (l ++ o, tys ++ ts, sts ++ st)
  | Err m => Err m | Panic => Panic | Unmod => Unmod
  end.

Lemma cons_out_prepend c tys sts r : cons_out c tys sts r = prepend [c] tys sts r.
Proof. destruct r as [[[o ts] st]| | |]; reflexivity. Qed.

Lemma prepend_prepend l1 t1 s1 l2 t2 s2 r :
  prepend l1 t1 s1 (prepend l2 t2 s2 r) = prepend (l1 ++ l2) (t1 ++ t2) (s1 ++ s2) r.
Proof. destruct r as [[[o ts] st]| | |]; cbn [prepend]; try reflexivity. rewrite <- ?app_assoc. reflexivity. Qed.

Lemma prepend_nil r : prepend [] [] [] r = r.
Proof. destruct r as [[[o ts] st]| | |]; reflexivity. Qed.

Lemma is_flagch_flag c : is_flagch c = is_flag c.
Proof.
  unfold is_flagch, is_flag.
  destruct (c =? 32), (c =? 45), (c =? 43), (c =? 35), (c =? 48); reflexivity.
Qed.

Ltac zl := repeat first [rewrite zlen_cons | rewrite zlen_app | rewrite zlen_nil].
Ltac pfin := f_equal; try (f_equal; zl; lia).

(* what parseFmtTypes does with the byte [c] in mode [m]: the mode afterwards, the
   bytes emitted, the argument types and the '*'-precision offsets recorded.
   None: [c] stands where the conversion character must, and is none. *)
Definition pstep : Type := option (pmode * bytes * list ty * list Z).

Definition verb_step (hp : bool) (c : Z) : pstep :=
  match verb_info c with
  | Some (c', t') =>
      Some (PLit, (if ((c' =? 103) || (c' =? 71)) && negb hp then [46; 54; c'] else [c']), [t'], [])
  | None => None
  end.

Definition pft_step (m : pmode) (pos c : Z) : pstep :=
  let verb := verb_step (has_prec m) c in
  let next m' := Some (m', [c], [], []) in
  match m with
  | PLit => if c =? 37 then next PPct else next PLit
  | PPct | PFlags =>
      if (match m with PPct => c =? 37 | _ => false end) then next PLit
      else if is_flagch c then next PFlags
      else if c =? 42 then Some (PWidthDone, [c], [TyD], [])
      else if is_digit c then next PWidth
      else if c =? 46 then next PDot
      else verb
  | PWidth => if is_digit c then next PWidth else if c =? 46 then next PDot else verb
  | PWidthDone => if c =? 46 then next PDot else verb
  | PDot => if c =? 42 then Some (PPrecDone, [c], [TyP], [pos - 1])
            else if is_digit c then next PPrec else verb
  | PPrec => if is_digit c then next PPrec else verb
  | PPrecDone => verb
  end.

(* the only place where [pft] itself is unfolded on a non-empty format *)
Lemma pft_cons m pos c t :
  pft m pos (c :: t) = match pft_step m pos c with
                       | Some (m', l, tys, sts) => prepend l tys sts (pft m' (pos + zlen l) t)
                       | None => Err (err_invalid c)
                       end.
Proof.
  destruct m; cbn [pft pft_step]; unfold verb_step;
    repeat match goal with |- (if ?b then _ else _) = _ => destruct b end;
    try (destruct (verb_info c) as [[c' t']|]; [destruct (_ && _)|]); cbv beta iota;
    rewrite ?cons_out_prepend, ?prepend_prepend; reflexivity.
Qed.

(* a mode that stays on the bytes accepted by [ok] copies a run of them *)
Lemma pft_run m (ok : Z -> bool) :
  (forall c pos, ok c = true -> pft_step m pos c = Some (m, [c], [], [])) ->
  forall l pos R, forallb ok l = true -> pft m pos (l ++ R) = prepend l [] [] (pft m (pos + zlen l) R).
Proof.
  intros Hok. induction l as [|c t IH]; intros pos R H.
  - cbn [app]. rewrite zlen_nil, Z.add_0_r, prepend_nil. reflexivity.
  - cbn [forallb] in H. apply andb_true_iff in H as [Hc Ht].
    cbn [app]. rewrite pft_cons, (Hok _ _ Hc), (IH _ _ Ht), prepend_prepend.
    rewrite <- Z.add_assoc, <- zlen_app. reflexivity.
Qed.

Lemma pft_lit_app pre pos s : no_pct pre = true ->
  pft PLit pos (pre ++ s) = prepend pre [] [] (pft PLit (pos + zlen pre) s).
Proof.
  apply (pft_run PLit (fun c => negb (c =? 37))). intros c p H. apply negb_true_iff in H.
  cbn [pft_step]. rewrite H. reflexivity.
Qed.

Lemma pft_lit s pos : no_pct s = true -> pft PLit pos s = Ok (s, [], []).
Proof.
  intros H. rewrite <- (app_nil_r s) at 1. rewrite (pft_lit_app _ _ _ H).
  cbn [pft prepend]. rewrite app_nil_r. reflexivity.
Qed.

Lemma pft_lit_pct pre pos X : no_pct pre = true ->
  pft PLit pos (pre ++ 37 :: X) = prepend (pre ++ [37]) [] [] (pft PPct (pos + zlen pre + 1) X).
Proof. intros H. rewrite (pft_lit_app _ _ _ H), pft_cons. cbn [pft_step Z.eqb Pos.eqb]. apply prepend_prepend. Qed.

Lemma pft_flags fl pos R : forallb is_flag fl = true ->
  pft PFlags pos (fl ++ R) = prepend fl [] [] (pft PFlags (pos + zlen fl) R).
Proof.
  apply (pft_run PFlags is_flag). intros c p H. cbn [pft_step]. rewrite is_flagch_flag, H. reflexivity.
Qed.

Lemma pft_pct_flags pos s : (match s with c :: _ => (c =? 37) = false | [] => True end) ->
  pft PPct pos s = pft PFlags pos s.
Proof.
  destruct s as [|c t]; intros H; [reflexivity|]. rewrite !pft_cons. cbn [pft_step]. rewrite H. reflexivity.
Qed.

Lemma pft_width_digits ds pos R : forallb is_dig ds = true ->
  pft PWidth pos (ds ++ R) = prepend ds [] [] (pft PWidth (pos + zlen ds) R).
Proof.
  apply (pft_run PWidth is_digit). intros c p H. cbn [pft_step]. rewrite H. reflexivity.
Qed.

Lemma pft_prec_digits ds pos R : forallb is_dig ds = true ->
  pft PPrec pos (ds ++ R) = prepend ds [] [] (pft PPrec (pos + zlen ds) R).
Proof.
  apply (pft_run PPrec is_digit). intros c p H. cbn [pft_step]. rewrite H. reflexivity.
Qed.

Definition is_g (cv : conv) : bool := match cv with Cg | CG => true | _ => false end.
(* g and G without a precision get C's default precision *)
Definition ins (cv : conv) (hp : bool) : bytes := if is_g cv && negb hp then [46; 54] else [].

(* in mode m the byte c is taken as the conversion character *)
Definition is_verb_pos (m : pmode) (c : Z) : bool :=
  match m with
  | PLit => false
  | PPct => negb (c =? 37) && negb (is_flagch c) && negb (c =? 42) && negb (is_digit c) && negb (c =? 46)
  | PFlags => negb (is_flagch c) && negb (c =? 42) && negb (is_digit c) && negb (c =? 46)
  | PWidth => negb (is_digit c) && negb (c =? 46)
  | PWidthDone => negb (c =? 46)
  | PDot => negb (c =? 42) && negb (is_digit c)
  | PPrec => negb (is_digit c)
  | PPrecDone => true
  end.

Lemma pft_step_verb m pos c : is_verb_pos m c = true -> pft_step m pos c = verb_step (has_prec m) c.
Proof.
  destruct m; cbn [is_verb_pos pft_step]; intros H; try discriminate;
    repeat (apply andb_true_iff in H as [H ?]);
    repeat match goal with Hx : negb _ = true |- _ => apply negb_true_iff in Hx; rewrite ?Hx end;
    reflexivity.
Qed.

Lemma conv_byte_verb_pos m cv : m <> PLit -> is_verb_pos m (conv_byte cv) = true.
Proof. intros H. destruct m; try congruence; destruct cv; reflexivity. Qed.

Lemma pft_verb m pos cv R : m <> PLit ->
  pft m pos (conv_byte cv :: R)
  = prepend (ins cv (has_prec m) ++ [go_conv_byte cv]) [conv_ty cv] []
      (pft PLit (pos + zlen (ins cv (has_prec m) ++ [go_conv_byte cv])) R).
Proof.
  intros Hm. rewrite pft_cons, (pft_step_verb _ _ _ (conv_byte_verb_pos m cv Hm)).
  unfold verb_step, ins. rewrite verb_info_conv. destruct cv, (has_prec m); reflexivity.
Qed.

Definition has_p (p : pr) : bool := match p with PrNone => false | _ => true end.
Definition p_tys (p : pr) : list ty := match p with PrStar => [TyP] | _ => [] end.
Definition p_stars (p : pr) (pos : Z) : list Z := match p with PrStar => [pos] | _ => [] end.
Definition wf_p (p : pr) : bool := match p with PrLit ds => forallb is_dig ds | _ => true end.
Definition w_tys (w : wd) : list ty := match w with WStar => [TyD] | _ => [] end.
Definition wf_w (w : wd) : bool :=
  match w with WLit (c :: ds) => is_dig c && negb (c =? 48) && forallb is_dig ds | WLit [] => false | _ => true end.

Definition mode_w (w : wd) : pmode := match w with WNone => PFlags | WLit _ => PWidth | WStar => PWidthDone end.
Definition mode_wp (w : wd) (p : pr) : pmode :=
  match p with PrNone => mode_w w | PrLit [] => PDot | PrLit _ => PPrec | PrStar => PPrecDone end.

Lemma has_prec_mode w p : has_prec (mode_wp w p) = has_p p.
Proof. destruct p as [|[|c t]|]; try reflexivity. destruct w; reflexivity. Qed.

Lemma is_dig_facts c : is_dig c = true -> (c =? 42) = false /\ (c =? 46) = false /\ (c =? 37) = false.
Proof.
  unfold is_dig. intros H. apply andb_true_iff in H as [A B]. apply Z.leb_le in A, B.
  repeat split; apply Z.eqb_neq; lia.
Qed.

Lemma pft_step_dot w pos : pft_step (mode_w w) pos 46 = Some (PDot, [46], [], []).
Proof. destruct w; reflexivity. Qed.

Lemma pft_prec_part w pos p X : wf_p p = true ->
  pft (mode_w w) pos (render_p p ++ X)
  = prepend (render_p p) (p_tys p) (p_stars p pos) (pft (mode_wp w p) (pos + zlen (render_p p)) X).
Proof.
  intros Hwf. destruct p as [|ds|]; cbn [render_p p_tys p_stars app mode_wp].
  - rewrite zlen_nil, Z.add_0_r, prepend_nil. reflexivity.
  - rewrite pft_cons, pft_step_dot. destruct ds as [|c0 t0]; [reflexivity|].
    cbn [wf_p forallb] in Hwf. apply andb_true_iff in Hwf as [Hc0 Ht0].
    destruct (is_dig_facts c0 Hc0) as (N42 & _ & _). change (is_dig c0) with (is_digit c0) in Hc0.
    cbn [app]. rewrite pft_cons. cbn [pft_step]. rewrite N42, Hc0, (pft_prec_digits t0 _ _ Ht0).
    rewrite !prepend_prepend. cbn [app]. pfin.
  - rewrite pft_cons, pft_step_dot, pft_cons. cbn [pft_step Z.eqb Pos.eqb]. rewrite prepend_prepend.
    cbn [app]. pfin.
Qed.

Lemma pft_width_part pos w X : wf_w w = true ->
  pft PFlags pos (render_w w ++ X)
  = prepend (render_w w) (w_tys w) [] (pft (mode_w w) (pos + zlen (render_w w)) X).
Proof.
  intros Hw. destruct w as [|ds|]; cbn [render_w w_tys app mode_w].
  - rewrite zlen_nil, Z.add_0_r, prepend_nil. reflexivity.
  - destruct ds as [|c0 t0]; [discriminate|]. cbn [wf_w] in Hw.
    apply andb_true_iff in Hw as [Hw Ht0]. apply andb_true_iff in Hw as [Hc0 N48]. apply negb_true_iff in N48.
    destruct (is_dig_facts c0 Hc0) as (N42 & N46 & N37).
    assert (Hfl : is_flagch c0 = false).
    { rewrite is_flagch_flag. apply is_dig_not_flag; [exact Hc0 | apply Z.eqb_neq; exact N48]. }
    change (is_dig c0) with (is_digit c0) in Hc0.
    cbn [app]. rewrite pft_cons. cbn [pft_step]. rewrite Hfl, N42, Hc0, (pft_width_digits t0 _ _ Ht0).
    rewrite !prepend_prepend. cbn [app]. pfin.
  - apply pft_cons.
Qed.

Definition spec_text (fl : bytes) (w : wd) (p : pr) : bytes := fl ++ render_w w ++ render_p p.

Theorem pft_spec pos fl w p X : forallb is_flag fl = true -> wf_w w = true -> wf_p p = true ->
  pft PFlags pos (spec_text fl w p ++ X)
  = prepend (spec_text fl w p) (w_tys w ++ p_tys p) (p_stars p (pos + zlen fl + zlen (render_w w)))
      (pft (mode_wp w p) (pos + zlen (spec_text fl w p)) X).
Proof.
  intros Hfl Hw Hp. unfold spec_text. rewrite <- !app_assoc.
  rewrite (pft_flags _ _ _ Hfl). rewrite (pft_width_part _ _ _ Hw). rewrite (pft_prec_part _ _ _ _ Hp).
  rewrite !prepend_prepend. cbn [app]. rewrite <- ?app_assoc. pfin.
Qed.

(* the first byte of a specification (or of what follows an empty one) is not a second '%' *)
Lemma spec_head fl w p X : forallb is_flag fl = true -> wf_w w = true -> wf_p p = true ->
  (fl = [] -> w = WNone -> p = PrNone -> match X with c :: _ => (c =? 37) = false | [] => True end) ->
  match spec_text fl w p ++ X with c0 :: _ => (c0 =? 37) = false | [] => True end.
Proof.
  intros Hfl Hw Hp Hc. unfold spec_text. destruct fl as [|f t].
  - cbn [app]. destruct w as [|ds|]; cbn [render_w app].
    + destruct p; cbn [render_p app]; try reflexivity. apply Hc; reflexivity.
    + destruct ds as [|c0 t0]; [discriminate|]. cbn [wf_w] in Hw.
      apply andb_true_iff in Hw as [Hw _]. apply andb_true_iff in Hw as [Hc0 _].
      cbn [app]. apply (is_dig_facts c0 Hc0).
    + reflexivity.
  - cbn [app forallb] in *. apply andb_true_iff in Hfl as [Hf _]. unfold is_flag in Hf.
    repeat (apply orb_true_iff in Hf as [Hf|Hf]); apply Z.eqb_eq in Hf; subst f; reflexivity.
Qed.

Definition go_tail (d : dir) : bytes :=
  d_flags d ++ render_w (d_width d) ++ render_p (d_prec d) ++ ins (d_conv d) (has_p (d_prec d)) ++ [go_conv_byte (d_conv d)].
Definition dir_tys (d : dir) : list ty := w_tys (d_width d) ++ p_tys (d_prec d).
Definition dir_stars (d : dir) (pos : Z) : list Z :=
  p_stars (d_prec d) (pos + zlen (d_flags d) + zlen (render_w (d_width d))).

Lemma wf_dir_parts d : wf_dir d = true ->
  forallb is_flag (d_flags d) = true /\ wf_w (d_width d) = true /\ wf_p (d_prec d) = true.
Proof.
  unfold wf_dir. intros H. apply andb_true_iff in H as [H Hp]. apply andb_true_iff in H as [Hf Hw].
  repeat split; assumption.
Qed.

Theorem pft_dir pos d R : wf_dir d = true ->
  pft PPct pos (tail_of d (conv_byte (d_conv d)) ++ R)
  = prepend (go_tail d) (dir_tys d ++ [conv_ty (d_conv d)]) (dir_stars d pos)
      (pft PLit (pos + zlen (go_tail d)) R).
Proof.
  intros Hwf. destruct (wf_dir_parts d Hwf) as (Hfl & Hw & Hp).
  unfold tail_of, go_tail, dir_tys, dir_stars.
  assert (E : (d_flags d ++ render_w (d_width d) ++ render_p (d_prec d) ++ [conv_byte (d_conv d)]) ++ R
              = spec_text (d_flags d) (d_width d) (d_prec d) ++ conv_byte (d_conv d) :: R).
  { unfold spec_text. rewrite <- !app_assoc. reflexivity. }
  rewrite E. clear E.
  rewrite pft_pct_flags by (apply spec_head; try assumption; intros; destruct (d_conv d); reflexivity).
  rewrite (pft_spec _ _ _ _ _ Hfl Hw Hp).
  rewrite pft_verb by (destruct (d_prec d) as [|[|c t]|]; try discriminate; destruct (d_width d); discriminate).
  rewrite has_prec_mode. rewrite prepend_prepend. unfold spec_text.
  rewrite <- !app_assoc. rewrite app_nil_r. pfin.
Qed.
