(* C01: the executable integer-fragment primitive record [xprims] (Model/ExecToy.v) meets
   [prims_ok] and [concat_indep]; hence the compiler-correctness theorems apply to the very
   instance the execution correspondence runs against goawk: for every program, whatever the
   tree semantics computes, the code the model compiler emits computes too. *)
From Coq Require Import ZifyBool.
From Verif Require Import Lib.Base Lib.Dyadic Model.Ast Model.Instr Model.Compiler Model.Prims Model.VM Model.AstSem
  Model.CancelToy Model.ExecToy Proofs.PrimsOk Proofs.VMLemmas Proofs.SimDefs Proofs.CompilerCorrect.

Open Scope Z_scope.

Lemma digits_val_app a b acc :
  digits_val (a ++ b) acc = match digits_val a acc with Some v => digits_val b v | None => None end.
Proof.
  revert acc; induction a as [|c a IH]; intros acc; cbn [app digits_val]; [reflexivity|].
  destruct ((48 <=? c) && (c <=? 57)); [apply IH|reflexivity].
Qed.

Definition first_not_zero (ds : bytes) : Prop := match ds with c :: _ => c <> 48 | [] => False end.

Lemma one_digit n :
  0 <= n < 10 -> digits_val [48 + n] 0 = Some n /\ [48 + n] <> [] /\ (0 < n -> first_not_zero [48 + n]).
Proof.
  intros H. split.
  { cbn [digits_val]. replace ((48 <=? 48 + n) && (48 + n <=? 57)) with true by lia. f_equal. lia. }
  split; [discriminate|]. intros Hp. unfold first_not_zero. lia.
Qed.

Lemma pos_digits_spec f : forall n acc, 0 <= n -> n < 10 ^ Z.of_nat (S f) ->
  exists ds, pos_digits (S f) n acc = ds ++ acc /\ digits_val ds 0 = Some n /\ ds <> [] /\ (0 < n -> first_not_zero ds).
Proof.
  induction f as [|f IH]; intros n acc H0 Hlt.
  - change (Z.of_nat 1) with 1 in Hlt. change (10 ^ 1) with 10 in Hlt.
    cbn [pos_digits]. replace (n <? 10) with true by lia.
    exists [48 + n]. split; [reflexivity|apply one_digit; lia].
  - remember (S f) as g eqn:Hg. cbn [pos_digits]. destruct (n <? 10) eqn:Hs.
    + exists [48 + n]. split; [reflexivity|apply one_digit; lia].
    + assert (Hn10 : 10 <= n) by lia.
      assert (Hq0 : 0 < n / 10) by (apply Z.div_str_pos; lia).
      assert (Hqlt : n / 10 < 10 ^ Z.of_nat g).
      { apply Z.div_lt_upper_bound; [lia|]. replace (Z.of_nat (S g)) with (Z.succ (Z.of_nat g)) in Hlt by lia.
        rewrite Z.pow_succ_r in Hlt by lia. exact Hlt. }
      subst g.
      destruct (IH (n / 10) ((48 + n mod 10) :: acc) ltac:(lia) Hqlt) as (ds & Hds & Hv & Hne & Hfz).
      exists (ds ++ [48 + n mod 10]). split; [rewrite Hds, <- app_assoc; reflexivity|]. split.
      { rewrite digits_val_app, Hv. cbn [digits_val].
        pose proof (Z.mod_pos_bound n 10 ltac:(lia)) as Hm.
        replace ((48 <=? 48 + n mod 10) && (48 + n mod 10 <=? 57)) with true by lia.
        f_equal. pose proof (Z.div_mod n 10 ltac:(lia)). lia. }
      split; [destruct ds; discriminate|].
      intros _. specialize (Hfz Hq0). destruct ds as [|c ds]; [contradiction|exact Hfz].
Qed.

Lemma int_of_bytes_digits ds n :
  digits_val ds 0 = Some n -> ds <> [] -> (0 < n -> first_not_zero ds) -> (n = 0 -> ds = [48]) -> int_of_bytes ds = Some n.
Proof.
  intros Hv Hne Hfz Hz. destruct ds as [|c [|d ds]]; [contradiction| exact Hv |].
  unfold int_of_bytes. destruct (c =? 48) eqn:Hc; [|exact Hv].
  exfalso. destruct (Z.eq_dec n 0) as [->|Hn0]; [specialize (Hz eq_refl); discriminate|].
  assert (0 <= n).
  { clear - Hv. assert (G : forall l a v, 0 <= a -> digits_val l a = Some v -> 0 <= v).
    { induction l as [|x l IH]; intros a v Ha Hd; cbn [digits_val] in Hd; [injection Hd as <-; exact Ha|].
      destruct ((48 <=? x) && (x <=? 57)) eqn:E; [|discriminate]. eapply IH; [|exact Hd]. lia. }
    eapply G; [|exact Hv]. lia. }
  specialize (Hfz ltac:(lia)). cbn in Hfz. lia.
Qed.

Lemma pos_digits_zero f acc : pos_digits (S f) 0 acc = 48 :: acc.
Proof. reflexivity. Qed.

Lemma xstr_dec n : - 10 ^ 80 < n < 10 ^ 80 -> xstr (dec_of_Z n) = n.
Proof.
  intros Hb. unfold dec_of_Z. destruct (n <? 0) eqn:Hneg.
  - destruct (pos_digits_spec 79 (- n) [] ltac:(lia) ltac:(change (Z.of_nat 80) with 80; lia)) as (ds & Hds & Hv & Hne & Hfz).
    rewrite Hds, app_nil_r. cbn [xstr].
    rewrite (int_of_bytes_digits ds (- n) Hv Hne Hfz ltac:(lia)). lia.
  - destruct (pos_digits_spec 79 n [] ltac:(lia) ltac:(change (Z.of_nat 80) with 80; lia)) as (ds & Hds & Hv & Hne & Hfz).
    rewrite Hds, app_nil_r.
    assert (Hz : n = 0 -> ds = [48]).
    { intros ->. rewrite pos_digits_zero in Hds. rewrite app_nil_r in Hds. congruence. }
    pose proof (int_of_bytes_digits ds n Hv Hne Hfz Hz) as Hi.
    unfold xstr. destruct ds as [|c ds]; [contradiction|].
    destruct (Z.eq_dec c 45) as [->|Hc].
    + (* a digit string does not start with '-' *)
      exfalso. cbn [digits_val] in Hv. discriminate.
    + replace (match c with 45 => _ | _ => match int_of_bytes (c :: ds) with Some v => v | None => 0 end end)
        with (match int_of_bytes (c :: ds) with Some v => v | None => 0 end); [rewrite Hi; reflexivity|].
      destruct c as [|p|p]; try reflexivity.
      do 6 (destruct p as [p|p|]; try reflexivity). contradiction Hc; reflexivity.
Qed.

Lemma xkeq v w : v = w -> keq xprims v w.
Proof. intros ->. apply keq_refl. Qed.

Lemma fold_const (vs : list Z) (s : cst) : fold_left (p_concat xprims s) vs 0 = 0.
Proof. induction vs as [|v vs IH]; cbn [fold_left]; [reflexivity|exact IH]. Qed.

Lemma in_i64_bound n : in_i64 n = true -> - 10 ^ 80 < n < 10 ^ 80.
Proof.
  unfold in_i64. intros H. assert (Ht : two63 < 10 ^ 80) by (vm_compute; reflexivity).
  assert (Hn : - two63 <= n < two63) by lia. lia.
Qed.

Lemma xprims_ok : prims_ok xprims.
Proof.
  constructor.
  - intros b. destruct b; reflexivity.
  - reflexivity.
  - intros s l r. cbn. unfold ccmp. destruct (l =? r); reflexivity.
  - reflexivity.
  - intros v. reflexivity.
  - intros v. reflexivity.
  - reflexivity.
  - reflexivity.
  - reflexivity.
  - intros b t Hk. apply xkeq. cbn [xprims p_num p_str ctoy].
    unfold int_index_str in Hk. unfold int_of_bits.
    destruct (of_bits b) as [| |m e]; try discriminate.
    destruct (is_integral m e) eqn:Hi; cbn [andb] in Hk; [|discriminate].
    destruct (in_i64 (ftrunc m e)) eqn:Hb; [|discriminate]. injection Hk as <-.
    symmetry. apply xstr_dec. apply in_i64_bound. exact Hb.
  - intros s v w vs. cbn [xprims p_concat_multi p_concat ctoy]. symmetry. apply (fold_const vs s).
Qed.

Lemma xprims_indep : concat_indep xprims.
Proof. intros s s' v w. reflexivity. Qed.

Definition end_of_x (r : AstSem.xres Z cst Z) : toy_end :=
  match r with
  | RNormal m => if clean m then TDone (ms m) else TBad 4
  | RAbort XExit m => TExit (ms m)
  | RAbort (XError e) m => TErr e (ms m)
  | RAbort _ _ => TBad 3
  | RBreak _ | RContinue _ | RReturn _ _ => TBad 3
  | RWrong => TBad 1
  | RFuel => TBad 2
  end.

Definition good_end (t : toy_end) : Prop := match t with TBad _ => False | _ => True end.

(* whatever the tree semantics computes for a program with one BEGIN block (ran to the end,
   exit, run-time error; with its final state), the code emitted by the model compiler
   computes as well, for every sufficiently large fuel *)
Theorem toy_instance_correct (p : program) (b : stmts) (n : nat) :
  p_begin p = [b] ->
  good_end (toy_ast_run n p) ->
  exists k0, forall k, (k0 <= k)%nat -> toy_vm_run k p = toy_ast_run n p.
Proof.
  intros Hb Hg. unfold toy_ast_run in *. rewrite Hb in *. cbn [ast_blocks] in *.
  assert (Hcode : c_begin (comp_program p) = comp_block b).
  { unfold comp_program. cbn [c_begin]. rewrite Hb. cbn [flat_map]. apply app_nil_r. }
  assert (HF : c_funcs (comp_program p) = F (p_funcs p)) by reflexivity.
  destruct (exec_stmts xprims (p_funcs p) n false b m_begin) as [m'|m'|m'|v m'|x m'| |] eqn:Er; cbn in Hg; try contradiction;
    (edestruct (compile_block_correct Z cst Z xprims (p_funcs p) xprims_ok xprims_indep n b m_begin []) as [k0 Hk0];
       [rewrite Er; reflexivity|]);
    exists k0; intros k Hk; unfold toy_vm_run; rewrite Hcode, HF, (Hk0 k Hk).
  - reflexivity.
  - destruct x; try contradiction; reflexivity.
Qed.
