(* C04 — fuel monotonicity of the parser model: once a call returns anything other than PFuel,
   every larger fuel returns the same thing.  Consequently theorems can speak about
   "some fuel" / "all sufficiently large fuel" interchangeably. *)
From Verif Require Import Lib.Base Model.ExprAst Model.ExprParser.

Definition le_res {A} (a b : pres A) : Prop := a = PFuel \/ a = b.

Lemma le_res_refl {A} (a : pres A) : le_res a a.
Proof. right; reflexivity. Qed.

Lemma pbind_mono {A B} (c c' : pres A) (k k' : A -> pres B) :
  le_res c c' -> (forall a, le_res (k a) (k' a)) -> le_res (pbind c k) (pbind c' k').
Proof.
  intros [-> | ->] Hk; [left; reflexivity|].
  destruct c'; cbn [pbind]; auto using le_res_refl.
Qed.

Definition mono_at (n : nat) : Prop :=
  forall m, (n <= m)%nat ->
  (forall l pc pend ts, le_res (p_lv n l pc pend ts) (p_lv m l pc pend ts)) /\
  (forall l pc e ts, le_res (after n l pc e ts) (after m l pc e ts)) /\
  (forall l pc ts, le_res (regex_str n l pc ts) (regex_str m l pc ts)) /\
  (forall pend ts, le_res (primary n pend ts) (primary m pend ts)) /\
  (forall ts, le_res (opt_lvalue n ts) (opt_lvalue m ts)) /\
  (forall pc first ts, le_res (exprlist n pc first ts) (exprlist m pc first ts)) /\
  (forall first ts, le_res (ucall_args n first ts) (ucall_args m first ts)) /\
  (forall ts, le_res (sprintf_args n ts) (sprintf_args m ts)) /\
  (forall f ts, le_res (builtin n f ts) (builtin m f ts)).

(* Syntax-directed: a bind is monotone in both parts, a match or if on something that does not depend
   on the fuel is split, and what is left is a recursive call (an induction hypothesis) or has the
   same term on both sides.  The sides are compared syntactically: unifying a term at fuel n with its
   copy at fuel m can only fail, after unfolding the whole mutual block. *)
Ltac mono_tac :=
  repeat first
    [ match goal with
      | |- le_res ?a ?a => apply le_res_refl
      | |- le_res (pbind _ _) _ => apply pbind_mono; [ | intros ? ]
      | |- le_res (match ?x with _ => _ end) _ => destruct x
      | |- le_res (if ?x then _ else _) _ => destruct x
      | |- le_res (let '(_, _) := ?x in _) _ => destruct x
      end
    | solve [auto] ].

(* The short bodies, written out.  Under an unfolded fixpoint every recursive call is the whole
   mutual block again, which the kernel compares with the constant, call by call and branch by branch,
   whenever a proof unfolds one step by computation; these equations are checked once and used by
   rewriting. *)
Lemma p_lv_S k l pc pend ts :
  p_lv (S k) l pc pend ts =
  match l with
  | LPrimary => primary k pend ts
  | LGetline => dop (e, ts') <- p_lv k LCond pc None ts; after k l pc e ts'
  | _ => dop (e, ts') <- p_lv k (higher pc l) pc pend ts; after k l pc e ts'
  end.
Proof. cbn [p_lv]. reflexivity. Qed.

Lemma regex_str_S k l pc ts :
  regex_str (S k) l pc ts =
  match ts with
  | TRegex s :: r => POk (EStrRegex s, r)
  | TDiv :: _ | TDivAssign :: _ => PUnmod
  | _ => p_lv k l pc None ts
  end.
Proof. cbn [regex_str]. reflexivity. Qed.

Lemma exprlist_S k pc first ts :
  exprlist (S k) pc first ts =
  if exprlist_stop ts then POk ([], ts) else
  dop ts1 <- (if first then POk ts else comma_nl ts);
  dop (e, ts2) <- p_lv k LExpr pc None ts1;
  dop (es, ts3) <- exprlist k pc false ts2;
  POk (e :: es, ts3).
Proof. cbn [exprlist]. reflexivity. Qed.

Lemma ucall_args_S k first ts :
  ucall_args (S k) first ts =
  match ts with
  | TNewline :: _ | TRParen :: _ => POk ([], ts)
  | _ =>
    dop ts1 <- (if first then POk ts else comma_nl ts);
    dop (e, ts2) <- p_lv k LExpr false None ts1;
    dop (es, ts3) <- ucall_args k false ts2;
    POk (e :: es, ts3)
  end.
Proof. cbn [ucall_args]. reflexivity. Qed.

(* For the long bodies the right-hand side B is found by unification; either way a body is unfolded
   once, at a generic fuel k, and not on both sides of le_res. *)
Lemma le_res_unfold {A} (G B : nat -> pres A) n m :
  (forall k, G k = B k) -> le_res (B n) (B m) -> le_res (G n) (G m).
Proof. intros E H. rewrite !E. exact H. Qed.

Lemma mono : forall n, mono_at n.
Proof.
  induction n as [|n IH]; intros m Hm.
  - repeat split; intros; left; reflexivity.
  - destruct m as [|m]; [lia|].
    assert (Hnm : (n <= m)%nat) by lia.
    destruct (IH m Hnm) as (I1 & I2 & I3 & I4 & I5 & I6 & I7 & I8 & I9).
    repeat split; intros.
    + eapply (le_res_unfold (fun k => p_lv (S k) l pc pend ts)); [intros k; apply p_lv_S | cbv beta; mono_tac].
    + eapply (le_res_unfold (fun k => after (S k) l pc e ts)); [intros k; cbn [after]; reflexivity | cbv beta; mono_tac].
    + eapply (le_res_unfold (fun k => regex_str (S k) l pc ts)); [intros k; apply regex_str_S | cbv beta; mono_tac].
    + eapply (le_res_unfold (fun k => primary (S k) pend ts)); [intros k; cbn [primary]; reflexivity | cbv beta; mono_tac].
    + eapply (le_res_unfold (fun k => opt_lvalue (S k) ts)); [intros k; cbn [opt_lvalue]; reflexivity | cbv beta; mono_tac].
    + eapply (le_res_unfold (fun k => exprlist (S k) pc first ts)); [intros k; apply exprlist_S | cbv beta; mono_tac].
    + eapply (le_res_unfold (fun k => ucall_args (S k) first ts)); [intros k; apply ucall_args_S | cbv beta; mono_tac].
    + eapply (le_res_unfold (fun k => sprintf_args (S k) ts)); [intros k; cbn [sprintf_args]; reflexivity | cbv beta; mono_tac].
    + eapply (le_res_unfold (fun k => builtin (S k) f ts)); [intros k; cbn [builtin]; reflexivity | cbv beta; mono_tac].
Qed.
