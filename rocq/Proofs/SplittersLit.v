(* A literal RS of two or more bytes - in particular one multi-byte character, which
   setSpecial compiles as QuoteMeta(RS) - searched as a byte string: the first occurrence is
   never revised by later input, so regexSplitter is stable for it. *)
From Verif Require Import Lib.Base Model.Scanner Model.Splitters Proofs.Scanner Proofs.Splitters.

Fixpoint prefixb (p d : bytes) : bool :=
  match p, d with
  | [], _ => true
  | x :: p', y :: d' => (x =? y) && prefixb p' d'
  | _ :: _, [] => false
  end.

(* first occurrence of p in d, offsets counted from i *)
Fixpoint find_lit_from (p d : bytes) (i : Z) : option (Z * Z) :=
  if prefixb p d then Some (i, i + zlen p)
  else match d with
       | [] => None
       | _ :: d' => find_lit_from p d' (i + 1)
       end.

Definition find_lit (p d : bytes) : option (Z * Z) := find_lit_from p d 0.

Lemma prefixb_len p : forall d, prefixb p d = true -> zlen p <= zlen d.
Proof.
  induction p as [|x p IH]; intros d H; [rewrite zlen_nil; apply zlen_nonneg|].
  destruct d as [|y d]; [discriminate|]. cbn [prefixb] in H. apply andb_true_iff in H as [_ H].
  rewrite !zlen_cons. apply IH in H. lia.
Qed.

Lemma prefixb_app p : forall d d', zlen p <= zlen d -> prefixb p (d ++ d') = prefixb p d.
Proof.
  induction p as [|x p IH]; intros d d' H; [reflexivity|].
  destruct d as [|y d]; [rewrite zlen_cons, zlen_nil in H; pose proof (zlen_nonneg p); lia|].
  cbn [app prefixb]. rewrite !zlen_cons in H. rewrite IH by lia. reflexivity.
Qed.

Lemma find_lit_from_bounds p : forall d i s e, find_lit_from p d i = Some (s, e) ->
  i <= s /\ e = s + zlen p /\ e <= i + zlen d.
Proof.
  induction d as [|y d IH]; intros i s e H; cbn [find_lit_from] in H.
  - destruct (prefixb p []) eqn:E; [|discriminate]. injection H as <- <-.
    apply prefixb_len in E. lia.
  - destruct (prefixb p (y :: d)) eqn:E.
    + injection H as <- <-. apply prefixb_len in E. lia.
    + apply IH in H. rewrite zlen_cons. lia.
Qed.

Lemma find_lit_bounds p d s e : find_lit p d = Some (s, e) -> 0 <= s /\ s <= e /\ e <= zlen d.
Proof.
  intros H. apply find_lit_from_bounds in H. pose proof (zlen_nonneg p). lia.
Qed.

Lemma find_lit_from_app p : forall d d' i s e, find_lit_from p d i = Some (s, e) ->
  find_lit_from p (d ++ d') i = Some (s, e).
Proof.
  induction d as [|y d IH]; intros d' i s e H; cbn [find_lit_from] in H.
  - destruct (prefixb p []) eqn:E; [|discriminate].
    assert (p = []) by (destruct p; [reflexivity|discriminate]). subst p.
    cbn [app]. destruct d'; cbn [find_lit_from prefixb]; exact H.
  - cbn [app find_lit_from]. destruct (prefixb p (y :: d)) eqn:E.
    + change (y :: d ++ d') with ((y :: d) ++ d').
      rewrite prefixb_app by (apply prefixb_len; exact E). rewrite E. exact H.
    + pose proof (find_lit_from_bounds _ _ _ _ _ H) as Hb.
      change (y :: d ++ d') with ((y :: d) ++ d').
      rewrite prefixb_app by (rewrite zlen_cons; lia). rewrite E.
      apply IH. exact H.
Qed.

Theorem lit_match_final p : match_final (find_lit p).
Proof. intros d d' s e H _. apply find_lit_from_app. exact H. Qed.

Theorem lit_stable p rs : stable unit record (to_split rs (regex_scan (find_lit p))).
Proof. apply regex_stable; [exact (find_lit_bounds p)|exact (lit_match_final p)]. Qed.
