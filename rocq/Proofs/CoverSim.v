(* C18: the simulation.  A run of a tree with counter statements and a run of the same tree with
   the counter statements erased proceed in lock step: same user-visible state, same ghost trace,
   same outcome, and an invariant between the __COVER array of the first run and the trace. *)
From Verif Require Import Lib.Base Model.Cover Proofs.CoverBase Proofs.CoverStruct.

Lemma Forall2_nth {A B} (R : A -> B -> Prop) la lb : Forall2 R la lb ->
  forall n, match nth_error la n, nth_error lb n with
            | Some a, Some b => R a b
            | None, None => True
            | _, _ => False
            end.
Proof.
  induction 1 as [|a b ta tb Hab _ IH]; intros [|n]; cbn; auto. apply IH.
Qed.

Lemma mark_plain {E U X} (s : cstmt E) (q : st U X) : plain s ->
  mark E U X s q = mkst U X (s_u U X q) (s_x U X q) (start_of s :: s_tr U X q).
Proof. intros Hs. destruct s; try reflexivity. discriminate Hs. Qed.

Lemma exec_list_fuel {E U V X} (rec : cstmt E -> st U X -> st U X * outcome V) s t q :
  snd (rec s (mark E U X s q)) = OFuel V -> snd (exec_list E U V X rec (s :: t) q) = OFuel V.
Proof. cbn [exec_list]. destruct (rec s (mark E U X s q)) as [q1 o]. cbn [snd]. intros ->. reflexivity. Qed.

(* Two runs of one computation over two kinds of state: the results agree, and the states are
   related unless the result is a [stop] value (the fuel ran out). *)
Definition grel {QA QB R} (Rq : QA -> QB -> Prop) (stop : R -> Prop) (r : QA * R) (rb : QB * R) : Prop :=
  snd r = snd rb /\ (~ stop (snd r) -> Rq (fst r) (fst rb)).

Section Grel.
Context {QA QB R : Type} (Rq : QA -> QB -> Prop) (stop : R -> Prop).

Lemma grel_same q qb x : (~ stop x -> Rq q qb) -> grel Rq stop (q, x) (qb, x).
Proof. intros H. split; [reflexivity|exact H]. Qed.

Lemma grel_ok q qb x : Rq q qb -> grel Rq stop (q, x) (qb, x).
Proof. intros H. apply grel_same. intros _. exact H. Qed.

Lemma grel_stop q qb x : stop x -> grel Rq stop (q, x) (qb, x).
Proof. intros H. apply grel_same. intros Hn. contradiction. Qed.

(* to prove something of two related results, take them to be pairs with the same second component *)
Lemma grel_case (P : QA * R -> QB * R -> Prop) :
  (forall q qb x, (~ stop x -> Rq q qb) -> P (q, x) (qb, x)) -> forall r rb, grel Rq stop r rb -> P r rb.
Proof.
  intros H [q x] [qb y] [Hx Hq]. cbn [fst snd] in Hx, Hq. subst y. apply H. exact Hq.
Qed.
End Grel.

(* [cases H], for [H : grel _ _ a b] and a goal that matches on [a] and on [b]: the two become
   pairs [(q, x)] and [(qb, x)], to be introduced together with the hypothesis that relates
   [q] and [qb] unless [x] is a stop value.  The goal is copied into a motive once. *)
Ltac cases H := match type of H with _ ?a ?b => generalize a b H end; clear H; apply grel_case.

Section Sim.
Variables (E U K V I XA XB : Type).
Variable ev_start : E -> U -> estep U K V.
Variable ev_resume : K -> U -> V -> estep U K V.
Variable truthy : V -> bool.
Variable nil_v : V.
Variable forin_init : E -> U -> I.
Variable forin_next : E -> I -> U -> option (I * U).
Variable bumpA : cmode -> Z -> XA -> XA.
Variable bumpB : cmode -> Z -> XB -> XB.
Variable mode : cmode.
Variable funcsA funcsB : list (list (cstmt E)).

(* The invariant [J] between __COVER and the trace, and its form [JP i] while counter [i] has
   been bumped and the statement it guards has not begun: a counter statement takes J to JP (Hc),
   the begin event of the guarded statement takes JP back to J (Hh), the begin event of any other
   statement keeps J (Hp).  CoverMain.v takes the trivial invariant (transparency),
   "__COVER[i] = number of begin events at the start of block i" (count mode) and
   "__COVER[i] = 1 iff that number is positive" (set mode). *)
Variable J : XA -> list pos -> Prop.
Variable JP : Z -> XA -> list pos -> Prop.
Variable okp : option Z -> pos -> Prop.
Hypothesis Hc : forall i x tr, J x tr -> JP i (bumpA mode i x) tr.
Hypothesis Hh : forall i p x tr, JP i x tr -> okp (Some i) p -> J x (p :: tr).
Hypothesis Hp : forall p x tr, J x tr -> okp None p -> J x (p :: tr).

Notation stA := (st U XA).
Notation stB := (st U XB).
Notation out := (outcome V).

Definition RstP (prev : option Z) (q : stA) (qb : stB) : Prop :=
  s_u _ _ q = s_u _ _ qb /\ s_tr _ _ q = s_tr _ _ qb
  /\ match prev with None => J (s_x _ _ q) (s_tr _ _ q) | Some i => JP i (s_x _ _ q) (s_tr _ _ q) end.
Definition Rst := RstP None.

Definition rrel : stA * out -> stB * out -> Prop := grel Rst (fun o => o = OFuel V).
Definition vrel : stA * vres V -> stB * vres V -> Prop := grel Rst (fun r => r = VOut V (OFuel V)).
Definition brel : stA * (bool + out) -> stB * (bool + out) -> Prop := grel Rst (fun r => r = inr (OFuel V)).

Lemma Rst_set_u q qb u : Rst q qb ->
  Rst (mkst U XA u (s_x U XA q) (s_tr U XA q)) (mkst U XB u (s_x U XB qb) (s_tr U XB qb)).
Proof. intros (_ & H2 & H3). split; [reflexivity|]. split; [exact H2|exact H3]. Qed.

(* The model sequences computations by a [match] on a result.  For each shape of such a match
   that occurs several times, one lemma: related scrutinees and relation-preserving
   continuations give related matches.  A shape that occurs once is taken apart where it
   occurs, by [cases]. *)

Lemma vrel_seq r rb (k : V -> stA -> stA * out) (kb : V -> stB -> stB * out) :
  vrel r rb -> (forall v q qb, Rst q qb -> rrel (k v q) (kb v qb)) ->
  rrel match r with (q, VVal _ v) => k v q | (q, VOut _ o) => (q, o) end
       match rb with (q, VVal _ v) => kb v q | (q, VOut _ o) => (q, o) end.
Proof.
  intros Hr Hk. revert r rb Hr. apply grel_case. intros q qb [v|o] HR.
  - apply Hk. apply HR. discriminate.
  - apply grel_same. intros Hne. apply HR. congruence.
Qed.

(* In the next lemmas the scrutinee is an application [f x], as it is in the model: on a variable
   [r] the default branch [r => r] elaborates to [r] itself, on an application to the pair
   rebuilt constructor by constructor, and the two forms are not convertible. *)
Section Bind.
Context {T TB : Type} (f : T -> stA * out) (fb : TB -> stB * out) (x : T) (xb : TB).
Hypothesis Hf : rrel (f x) (fb xb).

Lemma rrel_seq (k : stA -> stA * out) (kb : stB -> stB * out) :
  (forall q qb, Rst q qb -> rrel (k q) (kb qb)) ->
  rrel match f x with (q, ONormal _) => k q | r => r end
       match fb xb with (q, ONormal _) => kb q | r => r end.
Proof.
  intros Hk. generalize (f x) (fb xb) Hf. apply grel_case. intros q qb o HR.
  destruct o; try (apply grel_same; exact HR). apply Hk. apply HR. discriminate.
Qed.

(* one iteration of a loop body followed by the rest of the loop *)
Lemma rrel_loop (k : stA -> stA * out) (kb : stB -> stB * out) :
  (forall q qb, Rst q qb -> rrel (k q) (kb qb)) ->
  rrel match f x with (q, ONormal _) | (q, OContinue _) => k q | (q, OBreak _) => (q, ONormal V) | r => r end
       match fb xb with (q, ONormal _) | (q, OContinue _) => kb q | (q, OBreak _) => (q, ONormal V) | r => r end.
Proof.
  intros Hk. generalize (f x) (fb xb) Hf. apply grel_case. intros q qb o HR.
  destruct o; try (apply grel_same; exact HR); try (apply Hk; apply HR; discriminate).
  apply grel_ok. apply HR. discriminate.
Qed.

(* exit ends the main loop or the END blocks normally *)
Lemma rrel_exit :
  rrel match f x with (q, OAbort _ (AExit _)) => (q, ONormal V) | r => r end
       match fb xb with (q, OAbort _ (AExit _)) => (q, ONormal V) | r => r end.
Proof.
  generalize (f x) (fb xb) Hf. apply grel_case. intros q qb o HR.
  destruct o as [| | |v|[| | |e]| |]; try (apply grel_same; exact HR).
  apply grel_ok. apply HR. discriminate.
Qed.

End Bind.

(* well-marked trees: structure + every (tag, start) pair is acceptable *)
Definition okt (x : option Z * pos) : Prop := okp (fst x) (snd x).
Definition wm_list (prev : option Z) (l : list (cstmt E)) : Prop :=
  sok_list mode (sok mode) prev l /\ Forall okt (tagged_list tagged_in prev l).
Definition wm_stmt (s : cstmt E) : Prop := sok mode s /\ Forall okt (tagged_in s).

Lemma wm_nil prev : wm_list prev [] -> prev = None.
Proof. intros [H _]. exact H. Qed.

Lemma wm_cover prev m i t : wm_list prev (SCover m i :: t) -> prev = None /\ m = mode /\ wm_list (Some i) t.
Proof. intros [(H1 & H2 & H3) H4]. split; [exact H1|]. split; [exact H2|]. split; assumption. Qed.

Lemma wm_plain prev (s : cstmt E) t : plain s -> wm_list prev (s :: t) ->
  okp prev (start_of s) /\ wm_stmt s /\ wm_list None t.
Proof.
  intros Hs [H1 H2]. apply (sok_list_plain mode) in H1; [|exact Hs]. destruct H1 as [H1 H3].
  rewrite tagged_list_plain in H2 by exact Hs.
  inversion H2 as [|? ? Hx Hrest]; subst. apply Forall_app in Hrest as [Hin Ht].
  split; [exact Hx|]. split; split; assumption.
Qed.

Lemma wm_some_nonempty i l : wm_list (Some i) l -> exists s t, l = s :: t /\ plain s.
Proof.
  intros [H _]. destruct l as [|s t]; [discriminate H|]. exists s, t. split; [reflexivity|].
  destruct s; try reflexivity. destruct H as [H _]. discriminate H.
Qed.

(* the begin event of a statement, after the counter statement [prev] if there is one *)
Lemma RstP_mark prev (s : cstmt E) q qb : plain s -> okp prev (start_of s) -> RstP prev q qb ->
  Rst (mark E U XA s q) (mark E U XB (erase s) qb).
Proof.
  intros Hs Hok (H1 & H2 & H3). destruct (erase_plain s Hs) as [Hpe Hse].
  rewrite (mark_plain s q Hs), (mark_plain (erase s) qb Hpe), Hse.
  split; [exact H1|]. split; [cbn [s_tr]; rewrite H2; reflexivity|]. cbn [s_x s_tr].
  destruct prev as [i|]; [apply (Hh i); assumption|apply Hp; assumption].
Qed.

Hypothesis Hfun : Forall2 (fun la lb => erase_stmts la = lb /\ wm_list None la) funcsA funcsB.

Notation execA := (exec E U K V I XA ev_start ev_resume truthy nil_v forin_init forin_next bumpA funcsA).
Notation execB := (exec E U K V I XB ev_start ev_resume truthy nil_v forin_init forin_next bumpB funcsB).

Lemma exec_cover_cases n : forall m i q,
  execA n (SCover m i) q = (mkst _ _ (s_u _ _ q) (bumpA m i (s_x _ _ q)) (s_tr _ _ q), ONormal V)
  \/ (snd (execA n (SCover m i) q) = OFuel V /\ forall s qb, snd (execB n s qb) = OFuel V).
Proof.
  intros m i q. destruct n as [|n']; [right; split; reflexivity|left; reflexivity].
Qed.

(* the statements of one fuel level, given those of the level below: [exec (S n)] is
   [exec_body] over [exec n] with loop and call bound [n] *)
Section Rec.
Variable n : nat.
Notation recA := (execA n).
Notation recB := (execB n).
Hypothesis Hrec : forall s q qb, plain s -> wm_stmt s -> Rst q qb -> rrel (recA s q) (recB (erase s) qb).

Notation listA := (exec_list E U V XA recA).
Notation listB := (exec_list E U V XB recB).

Lemma list_sim l : forall prev q qb, wm_list prev l -> RstP prev q qb ->
  rrel (listA l q) (listB (erase_stmts l) qb).
Proof.
  induction l as [|s t IH]; intros prev q qb Hwm HR.
  - apply wm_nil in Hwm. subst prev. apply grel_ok. exact HR.
  - destruct (is_cover s) eqn:Hcov.
    + destruct s; try discriminate Hcov. apply wm_cover in Hwm as (-> & -> & Hwm).
      change (erase_stmts (SCover mode i :: t)) with (erase_stmts t).
      destruct (exec_cover_cases n mode i q) as [Hn | [Hf Hall]].
      * cbn [exec_list mark]. rewrite Hn. apply (IH (Some i)); [exact Hwm|].
        destruct HR as (H1 & H2 & H3). split; [exact H1|]. split; [exact H2|]. apply Hc. exact H3.
      * (* no fuel: the statement guarded by the counter stops the other run *)
        destruct (wm_some_nonempty _ _ Hwm) as (s2 & t2 & -> & Hp2).
        unfold erase_stmts. rewrite erase_list_plain_cons by exact Hp2.
        pose proof (exec_list_fuel recA (SCover mode i) (s2 :: t2) q Hf) as HA.
        pose proof (exec_list_fuel recB (erase s2) (erase_list erase t2) qb (Hall _ _)) as HB.
        split; [rewrite HB; exact HA|]. intros Hne. contradiction.
    + destruct (wm_plain prev s t Hcov Hwm) as (Hok & Hws & Hwt).
      unfold erase_stmts. rewrite erase_list_plain_cons by exact Hcov. cbn [exec_list].
      apply rrel_seq.
      * apply Hrec; [exact Hcov|exact Hws|]. apply (RstP_mark prev); assumption.
      * intros q1 qb1 HR1. apply (IH None); assumption.
Qed.

Lemma call_sim f q qb : Rst q qb ->
  rrel (call_fn E U V XA funcsA recA f q) (call_fn E U V XB funcsB recB f qb).
Proof.
  intros HR. unfold call_fn. pose proof (Forall2_nth _ _ _ Hfun f) as Hn.
  destruct (nth_error funcsA f) as [la|], (nth_error funcsB f) as [lb|]; try contradiction.
  - destruct Hn as [<- Hw]. apply (list_sim la None); assumption.
  - apply grel_ok. exact HR.
Qed.

Notation drive_ X funcs rec := (drive E U K V X ev_resume nil_v funcs rec).

Lemma drive_sim m : forall (stp : U -> estep U K V) q qb, Rst q qb ->
  vrel (drive_ XA funcsA recA m (stp (s_u U XA q)) (s_x U XA q) (s_tr U XA q)) (drive_ XB funcsB recB m (stp (s_u U XB qb)) (s_x U XB qb) (s_tr U XB qb)).
Proof.
  induction m as [|m IH]; intros stp q qb HR; rewrite <- (proj1 HR).
  all: destruct (stp (s_u U XA q)) as [u [v|a]|f u k]; cbn [drive]; try (apply grel_ok; apply Rst_set_u; exact HR).
  (* what is left: a call, with fuel for it *)
  pose proof (call_sim f _ _ (Rst_set_u q qb u HR)) as Hf. cases Hf. intros q1 qb1 o HR1.
  destruct o; try (apply grel_ok; apply HR1; discriminate).
  - apply (IH (fun u1 => ev_resume k u1 nil_v)). apply HR1. discriminate.
  - apply (IH (fun u1 => ev_resume k u1 v)). apply HR1. discriminate.
  - apply grel_stop. reflexivity.
Qed.

Notation eval_ X funcs rec := (eval E U K V X ev_start ev_resume nil_v funcs rec n).

Lemma eval_sim e q qb : Rst q qb -> vrel (eval_ XA funcsA recA e q) (eval_ XB funcsB recB e qb).
Proof. apply (drive_sim n (ev_start e)). Qed.

Lemma eval_opt_sim e q qb : Rst q qb ->
  vrel (eval_opt E U K V XA ev_start ev_resume nil_v funcsA recA n e q)
       (eval_opt E U K V XB ev_start ev_resume nil_v funcsB recB n e qb).
Proof.
  intros HR. destruct e as [e|]; cbn [eval_opt]; [apply eval_sim|apply grel_ok]; exact HR.
Qed.

Lemma eval_cond_sim c q qb : Rst q qb ->
  brel (eval_cond E U K V XA ev_start ev_resume truthy nil_v funcsA recA n c q)
       (eval_cond E U K V XB ev_start ev_resume truthy nil_v funcsB recB n c qb).
Proof.
  intros HR. destruct c as [c|]; cbn [eval_cond]; [|apply grel_ok; exact HR].
  pose proof (eval_sim c q qb HR) as He. cases He. intros q1 qb1 [v|o] HR1.
  - apply grel_ok. apply HR1. discriminate.
  - apply grel_same. intros Hne. apply HR1. congruence.
Qed.

Section Bodies.
Variables (body : list (cstmt E)).
Hypothesis Hbody : wm_list None body.

Lemma body_sim q qb : Rst q qb -> rrel (listA body q) (listB (erase_stmts body) qb).
Proof. intros HR. apply (list_sim body None); assumption. Qed.

Lemma while_sim c m : forall q qb, Rst q qb ->
  rrel (while_loop E U K V XA ev_start ev_resume truthy nil_v funcsA recA n m c body q)
       (while_loop E U K V XB ev_start ev_resume truthy nil_v funcsB recB n m c (erase_stmts body) qb).
Proof.
  induction m as [|m IH]; intros q qb HR; cbn [while_loop]; [apply grel_ok; exact HR|].
  apply vrel_seq; [apply eval_sim; exact HR|]. intros v q1 qb1 HR1.
  destruct (truthy v); [|apply grel_ok; exact HR1].
  apply rrel_loop; [apply body_sim; exact HR1|exact IH].
Qed.

Lemma do_sim c m : forall q qb, Rst q qb ->
  rrel (do_loop E U K V XA ev_start ev_resume truthy nil_v funcsA recA n m c body q)
       (do_loop E U K V XB ev_start ev_resume truthy nil_v funcsB recB n m c (erase_stmts body) qb).
Proof.
  induction m as [|m IH]; intros q qb HR; cbn [do_loop]; [apply grel_ok; exact HR|].
  apply rrel_loop; [apply body_sim; exact HR|]. intros q1 qb1 HR1.
  apply vrel_seq; [apply eval_sim; exact HR1|]. intros v q2 qb2 HR2.
  destruct (truthy v); [apply IH|apply grel_ok]; exact HR2.
Qed.

Lemma for_sim c post m : forall q qb, Rst q qb ->
  rrel (for_loop E U K V XA ev_start ev_resume truthy nil_v funcsA recA n m c post body q)
       (for_loop E U K V XB ev_start ev_resume truthy nil_v funcsB recB n m c post (erase_stmts body) qb).
Proof.
  induction m as [|m IH]; intros q qb HR; cbn [for_loop]; [apply grel_ok; exact HR|].
  pose proof (eval_cond_sim c q qb HR) as Hcond. cases Hcond. intros q1 qb1 [[|]|o] HR1.
  - apply rrel_loop; [apply body_sim; apply HR1; discriminate|]. intros q2 qb2 HR2.
    apply vrel_seq; [apply eval_opt_sim; exact HR2|]. intros _ q3 qb3 HR3. apply IH. exact HR3.
  - apply grel_ok. apply HR1. discriminate.
  - apply grel_same. intros Hne. apply HR1. congruence.
Qed.

Lemma forin_sim h m : forall it q qb, Rst q qb ->
  rrel (forin_loop E U V I XA forin_next recA m h it body q)
       (forin_loop E U V I XB forin_next recB m h it (erase_stmts body) qb).
Proof.
  induction m as [|m IH]; intros it q qb HR; cbn [forin_loop]; [apply grel_ok; exact HR|].
  rewrite <- (proj1 HR).
  destruct (forin_next h it (s_u U XA q)) as [[it' u']|]; [|apply grel_ok; exact HR].
  apply rrel_loop; [apply body_sim; apply Rst_set_u; exact HR|apply IH].
Qed.

End Bodies.

Lemma wm_if c st bs en body els : wm_stmt (SIf c st bs en body els) -> wm_list None body /\ wm_list None els.
Proof.
  intros [[H1 H2] H3]. cbn [tagged_in] in H3. apply Forall_app in H3 as [H3 H4].
  split; split; assumption.
Qed.

Lemma exec_body_sim s q qb : plain s -> wm_stmt s -> Rst q qb ->
  rrel (exec_body E U K V I XA ev_start ev_resume truthy nil_v forin_init forin_next bumpA funcsA recA n s q)
       (exec_body E U K V I XB ev_start ev_resume truthy nil_v forin_init forin_next bumpB funcsB recB n (erase s) qb).
Proof.
  intros Hpl Hwm HR. destruct s; try discriminate Hpl; cbn [erase exec_body].
  - destruct k; cbn [exec_simple]; try (apply grel_ok; exact HR).
    all: apply vrel_seq; [apply eval_sim; exact HR|].
    all: intros v q1 qb1 HR1; apply grel_ok; exact HR1.
  - destruct (wm_if _ _ _ _ _ _ Hwm) as [Hb He].
    apply vrel_seq; [apply eval_sim; exact HR|]. intros v q1 qb1 HR1.
    destruct (truthy v); [apply (list_sim body None)|apply (list_sim els None)]; assumption.
  - apply vrel_seq; [apply eval_opt_sim; exact HR|]. intros _ q1 qb1 HR1.
    apply for_sim; [exact Hwm|exact HR1].
  - rewrite <- (proj1 HR). apply forin_sim; [exact Hwm|exact HR].
  - apply while_sim; [exact Hwm|exact HR].
  - apply do_sim; [exact Hwm|exact HR].
  - apply (list_sim body None); [exact Hwm|exact HR].
Qed.

End Rec.

Theorem exec_sim n : forall s q qb, plain s -> wm_stmt s -> Rst q qb ->
  rrel (execA n s q) (execB n (erase s) qb).
Proof.
  induction n as [|n IH]; intros s q qb Hpl Hwm HR; cbn [exec].
  - apply grel_stop. reflexivity.
  - apply (exec_body_sim n IH); assumption.
Qed.

Theorem exec_list_sim n l q qb : wm_list None l -> Rst q qb ->
  rrel (exec_list E U V XA (execA n) l q) (exec_list E U V XB (execB n) (erase_stmts l) qb).
Proof.
  intros Hwm HR. apply (list_sim n (exec_sim n) l None); assumption.
Qed.

Variable next_record : U -> nrec U V.
Variable print_record : U -> U * option V.
Variable skip_file : U -> U.

Definition lrel (la lb : list (cstmt E)) : Prop := erase_stmts la = lb /\ wm_list None la.
Definition body_prel (ba bb : option (list (cstmt E))) : Prop :=
  match ba, bb with
  | None, None => True
  | Some la, Some lb => lrel la lb
  | _, _ => False
  end.
Definition arel (a b : action E) : Prop := a_pat a = a_pat b /\ body_prel (a_body a) (a_body b).
Record prel (A P : program E) : Prop := mk_prel {
  pr_begin : Forall2 lrel (p_begin A) (p_begin P);
  pr_actions : Forall2 arel (p_actions A) (p_actions P);
  pr_end : Forall2 lrel (p_end A) (p_end P);
  pr_end_empty : end_is_empty (p_end A) = end_is_empty (p_end P) }.

Section Driver.
Variable n : nat.
Notation run_lists_ X bump funcs := (run_lists E U K V I X ev_start ev_resume truthy nil_v forin_init forin_next bump funcs n).

Lemma run_lists_sim la lb : Forall2 lrel la lb -> forall q qb, Rst q qb -> rrel (run_lists_ XA bumpA funcsA la q) (run_lists_ XB bumpB funcsB lb qb).
Proof.
  induction 1 as [|a b ta tb [<- Hw] _ IH]; intros q qb HR; cbn [run_lists]; [apply grel_ok; exact HR|].
  apply rrel_seq; [apply exec_list_sim; assumption|exact IH].
Qed.

Notation eval_bool_ X bump funcs := (eval_bool E U K V I X ev_start ev_resume truthy nil_v forin_init forin_next bump funcs n).

Lemma eval_bool_sim p q qb : Rst q qb -> brel (eval_bool_ XA bumpA funcsA p q) (eval_bool_ XB bumpB funcsB p qb).
Proof.
  apply (eval_cond_sim n (exec_sim n) (Some p)).
Qed.

Notation match_action_ X bump funcs := (match_action E U K V I X ev_start ev_resume truthy nil_v forin_init forin_next bump funcs n).

Lemma match_action_sim a b flag q qb : a_pat a = a_pat b -> Rst q qb ->
  snd (match_action_ XA bumpA funcsA a flag q) = snd (match_action_ XB bumpB funcsB b flag qb)
  /\ brel (fst (match_action_ XA bumpA funcsA a flag q)) (fst (match_action_ XB bumpB funcsB b flag qb)).
Proof.
  intros Hpat HR. unfold match_action. rewrite <- Hpat.
  destruct (a_pat a) as [|p1 [|p2 rest]]; cbn [fst snd].
  - split; [reflexivity|]. apply grel_ok. exact HR.
  - split; [reflexivity|]. apply eval_bool_sim. exact HR.
  - assert (H1 : brel (if flag then (q, inl true) else eval_bool_ XA bumpA funcsA p1 q) (if flag then (qb, inl true) else eval_bool_ XB bumpB funcsB p1 qb)).
    { destruct flag; [apply grel_ok|apply eval_bool_sim]; exact HR. }
    cases H1. intros q1 qb1 [[|]|o] HR1.
    + pose proof (eval_bool_sim p2 q1 qb1 (HR1 ltac:(discriminate))) as H2. cases H2. intros q2 qb2 [stop|o] HR2.
      * split; [reflexivity|]. apply grel_ok. apply HR2. discriminate.
      * split; [reflexivity|]. apply grel_same. exact HR2.
    + split; [reflexivity|]. apply grel_same. exact HR1.
    + split; [reflexivity|]. apply grel_same. exact HR1.
Qed.

Lemma print_q_sim q qb : Rst q qb -> rrel (print_q U V XA print_record q) (print_q U V XB print_record qb).
Proof.
  intros HR. unfold print_q. rewrite <- (proj1 HR).
  destruct (print_record (s_u U XA q)) as [u' [v|]]; apply grel_ok; apply Rst_set_u; exact HR.
Qed.

Notation run_actions_ X bump funcs := (run_actions E U K V I X ev_start ev_resume truthy nil_v forin_init forin_next bump funcs print_record skip_file n).

(* results of [run_actions]: the in-range flags travel with the state *)
Definition arrel : stA * list bool * out -> stB * list bool * out -> Prop :=
  grel (fun s sb => snd s = snd sb /\ Rst (fst s) (fst sb)) (fun o => o = OFuel V).

Lemma arrel_cons fl r rb : arrel r rb ->
  arrel (let '(q, rest, o) := r in (q, fl :: rest, o)) (let '(q, rest, o) := rb in (q, fl :: rest, o)).
Proof.
  revert r rb. apply grel_case. intros [q rest] [qb restb] o HR.
  apply grel_same. intros Hne. destruct (HR Hne) as [Hfl Hq]. cbn [fst snd] in Hfl, Hq. subst restb.
  split; [reflexivity|exact Hq].
Qed.

Lemma action_body_sim ba bb q qb : body_prel ba bb -> Rst q qb ->
  rrel match ba with
       | Some body => if action_prints ba then print_q U V XA print_record q else exec_list E U V XA (execA n) body q
       | None => print_q U V XA print_record q
       end
       match bb with
       | Some body => if action_prints bb then print_q U V XB print_record qb else exec_list E U V XB (execB n) body qb
       | None => print_q U V XB print_record qb
       end.
Proof.
  intros Hb HR. destruct ba as [la|], bb as [lb|]; try contradiction; cbn [action_prints].
  - destruct Hb as [<- Hw]. apply exec_list_sim; assumption.
  - apply print_q_sim. exact HR.
Qed.

Lemma run_actions_sim la lb : Forall2 arel la lb -> forall inrs q qb, Rst q qb ->
  arrel (run_actions_ XA bumpA funcsA la inrs q) (run_actions_ XB bumpB funcsB lb inrs qb).
Proof.
  induction 1 as [|a b ta tb [Hpat Hbody] _ IH]; intros inrs q qb HR; cbn [run_actions].
  - apply grel_ok. split; [reflexivity|exact HR].
  - set (flag := match inrs with b0 :: _ => b0 | [] => false end).
    destruct (match_action_sim a b flag q qb Hpat HR) as [Hfl Hm]. revert Hfl Hm.
    generalize (match_action_ XA bumpA funcsA a flag q) (match_action_ XB bumpB funcsB b flag qb). intros [ra fl] [rb flb] Hfl Hm.
    cbn [fst snd] in Hfl, Hm. subst flb. cases Hm. intros q1 qb1 [[|]|o] HR1.
    + (* the pattern matched: run the body *)
      pose proof (action_body_sim _ _ q1 qb1 Hbody (HR1 ltac:(discriminate))) as Hr. cases Hr. intros q2 qb2 o HR2.
      destruct o as [| | |v|[| | |e]| |];
        try (apply grel_same; intros Hne; split; [reflexivity|]; apply HR2; exact Hne).
      * apply arrel_cons. apply IH. apply HR2. discriminate.
      * apply grel_ok. split; [reflexivity|]. apply HR2. discriminate.
      * specialize (HR2 ltac:(discriminate)). apply grel_ok. split; [reflexivity|].
        rewrite <- (proj1 HR2). apply Rst_set_u. exact HR2.
    + apply arrel_cons. apply IH. apply HR1. discriminate.
    + apply grel_same. intros Hne. split; [reflexivity|]. apply HR1. congruence.
Qed.

Notation run_records_ X bump funcs := (run_records E U K V I X ev_start ev_resume truthy nil_v forin_init forin_next bump funcs next_record print_record skip_file n).

Lemma run_records_sim la lb : Forall2 arel la lb -> forall m inrs q qb, Rst q qb ->
  rrel (run_records_ XA bumpA funcsA m la inrs q) (run_records_ XB bumpB funcsB m lb inrs qb).
Proof.
  intros Hacts. induction m as [|m IH]; intros inrs q qb HR; cbn [run_records]; [apply grel_ok; exact HR|].
  rewrite <- (proj1 HR).
  destruct (next_record (s_u U XA q)) as [u|u|u v]; try (apply grel_ok; apply Rst_set_u; exact HR).
  pose proof (run_actions_sim la lb Hacts inrs _ _ (Rst_set_u q qb u HR)) as Hr. cases Hr.
  intros [q1 fls] [qb1 flsb] o HR1.
  destruct o; try (apply grel_same; intros Hne; apply HR1; exact Hne).
  destruct HR1 as [Hfl HR1]; [discriminate|]. cbn [fst snd] in Hfl, HR1. subst flsb. apply IH. exact HR1.
Qed.

Notation run_end_ X bump funcs := (run_end E U K V I X ev_start ev_resume truthy nil_v forin_init forin_next bump funcs n).
Notation run_main_ X bump funcs := (run_main E U K V I X ev_start ev_resume truthy nil_v forin_init forin_next bump funcs next_record print_record skip_file n).
Notation after_begin_ X bump funcs := (after_begin E U K V I X ev_start ev_resume truthy nil_v forin_init forin_next bump funcs next_record print_record skip_file n).

Lemma run_end_sim A P q qb : prel A P -> Rst q qb -> rrel (run_end_ XA bumpA funcsA A q) (run_end_ XB bumpB funcsB P qb).
Proof.
  intros HP HR. unfold run_end. apply rrel_exit. apply run_lists_sim; [exact (pr_end _ _ HP)|exact HR].
Qed.

Lemma run_main_sim A P q qb : prel A P -> Rst q qb -> rrel (run_main_ XA bumpA funcsA A q) (run_main_ XB bumpB funcsB P qb).
Proof.
  intros HP HR. unfold run_main.
  assert (Hlen : map (fun _ : action E => false) (p_actions A) = map (fun _ : action E => false) (p_actions P)).
  { pose proof (pr_actions _ _ HP) as Ha. induction Ha; cbn [map]; congruence. }
  rewrite Hlen. apply rrel_exit. apply run_records_sim; [exact (pr_actions _ _ HP)|exact HR].
Qed.

Lemma after_begin_sim A P q qb exited : prel A P -> Rst q qb ->
  rrel (after_begin_ XA bumpA funcsA A q exited) (after_begin_ XB bumpB funcsB P qb exited).
Proof.
  intros HP HR. unfold after_begin. rewrite <- (pr_end_empty _ _ HP).
  destruct (pr_actions _ _ HP) as [|a b ta tb _ _]; [destruct (end_is_empty (p_end A)); [apply grel_ok; exact HR|]|].
  (* in both remaining cases: the main loop unless BEGIN called exit, then the END blocks *)
  all: destruct exited; [apply run_end_sim; assumption|].
  all: apply rrel_seq; [apply run_main_sim; assumption|].
  all: intros q2 qb2 HR2; apply run_end_sim; assumption.
Qed.

Theorem exec_prog_sim A P q qb : prel A P -> Rst q qb ->
  rrel (exec_prog E U K V I XA ev_start ev_resume truthy nil_v forin_init forin_next bumpA funcsA next_record print_record skip_file n A q)
       (exec_prog E U K V I XB ev_start ev_resume truthy nil_v forin_init forin_next bumpB funcsB next_record print_record skip_file n P qb).
Proof.
  intros HP HR. unfold exec_prog.
  pose proof (run_lists_sim _ _ (pr_begin _ _ HP) q qb HR) as Hb. cases Hb. intros q1 qb1 o HR1.
  destruct o as [| | |v|[| | |e]| |]; try (apply grel_same; exact HR1).
  all: apply after_begin_sim; [exact HP|]; apply HR1; discriminate.
Qed.

End Driver.
End Sim.
