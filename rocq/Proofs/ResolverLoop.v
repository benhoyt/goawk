(* C16: the pass loop as it is now (limit = twice the number of variables
   recorded so far).  For every program whatsoever: the limit is never reached
   and the model's fuel never runs out, because every update either adds a
   table entry or makes an unknown entry known; and the resolver agrees with
   the constant-limit resolver for the constant [pass_fuel P], so everything
   proved about [resolve_cut] for all constants carries over. *)
From Verif Require Import Lib.Base Model.Resolver Proofs.Resolver Proofs.ResolverSound Proofs.ResolverExact
  Proofs.ResolverNoPanic Proofs.ResolverTopo Proofs.ResolverBound.
Open Scope Z_scope.

Section Loop.
Variable P : program.

(* the table invariant that needs no assumption about the program *)
Definition tb (s : state) : Prop := tbK (table_keys P) s.

Lemma gk_in_table_keys v : In v (all_names P) -> In (gk v) (table_keys P).
Proof.
  intros H. unfold table_keys. apply in_or_app. right.
  apply in_map_iff. exists v. split; [reflexivity | exact H].
Qed.

(* a run keeps the invariant, goes forward, never reports the limit itself and
   never runs out of fuel *)
Notation tabled := (good tb (fun s s' => st_updates s <= st_updates s') (fun e => e <> ETooManyIter) True False).

Lemma record_var_tabled s cur v typ : In v (all_names P) -> tb s -> tabled s (record_var P s cur v typ).
Proof.
  intros Hv Hb. pose proof (record_var_not_toomany P s cur v typ) as Ht.
  pose proof (record_var_no_panic P s cur v typ) as [_ Hf].
  destruct (record_var P s cur v typ) as [s'|e| |] eqn:E; cbn [good]; trivial; [|congruence|congruence].
  apply (record_var_tbK P _ s cur v typ s' Hb); [intros _; apply gk_in_table_keys; exact Hv | exact E].
Qed.

Lemma visit_step_tabled cur st s :
  incl (step_names st) (all_names P) -> tb s -> tabled s (visit_step P cur s st).
Proof.
  intros Hin Hb. destruct (visit_step_out P cur s st) as [|e He|f i _ _|c v t c0 _ _ Hv]; cbn [good]; trivial.
  - split; [exact Hb | lia].
  - apply record_var_tabled; [|exact Hb]. destruct Hv as [Hv|Hv]; [apply Hin; exact Hv|].
    unfold all_names. apply in_or_app. right. apply in_or_app. left. exact Hv.
Qed.

Lemma steps_tabled cur l s :
  incl (flat_map step_names l) (all_names P) -> tb s -> tabled s (run_steps P cur l s).
Proof.
  intros Hl. apply (run_steps_good P _ _ _ _ _ forward_refl forward_trans
                      (fun _ st => incl (step_names st) (all_names P)) visit_step_tabled).
  apply Forall_forall. intros st Hst v Hv. apply Hl. apply in_flat_map. exists st. split; assumption.
Qed.

Lemma body_tabled fd s :
  In fd (p_funcs P) -> tb s -> tabled s (run_steps P (f_name fd) (flat_events (f_body fd)) s).
Proof.
  intros Hfd. apply steps_tabled. intros v Hv.
  unfold all_names. apply in_or_app. right. apply in_or_app. right. apply in_or_app. left.
  apply in_flat_map. exists fd. split; assumption.
Qed.

Lemma main_tabled s : tb s -> tabled s (run_steps P [] (flat_events (p_main P)) s).
Proof.
  apply steps_tabled. intros v Hv.
  unfold all_names. apply in_or_app. right. apply in_or_app. right. apply in_or_app. right. exact Hv.
Qed.

Lemma walk_ordered_tabled order s : tb s -> tabled s (walk_ordered P order s).
Proof. apply (walk_ordered_good P _ _ _ _ _ forward_refl forward_trans body_tabled main_tabled). Qed.

(* A pass is made only when the counter is beyond [u], hence beyond [i], and no
   pass lowers it; the counter is at most twice the number of entries, so the
   limit [2 * num_vars <= i] is not reached; the entries are among
   [table_keys P], so [i] stays below the fuel. *)
Lemma pass_loop_dyn_tabled order fuel : forall i s u,
  tb s -> i <= u -> u <= st_updates s -> 2 * zlen (table_keys P) <= Z.of_nat fuel + i ->
  tabled s (pass_loop_dyn P order fuel i s u).
Proof.
  induction fuel as [|fuel IH]; intros i s u Hb Hi Hu Hf.
  all: rewrite pass_loop_dyn_eq.
  all: destruct (Z.eqb_spec (st_updates s) u) as [|E]; [apply (good_ok _ _ _ _ _ forward_refl); exact Hb|].
  all: apply (good_bind _ _ _ _ _ forward_trans); [apply walk_ordered_tabled; exact Hb|].
  all: intros s1 Hb1 Hm.
  all: destruct (tbK_len _ _ s1 Hb1 (incl_refl _)) as [L1 L2].
  all: destruct (Z.leb_spec (2 * num_vars s1) i); [exfalso; lia|].
  - exfalso. cbn [Z.of_nat] in Hf. lia.
  - apply IH; [exact Hb1 | lia | exact Hm | lia].
Qed.

(* as long as neither limit is reached the two loops are the same *)
Lemma pass_loop_dyn_const order fuel : forall i s u,
  pass_loop_dyn P order fuel i s u <> RErr ETooManyIter -> pass_loop_dyn P order fuel i s u <> RFuel ->
  pass_loop P order fuel s u = pass_loop_dyn P order fuel i s u.
Proof.
  induction fuel as [|fuel IH]; intros i s u; rewrite pass_loop_dyn_eq, pass_loop_eq.
  all: destruct (st_updates s =? u); [reflexivity|].
  all: destruct (walk_ordered P order s) as [s1| | |]; cbn [rbind2]; try reflexivity.
  all: destruct (2 * num_vars s1 <=? i); [congruence|].
  - congruence.
  - apply IH.
Qed.

Lemma record_builtin_tabled v s :
  In v [n_ARGV; n_ENVIRON; n_FIELDS] -> tb s -> tabled s (record_var P s [] v TArray).
Proof. intros Hv. apply record_var_tabled. unfold all_names. apply in_or_app. left. exact Hv. Qed.

(* THE LIMIT IS UNREACHABLE, for every program and every processing order *)
Theorem resolve_order_impl_ends order :
  resolve_order_impl order P <> RErr ETooManyIter /\ resolve_order_impl order P <> RFuel /\
  resolve_order_impl order P = resolve_order (pass_fuel P) order P.
Proof.
  rewrite resolve_order_impl_eq, resolve_order_eq.
  assert (B0 : tb (start_state P)) by (apply tbK_start; intros k Hk; apply in_or_app; left; exact Hk).
  assert (G : tabled (start_state P) (passes P order (pass_loop_dyn P order (pass_fuel P) 0))).
  { apply (passes_good P _ _ _ _ _ forward_refl forward_trans body_tabled main_tabled B0 record_builtin_tabled).
    intros s3 s4 _ M3 B4 M4. apply pass_loop_dyn_tabled; [exact B4 | exact M3 | exact M4|].
    unfold pass_fuel, zlen. lia. }
  rewrite (passes_same P order (pass_loop_dyn P order (pass_fuel P) 0) (pass_loop P order (pass_fuel P))).
  - unfold finish. destruct (first_dup [] (fnames P)); [repeat split; discriminate|].
    destruct (passes P order (pass_loop_dyn P order (pass_fuel P) 0)) as [s5|e| |]; cbn [rbind2 good] in *;
      try contradiction; repeat split; congruence.
  - intros s u. apply pass_loop_dyn_const.
  - intros E. rewrite E in G. apply G. reflexivity.
  - intros E. rewrite E in G. exact G.
Qed.

End Loop.

(* the resolver is the constant-limit resolver for the constant [pass_fuel P] *)
Theorem resolve_is_cut pi P : resolve pi P = resolve_cut (pass_fuel P) pi P.
Proof.
  unfold resolve, resolve_cut. destruct (first_dup [] (fnames P)); [reflexivity|].
  destruct (ordered_funcs pi P) as [order|]; [|reflexivity]. apply resolve_order_impl_ends.
Qed.

Theorem resolve_never_gives_up pi P : resolve pi P <> RErr ETooManyIter.
Proof.
  unfold resolve. destruct (first_dup [] (fnames P)); [discriminate|].
  destruct (ordered_funcs pi P) as [order|]; [apply resolve_order_impl_ends | discriminate].
Qed.

Theorem resolve_no_panic pi P : resolve pi P <> RPanic.
Proof. rewrite resolve_is_cut. apply resolve_cut_no_panic. Qed.

Theorem resolve_no_fuel pi P : perm_oracle pi -> resolve pi P <> RFuel.
Proof. intros Hpi. rewrite resolve_is_cut. apply resolve_cut_no_fuel. exact Hpi. Qed.
