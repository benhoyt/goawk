(* C13 proofs: files.  At every point of every history the contents
   expected from the log equal what is in the file plus what the one stream
   feeding it still buffers; after closeAll nothing is buffered. *)
From Verif Require Import Lib.Base Model.Streams Proofs.StreamsBase Proofs.StreamsSpec.

Lemma tgt_is_true o t : tgt_is o t = true <-> o = Some t.
Proof.
  unfold tgt_is. destruct o as [x|]; split; intros H; try discriminate.
  - apply Z.eqb_eq in H. subst; auto.
  - injection H as ->. apply Z.eqb_refl.
Qed.
Lemma tgt_is_false o t : tgt_is o t = false <-> o <> Some t.
Proof.
  split; intros H.
  - intros H1. apply tgt_is_true in H1. congruence.
  - destruct (tgt_is o t) eqn:E; auto. apply tgt_is_true in E. contradiction.
Qed.

(* nothing a file theorem can see has changed *)
Definition same_files (E : env) (s s' : state) : Prop :=
  st_fs s' = st_fs s /\ st_outs s' = st_outs s /\ st_ins s' = st_ins s /\
  (forall fs0 t, expected_file E fs0 (st_log s') t = expected_file E fs0 (st_log s) t).

Lemma sf_refl E s : same_files E s s.
Proof. unfold same_files. auto. Qed.
Lemma sf_trans E s1 s2 s3 : same_files E s1 s2 -> same_files E s2 s3 -> same_files E s1 s3.
Proof.
  intros (A1 & A2 & A3 & A4) (B1 & B2 & B3 & B4). unfold same_files.
  split; [congruence|split; [congruence|split; [congruence|]]]. intros. rewrite B4. auto.
Qed.
Lemma sf_fields E s s' : st_fs s' = st_fs s -> st_outs s' = st_outs s -> st_ins s' = st_ins s -> st_log s' = st_log s ->
  same_files E s s'.
Proof. intros H1 H2 H3 H4. unfold same_files. rewrite H4. auto. Qed.

(* ... nor has it when an event of standard output is logged *)
Lemma sf_stdout_event E s s' e : same_tables s s' -> st_log s' = e :: st_log s ->
  (match e with EvWrite WStdout _ | EvChildOut _ => True | _ => False end) -> same_files E s s'.
Proof.
  intros (A & B & C) L He. unfold same_files. rewrite L. repeat split; auto. intros fs0 t. cbn [expected_file].
  destruct e as [|[]| | | |]; try contradiction; reflexivity.
Qed.

Lemma sf_flush_stdout E s : same_files E s (fst (flush_stdout E s)).
Proof. destruct (flush_stdout_frame E s) as ((A & B & C) & L). apply sf_fields; auto. Qed.

Lemma sf_write_stdout E s ps : same_files E s (fst (write_stdout E s ps)).
Proof. destruct (write_stdout_frame E s ps) as (T & L). exact (sf_stdout_event E _ _ _ T L I). Qed.

Lemma sf_write_stdout_rec E s rec : same_files E s (fst (write_stdout_rec E s rec)).
Proof. destruct (write_stdout_rec_frame E s rec) as (T & L). exact (sf_stdout_event E _ _ _ T L I). Qed.

Lemma sf_child_out E s cg data : same_files E s (fst (child_out E s cg data)).
Proof.
  destruct (child_out_frame E s cg data) as (T & _ & L). destruct data; [|exact (sf_stdout_event E _ _ _ T L I)].
  destruct T as (A & B & C). apply sf_fields; auto.
Qed.

Lemma sf_if_print_errorf E (b : bool) s : same_files E s (if b then print_errorf E s else s).
Proof. destruct b; [apply sf_flush_stdout|apply sf_refl]. Qed.

Lemma sf_if_unmod E (b : bool) s : same_files E s (if b then set_unmod s else s).
Proof. destruct b; [apply sf_fields; auto|apply sf_refl]. Qed.

Section Files.
Variable E : env.
Variables F P Q : name -> Prop.
Hypothesis AF : alias_free E F P Q.
Variable fs0 : list (name * bytes).

Definition finv (s : state) : Prop := outs_ok F P s /\ file_inv E fs0 s.

Lemma finv_same s s' : same_files E s s' -> finv s -> finv s'.
Proof.
  intros (H1 & H2 & H3 & H4) ((Hk & Hs) & Hf). unfold finv, outs_ok, file_inv. rewrite H1, H2. repeat split; auto.
  intros t. rewrite H4. auto.
Qed.

Definition kind_ok (n : name) (o : ostream) : Prop :=
  match os_kind o with KFile => F n | KCmd => P n end.

Lemma stream_ok_kind fs n o : stream_ok F P fs n o -> kind_ok n o.
Proof. unfold stream_ok, kind_ok. destruct (os_kind o); tauto. Qed.

Lemma cmd_target_sink c t : cmd_target E c = Some t -> c_sink (e_spec E c) = Some t.
Proof. unfold cmd_target. destruct (c_drain (e_spec E c)); [auto|discriminate]. Qed.

(* alias_free: the stream that feeds a file of the program is the file's own,
   the one that feeds the sink of a command is that command's *)
Lemma feeder m o t : kind_ok m o -> stream_target E m o = Some t ->
  (F t -> m = t) /\ (forall c, Q c -> c_sink (e_spec E c) = Some t -> m = c).
Proof.
  unfold kind_ok, stream_target. destruct (os_kind o); intros K T.
  - injection T as <-. split; [auto|]. intros c Hq Hc. destruct (af_file _ _ _ _ AF c m Hq Hc K).
  - apply cmd_target_sink in T. pose proof (af_PQ _ _ _ _ AF m K) as Hq. split.
    + intros Hf. destruct (af_file _ _ _ _ AF m t Hq T Hf).
    + intros c Hc Hs. destruct (Z.eq_dec m c) as [|Hne]; auto. destruct (af_pipe _ _ _ _ AF m c t K Hc Hne T Hs).
Qed.

Lemma target_unique n1 o1 n2 o2 t : kind_ok n1 o1 -> kind_ok n2 o2 ->
  stream_target E n1 o1 = Some t -> stream_target E n2 o2 = Some t -> n1 = n2.
Proof.
  intros K1 K2 T1 T2. destruct (feeder n1 o1 t K1 T1) as (A & B).
  unfold kind_ok, stream_target in K2, T2. destruct (os_kind o2).
  - injection T2 as <-. auto.
  - apply B; [apply (af_PQ _ _ _ _ AF), K2|apply cmd_target_sink, T2].
Qed.

Lemma pend_nil outs t : (forall m o, In (m, o) outs -> stream_target E m o = Some t -> os_buf o = []) -> pend E outs t = [].
Proof.
  induction outs as [|[m o] l IH]; cbn [pend]; auto. intros H.
  destruct (tgt_is _ t) eqn:Et.
  - apply tgt_is_true in Et. apply (H m o); [left; reflexivity|exact Et].
  - apply IH. intros m' o' Hin. apply H. right; exact Hin.
Qed.

Lemma pend_none outs t : (forall m o, In (m, o) outs -> stream_target E m o <> Some t) -> pend E outs t = [].
Proof. intros H. apply pend_nil. intros m o Hin Ht. destruct (H m o Hin Ht). Qed.

(* what is pending for t is the buffer of the stream that feeds t *)
Lemma pend_split outs n o t : keys_nodup outs -> (forall m o2, In (m, o2) outs -> kind_ok m o2) -> In (n, o) outs ->
  pend E outs t = if tgt_is (stream_target E n o) t then os_buf o else pend E (aremove n outs) t.
Proof.
  unfold keys_nodup. induction outs as [|[m o2] l IH]; cbn [pend aremove map fst]; [intros _ _ []|].
  intros Hnd Hk Hin. inversion Hnd as [|? ? Hnotin Hnd']; subst. destruct Hin as [Hin|Hin].
  - injection Hin as -> ->. rewrite Z.eqb_refl, aremove_absent; [reflexivity|].
    destruct (alookup n l) eqn:El; auto. destruct Hnotin. apply In_keys_lookup. congruence.
  - assert (Hne : m <> n) by (intros ->; apply Hnotin; change n with (fst (n, o)); apply in_map; exact Hin).
    rewrite (proj2 (Z.eqb_neq m n) Hne). cbn [pend]. rewrite (IH Hnd' (fun a b H => Hk a b (or_intror H)) Hin).
    destruct (tgt_is (stream_target E m o2) t) eqn:E1; auto. destruct (tgt_is (stream_target E n o) t) eqn:E2; auto.
    apply tgt_is_true in E1, E2. destruct Hne. apply (target_unique m o2 n o t); auto; apply Hk; [left|right]; auto.
Qed.

Lemma pend_aremove_target outs n o t : keys_nodup outs ->
  (forall m o2, In (m, o2) outs -> kind_ok m o2) ->
  In (n, o) outs -> stream_target E n o = Some t -> pend E (aremove n outs) t = [].
Proof.
  intros Hnd Hk Hin Ht. apply pend_none. intros m o2 Hin2 Ht2.
  apply In_aremove in Hin2. destruct Hin2 as (Hin2 & Hne). apply Hne.
  eapply target_unique; eauto.
Qed.

(* no open stream feeds t when t is the sink of a command that has no stream *)
Lemma no_stream_for_sink s c t : outs_ok F P s -> Q c -> alookup c (st_outs s) = None ->
  c_sink (e_spec E c) = Some t -> forall m o, In (m, o) (st_outs s) -> stream_target E m o <> Some t.
Proof.
  intros (Hnd & Hs) Hq Hl Hc m o Hin Ht. destruct (feeder m o t (stream_ok_kind _ _ _ (Hs _ _ Hin)) Ht) as (_ & B).
  rewrite (B c Hq Hc) in Hin. apply In_alookup in Hin; auto. congruence.
Qed.

(* no open stream feeds file n when n has no stream *)
Lemma no_stream_for_file s n : outs_ok F P s -> F n -> alookup n (st_outs s) = None ->
  forall m o, In (m, o) (st_outs s) -> stream_target E m o <> Some n.
Proof.
  intros (Hnd & Hs) Hf Hl m o Hin Ht. destruct (feeder m o n (stream_ok_kind _ _ _ (Hs _ _ Hin)) Ht) as (A & _).
  rewrite (A Hf) in Hin. apply In_alookup in Hin; auto. congruence.
Qed.

(* a stream stays in order when the file system changes elsewhere *)
Lemma stream_ok_fs fs fs' n o : stream_ok F P fs n o -> (os_kind o = KFile -> fs_get fs' n = fs_get fs n) -> stream_ok F P fs' n o.
Proof. unfold stream_ok. destruct (os_kind o); auto. intros (Hf & Hoff) H. rewrite H; auto. Qed.

(* in particular the other streams, when what stream n feeds grows by f *)
Lemma others_ok s n o fs' f m o2 : outs_ok F P s -> In (n, o) (st_outs s) ->
  (forall t, fs_get fs' t = fs_get (st_fs s) t ++ (if tgt_is (stream_target E n o) t then f else [])) ->
  In (m, o2) (st_outs s) -> m <> n -> stream_ok F P fs' m o2.
Proof.
  intros (Hnd & Hs) Hin Hfs Hin2 Hne. apply (stream_ok_fs (st_fs s)); [auto|]. intros Hk. rewrite Hfs.
  assert (Hne2 : tgt_is (stream_target E n o) m = false).
  { apply tgt_is_false. intros Ht. apply Hne. symmetry. apply (target_unique n o m o2 m); eauto using stream_ok_kind.
    unfold stream_target. rewrite Hk. auto. }
  rewrite Hne2. apply app_nil_r.
Qed.

Lemma deliver_files s n o data s' o' :
  deliver E s n o data = (s', o') -> stream_ok F P (st_fs s) n o ->
  st_outs s' = st_outs s /\ st_ins s' = st_ins s /\
  (forall t, fs_get (st_fs s') t = fs_get (st_fs s) t ++ (if tgt_is (stream_target E n o) t then data else [])) /\
  (forall t, expected_file E fs0 (st_log s') t = expected_file E fs0 (st_log s) t) /\
  os_kind o' = os_kind o /\ os_buf o' = os_buf o /\ stream_ok F P (st_fs s') n o'.
Proof.
  unfold deliver. destruct data as [|b d].
  - intros H; injection H as <- <-. intros Hok. repeat split; auto. intros t. destruct (tgt_is _ _); rewrite app_nil_r; auto.
  - set (data := b :: d). unfold stream_ok, stream_target. destruct (os_kind o) eqn:Ek.
    + destruct (os_off o) as [off|] eqn:Eo; intros H; injection H as <- <-; intros (Hf & Hoff); cbn [st_outs st_ins st_fs st_log set_fs os_kind os_buf os_off].
      * specialize (Hoff off eq_refl). subst off. repeat split; auto.
        -- intros t. rewrite fs_get_aset. cbn [tgt_is]. destruct (n =? t) eqn:Ent.
           ++ apply Z.eqb_eq in Ent. subst t. apply write_at_end.
           ++ rewrite app_nil_r; auto.
        -- intros off' H. injection H as <-. rewrite fs_get_aset, Z.eqb_refl, write_at_end, app_length. auto.
      * rewrite Ek. repeat split; auto.
        -- intros t. rewrite fs_get_append. cbn [tgt_is]. destruct (n =? t) eqn:Ent.
           ++ apply Z.eqb_eq in Ent. subst t. auto.
           ++ rewrite app_nil_r; auto.
        -- rewrite Eo. intros off' H. discriminate.
    + intros H Hp. unfold cmd_target. destruct (c_drain (e_spec E n)) eqn:Edr; cbv beta iota.
      2:{ injection H as <- <-. cbn [os_kind os_buf tgt_is].
          assert (Hs : forall b : bool, st_outs (if b then s else set_unmod s) = st_outs s /\ st_ins (if b then s else set_unmod s) = st_ins s /\
                        st_fs (if b then s else set_unmod s) = st_fs s /\ st_log (if b then s else set_unmod s) = st_log s) by (intros []; auto).
          destruct (Hs (is_synced E s n)) as (S1 & S2 & S3 & S4). rewrite S1, S2, S3, S4.
          split; [auto|split; [auto|split; [intros t; rewrite app_nil_r; auto|split; [auto|split; [auto|split; auto]]]]]. }
      set (s1 := match c_sink (e_spec E n) with Some t => set_fs s (fs_append (st_fs s) t data) | None => s end) in *.
      assert (H1 : st_outs s1 = st_outs s /\ st_ins s1 = st_ins s /\ st_log s1 = st_log s /\
                   forall t, fs_get (st_fs s1) t = fs_get (st_fs s) t ++ (if tgt_is (c_sink (e_spec E n)) t then data else [])).
      { subst s1. destruct (c_sink (e_spec E n)) as [t0|]; cbn [st_outs st_ins st_log st_fs set_fs tgt_is].
        - repeat split; auto. intros t. rewrite fs_get_append. destruct (t0 =? t) eqn:Et; [apply Z.eqb_eq in Et; subst; auto|rewrite app_nil_r; auto].
        - repeat split; auto. intros t. rewrite app_nil_r; auto. }
      destruct H1 as (A1 & A2 & A3 & A4).
      destruct (c_echo (e_spec E n)).
      * pose proof (sf_child_out E s1 (os_cgfail o) data) as Hsf.
        destruct (child_out E s1 (os_cgfail o) data) as [s2 ok]. cbn [fst] in Hsf. destruct Hsf as (B1 & B2 & B3 & B4).
        injection H as <- <-. cbn [os_kind os_buf]. rewrite B1, B2, B3. repeat split; auto; try congruence; intros t; rewrite B4, A3; auto.
      * injection H as <- <-. rewrite Ek. repeat split; auto. intros t. rewrite A3. auto.
Qed.

(* the state after some bytes [x] were written to stream n and [f] left its buffer *)
Lemma finv_update s n o s' o' x f :
  finv s -> alookup n (st_outs s) = Some o ->
  st_outs s' = st_outs s ->
  (forall t, fs_get (st_fs s') t = fs_get (st_fs s) t ++ (if tgt_is (stream_target E n o) t then f else [])) ->
  (forall t, expected_file E fs0 (st_log s') t =
             expected_file E fs0 (st_log s) t ++ (if tgt_is (stream_target E n o) t then x else [])) ->
  os_kind o' = os_kind o -> os_buf o ++ x = f ++ os_buf o' -> stream_ok F P (st_fs s') n o' ->
  finv (set_outs s' (aset n o' (st_outs s'))).
Proof.
  intros ((Hnd & Hs) & Hf) Hl Ho Hfs Hx Hk Hb Hok.
  pose proof (alookup_In _ _ _ Hl) as Hin.
  assert (Hkall : forall m o2, In (m, o2) (st_outs s) -> kind_ok m o2) by (intros; eapply stream_ok_kind; eauto).
  assert (Hto : stream_target E n o' = stream_target E n o) by (unfold stream_target; rewrite Hk; auto).
  split.
  - split; cbn [st_outs st_fs set_outs]; rewrite Ho.
    + apply keys_nodup_aset; auto.
    + intros m o2 Hin2. apply In_aset in Hin2. destruct Hin2 as [[-> ->]|[Hin2 Hne]]; auto.
      apply (others_ok s n o _ f m o2); auto. split; auto.
  - intros t. cbn [st_outs st_fs st_log set_outs]. rewrite Ho. unfold aset. cbn [pend]. rewrite Hto.
    rewrite Hx, Hfs, Hf, (pend_split _ n o t) by auto. destruct (tgt_is (stream_target E n o) t).
    + rewrite <- !app_assoc. f_equal. auto.
    + rewrite !app_nil_r. reflexivity.
Qed.

(* the state after stream n was taken out of the table and its buffer [f] delivered *)
Lemma finv_remove s n o s' :
  finv s -> alookup n (st_outs s) = Some o ->
  st_outs s' = aremove n (st_outs s) ->
  (forall t, fs_get (st_fs s') t = fs_get (st_fs s) t ++ (if tgt_is (stream_target E n o) t then os_buf o else [])) ->
  (forall t, expected_file E fs0 (st_log s') t = expected_file E fs0 (st_log s) t) ->
  finv s'.
Proof.
  intros ((Hnd & Hs) & Hf) Hl Ho Hfs Hx.
  pose proof (alookup_In _ _ _ Hl) as Hin.
  assert (Hkall : forall m o2, In (m, o2) (st_outs s) -> kind_ok m o2) by (intros; eapply stream_ok_kind; eauto).
  split.
  - split; rewrite Ho.
    + apply keys_nodup_aremove; auto.
    + intros m o2 Hin2. apply In_aremove in Hin2. destruct Hin2 as [Hin2 Hne].
      apply (others_ok s n o _ (os_buf o) m o2); auto. split; auto.
  - intros t. rewrite Ho, Hx, Hfs, Hf, (pend_split _ n o t) by auto. destruct (tgt_is (stream_target E n o) t) eqn:Et.
    + apply tgt_is_true in Et. rewrite (pend_aremove_target _ n o t); auto. rewrite app_nil_r. auto.
    + rewrite app_nil_r. reflexivity.
Qed.

Lemma finv_lookup_ok s n o : finv s -> alookup n (st_outs s) = Some o -> stream_ok F P (st_fs s) n o.
Proof. intros ((_ & Hs) & _) Hl. apply Hs. apply alookup_In; auto. Qed.

Lemma flush_ostream_files s n o s' o' :
  flush_ostream E s n o = (s', o') -> stream_ok F P (st_fs s) n o ->
  st_outs s' = st_outs s /\ st_ins s' = st_ins s /\
  (forall t, fs_get (st_fs s') t = fs_get (st_fs s) t ++ (if tgt_is (stream_target E n o) t then os_buf o else [])) /\
  (forall t, expected_file E fs0 (st_log s') t = expected_file E fs0 (st_log s) t) /\
  os_kind o' = os_kind o /\ os_buf o' = [] /\ stream_ok F P (st_fs s') n o'.
Proof.
  unfold flush_ostream. destruct (deliver E s n o (os_buf o)) as [s1 o1] eqn:Ed. intros H Hok. injection H as <- <-.
  destruct (deliver_files _ _ _ _ _ _ Ed Hok) as (A1 & A2 & A3 & A4 & A5 & A6 & A7).
  cbn [os_kind os_buf]. repeat split; auto; unfold stream_ok in *; cbn [os_kind os_off]; auto.
Qed.

Lemma flush_named_finv s n o : finv s -> alookup n (st_outs s) = Some o ->
  finv (flush_named E s n o) /\ st_ins (flush_named E s n o) = st_ins s /\
  (forall m, amem m (st_outs (flush_named E s n o)) = amem m (st_outs s)) /\
  (forall o2, alookup n (st_outs (flush_named E s n o)) = Some o2 -> os_buf o2 = []) /\
  (forall m o2, m <> n -> alookup m (st_outs (flush_named E s n o)) = Some o2 -> alookup m (st_outs s) = Some o2).
Proof.
  intros Hi Hl. unfold flush_named. destruct (flush_ostream E s n o) as [s1 o1] eqn:Ef.
  destruct (flush_ostream_files _ _ _ _ _ Ef (finv_lookup_ok _ _ _ Hi Hl)) as (A1 & A2 & A3 & A4 & A5 & A6 & A7).
  cbv zeta. set (s2 := set_outs s1 (aset n o1 (st_outs s1))).
  assert (Hsf : same_files E s2 (if os_err o1 then print_errorf E s2 else s2)) by apply sf_if_print_errorf.
  destruct Hsf as (S1 & S2 & S3 & S4).
  assert (Hfin : finv (if os_err o1 then print_errorf E s2 else s2) <-> finv s2).
  { split; apply finv_same; unfold same_files; [split; [symmetry; exact S1|split; [symmetry; exact S2|split; [symmetry; exact S3|intros; symmetry; apply S4]]]|auto]. }
  rewrite S2, S3. subst s2.
  split; [apply Hfin|split; [|split; [|split]]].
  - eapply (finv_update s n o s1 o1 [] (os_buf o)); eauto.
    + intros t. rewrite A4. destruct (tgt_is _ _); rewrite app_nil_r; auto.
    + rewrite A6, !app_nil_r. auto.
  - cbn. auto.
  - intros m. cbn [st_outs set_outs]. rewrite amem_aset, A1. destruct (n =? m) eqn:Em; auto.
    apply Z.eqb_eq in Em. subst. unfold amem. rewrite Hl. auto.
  - cbn [st_outs set_outs]. intros o2. rewrite alookup_aset_same. intros H; injection H as <-. auto.
  - cbn [st_outs set_outs]. intros m o2 Hne. rewrite alookup_aset_other by auto. rewrite A1. auto.
Qed.

(* the streams named in D hold nothing *)
Definition emptied (D : name -> Prop) (s : state) : Prop :=
  forall m o, D m -> alookup m (st_outs s) = Some o -> os_buf o = [].

Lemma flush_streams_finv ns : forall s D, finv s -> emptied D s ->
  finv (flush_streams E s ns) /\ st_ins (flush_streams E s ns) = st_ins s /\
  (forall m, amem m (st_outs (flush_streams E s ns)) = amem m (st_outs s)) /\
  emptied (fun m => D m \/ In m ns) (flush_streams E s ns).
Proof.
  induction ns as [|n ns IH]; intros s D Hi He; cbn [flush_streams].
  - split; [auto|split; [auto|split; [auto|]]]. intros m o [H|[]]. exact (He m o H).
  - destruct (alookup n (st_outs s)) as [o|] eqn:El.
    + destruct (flush_named_finv s n o Hi El) as (B1 & B2 & B3 & B4 & B5).
      destruct (IH _ (fun m => D m \/ m = n) B1) as (C1 & C2 & C3 & C4).
      { intros m o2 Hd Hl2. destruct (Z.eq_dec m n) as [->|Hne]; [exact (B4 o2 Hl2)|].
        destruct Hd as [Hd|Hd]; [exact (He m o2 Hd (B5 m o2 Hne Hl2))|contradiction]. }
      split; [auto|split; [congruence|split]].
      * intros m. rewrite C3. auto.
      * intros m o2 Hd. apply C4. cbn [In] in Hd. intuition auto.
    + destruct (IH s (fun m => D m \/ m = n) Hi) as (C1 & C2 & C3 & C4).
      { intros m o2 [Hd| ->] Hl2; [exact (He m o2 Hd Hl2)|congruence]. }
      split; [auto|split; [auto|split; [auto|]]]. intros m o2 Hd. apply C4. cbn [In] in Hd. intuition auto.
Qed.

Lemma flush_all_finv s : finv s ->
  finv (fst (flush_all E s)) /\ st_ins (fst (flush_all E s)) = st_ins s /\
  (forall m, amem m (st_outs (fst (flush_all E s))) = amem m (st_outs s)) /\
  (forall m o, alookup m (st_outs (fst (flush_all E s))) = Some o -> os_buf o = []).
Proof.
  intros Hi. unfold flush_all.
  destruct (flush_streams_finv (map fst (st_outs s)) s (fun _ => False) Hi) as (C1 & C2 & C3 & C4); [intros m o []|].
  set (s1 := flush_streams E s _) in *.
  assert (Hsf : exists s', fst (let (s', b) := flush_stdout E s1 in if b then (s', negb (any_failed (st_outs s'))) else (print_errorf E s', false)) = s' /\ same_files E s1 s').
  { pose proof (sf_flush_stdout E s1) as H. destruct (flush_stdout E s1) as [s2 [|]]; cbn [fst] in *; eexists; split; eauto.
    eapply sf_trans; eauto. apply sf_flush_stdout. }
  destruct Hsf as (s' & -> & (D1 & D2 & D3 & D4)).
  split; [eapply finv_same; [|exact C1]; unfold same_files; auto|].
  rewrite D2, D3. split; [auto|split; [auto|]].
  intros m o Hl. apply (C4 m o); [|exact Hl]. right. apply In_keys_lookup.
  specialize (C3 m). unfold amem in C3. rewrite Hl in C3. destruct (alookup m (st_outs s)); congruence.
Qed.

Lemma start_proc_finv s c : finv s -> Q c ->
  (forall o, alookup c (st_outs s) = Some o -> os_buf o = []) ->
  finv (fst (start_proc E s c)) /\ st_outs (fst (start_proc E s c)) = st_outs s /\ st_ins (fst (start_proc E s c)) = st_ins s.
Proof.
  intros ((Hnd & Hs) & Hf) Hq Hb. unfold start_proc. cbn [fst].
  destruct (c_sink (e_spec E c)) as [t0|] eqn:Ec; cbn [st_outs st_ins]; [|repeat split; auto].
  repeat split; auto.
  - cbn [st_outs st_fs add_log set_fs]. intros m o Hin. pose proof (Hs _ _ Hin) as Hok.
    apply (stream_ok_fs (st_fs s)); [exact Hok|]. intros Hk. rewrite fs_get_append.
    destruct (t0 =? m) eqn:Et; auto. apply Z.eqb_eq in Et. subst.
    unfold stream_ok in Hok. rewrite Hk in Hok. destruct (af_file _ _ _ _ AF c m Hq Ec (proj1 Hok)).
  - intros t. cbn [st_outs st_fs st_log add_log set_fs expected_file]. rewrite fs_get_append, Hf.
    destruct (t0 =? t) eqn:Et; auto. apply Z.eqb_eq in Et. subst t0.
    (* only c's own stream feeds t, and it holds nothing *)
    assert (Hp : pend E (st_outs s) t = []).
    { apply pend_nil. intros m o Hin Ht.
      destruct (feeder m o t (stream_ok_kind _ _ _ (Hs _ _ Hin)) Ht) as (_ & B). rewrite (B c Hq Ec) in Hin.
      apply (Hb o), In_alookup; auto. }
    rewrite Hp, !app_nil_r. auto.
Qed.

Lemma finv_fields s s' : st_fs s' = st_fs s -> st_outs s' = st_outs s ->
  (forall t, expected_file E fs0 (st_log s') t = expected_file E fs0 (st_log s) t) -> finv s -> finv s'.
Proof.
  intros H1 H2 H3 ((Hk & Hs) & Hf). unfold finv, outs_ok, file_inv. rewrite H1, H2. repeat split; auto.
  intros t. rewrite H3. auto.
Qed.
Lemma finv_set_ins s i : finv s -> finv (set_ins s i).
Proof. apply finv_fields; auto. Qed.
Lemma finv_add_obs s o : finv s -> finv (add_obs s o).
Proof. apply finv_fields; auto. Qed.
Definition file_irrel (e : event) : Prop :=
  match e with
  | EvOpen _ KFile true => False
  | EvWrite WStdout _ => True
  | EvWrite _ _ => False
  | EvChildAppend _ _ => False
  | _ => True
  end.
Lemma finv_add_log s e : file_irrel e -> finv s -> finv (add_log s e).
Proof.
  intros He. apply finv_fields; auto. intros t. cbn [st_log add_log expected_file].
  destruct e as [n [|] [|]|[| |]| | | |]; cbn in He; try contradiction; auto.
Qed.
Lemma finv_if_print_errorf (b : bool) s : finv s -> finv (if b then print_errorf E s else s).
Proof. apply finv_same. apply sf_if_print_errorf. Qed.
Lemma scan_stream_finv s n i : finv s -> finv (scan_stream s n i).
Proof.
  unfold scan_stream. destruct (is_rest i); [apply finv_add_obs|]. destruct (scan_line _ _).
  intros H. repeat apply finv_add_obs. apply finv_set_ins. auto.
Qed.

(* a new stream with an empty buffer, for a name that has none *)
Lemma finv_add s n o : finv s -> alookup n (st_outs s) = None -> os_buf o = [] ->
  stream_ok F P (st_fs s) n o ->
  (forall t, stream_target E n o = Some t -> pend E (st_outs s) t = []) ->
  finv (set_outs s (aset n o (st_outs s))).
Proof.
  intros ((Hnd & Hs) & Hf) Hl Hb Hok Hp. split.
  - split; cbn [st_outs st_fs set_outs].
    + apply keys_nodup_aset; auto.
    + intros m o2 Hin. apply In_aset in Hin. destruct Hin as [[-> ->]|[Hin _]]; auto.
  - intros t. cbn [st_outs st_fs st_log set_outs]. unfold aset. cbn [pend]. rewrite aremove_absent by auto.
    rewrite Hf. destruct (tgt_is (stream_target E n o) t) eqn:Et; auto.
    apply tgt_is_true in Et. rewrite (Hp _ Et), Hb. auto.
Qed.

(* > and >> open file n, which has no stream: > empties it, >> creates it if it is missing *)
Lemma finv_open_file s n (trunc : bool) o : finv s -> F n -> alookup n (st_outs s) = None ->
  os_kind o = KFile -> os_buf o = [] -> os_off o = (if trunc then Some 0%nat else None) ->
  let s2 := add_log (set_fs s (if trunc then aset n [] (st_fs s) else fs_append (st_fs s) n [])) (EvOpen n KFile trunc) in
  finv (set_outs s2 (aset n o (st_outs s2))).
Proof.
  intros Hi Hn Hl Hk Hb Hoff s2.
  assert (Hfs : forall t, fs_get (st_fs s2) t = if (n =? t) && trunc then [] else fs_get (st_fs s) t).
  { intros t. subst s2. cbn [st_fs add_log set_fs]. destruct trunc; [rewrite fs_get_aset|rewrite fs_get_append];
      destruct (n =? t) eqn:Ent; auto. apply Z.eqb_eq in Ent. subst t. apply app_nil_r. }
  pose proof (no_stream_for_file s n (proj1 Hi) Hn Hl) as Hno.
  assert (Hi2 : finv s2).
  { destruct Hi as ((Hnd & Hs) & Hf). split; [split; [exact Hnd|]|].
    - intros m o2 Hin. apply (stream_ok_fs (st_fs s)); [exact (Hs _ _ Hin)|]. intros _. rewrite Hfs.
      destruct (n =? m) eqn:Enm; auto. apply Z.eqb_eq in Enm. subst m. apply (In_alookup _ _ (st_outs s)) in Hin; auto. congruence.
    - intros t. rewrite Hfs. subst s2. cbn [st_outs st_log add_log set_fs expected_file]. rewrite Hf.
      destruct trunc; [|rewrite andb_false_r; auto]. rewrite andb_true_r. destruct (n =? t) eqn:Ent; auto.
      apply Z.eqb_eq in Ent. subst t. rewrite pend_none; auto. }
  apply finv_add; auto.
  - unfold stream_ok. rewrite Hk, Hoff, Hfs, Z.eqb_refl. split; [exact Hn|].
    destruct trunc; [intros off H; injection H as <-; reflexivity|discriminate].
  - unfold stream_target. rewrite Hk. intros t H; injection H as <-. apply pend_none. exact Hno.
Qed.

Lemma get_output_stream_finv s d s' r : finv s ->
  match d with DRedir RPipe c => P c | DRedir _ n => F n | _ => True end ->
  get_output_stream E s d = (s', r) ->
  finv s' /\ (forall n, r = Some (TStream n) -> alookup n (st_outs s') <> None).
Proof.
  intros Hi Hw. unfold get_output_stream. destruct d as [| | |rd n].
  - intros H; injection H as <- <-. split; auto. discriminate.
  - intros H; injection H as <- <-. split; auto. discriminate.
  - intros H; injection H as <- <-. split; [|discriminate]. eapply finv_same; [apply sf_flush_stdout|auto].
  - destruct (amem n (st_ins s)); [intros H; injection H as <- <-; split; [auto|discriminate]|].
    destruct (amem n (st_outs s)) eqn:Em.
    { intros H; injection H as <- <-. split; auto. intros n0 H0; injection H0 as <-. unfold amem in Em.
      destruct (alookup n (st_outs s)); [discriminate|discriminate]. }
    apply amem_false_lookup in Em.
    pose proof (sf_flush_stdout E s) as Hsf. fold (flush_out_err E s) in Hsf. set (s1 := flush_out_err E s) in *.
    pose proof (finv_same _ _ Hsf Hi) as Hi1. destruct Hsf as (S1 & S2 & S3 & S4).
    assert (Em1 : alookup n (st_outs s1) = None) by (rewrite S2; auto).
    assert (Hlk : forall (s2 : state) o outs, alookup n (st_outs (set_outs s2 (aset n o outs))) <> None)
      by (intros; cbn [st_outs set_outs]; rewrite alookup_aset_same; discriminate).
    destruct rd.
    + destruct (e_bad E n); [intros H; injection H as <- <-; split; [auto|discriminate]|].
      intros H; injection H as <- <-. split; [|intros n0 H0; injection H0 as <-; apply Hlk].
      apply (finv_open_file s1 n true); auto.
    + destruct (e_bad E n); [intros H; injection H as <- <-; split; [auto|discriminate]|].
      intros H; injection H as <- <-. split; [|intros n0 H0; injection H0 as <-; apply Hlk].
      apply (finv_open_file s1 n false); auto.
    + match goal with |- context [if ?c then set_unmod s1 else s1] => set (s2 := if c then set_unmod s1 else s1) end.
      assert (Hsf2 : same_files E s1 s2) by apply sf_if_unmod.
      pose proof (finv_same _ _ Hsf2 Hi1) as Hi2.
      pose proof (finv_add_log s2 (EvOpen n KCmd false) I Hi2) as Hi3.
      assert (Hq : Q n) by (apply (af_PQ _ _ _ _ AF); auto).
      assert (Em3 : alookup n (st_outs (add_log s2 (EvOpen n KCmd false))) = None).
      { destruct Hsf2 as (_ & T2 & _). cbn [st_outs add_log]. rewrite T2. auto. }
      destruct (start_proc_finv _ n Hi3 Hq) as (Hi4 & O4 & _); [intros o Ho; congruence|].
      destruct (start_proc E _ n) as [s4 cg]. cbn [fst] in *.
      pose proof (sf_child_out E s4 cg (c_stdout (e_spec E n))) as Hsf5.
      destruct (child_out E s4 cg _) as [s5 ok]. cbn [fst] in *.
      pose proof (finv_same _ _ Hsf5 Hi4) as Hi5.
      match goal with |- context [if ?c then set_unmod s5 else s5] => set (s6 := if c then set_unmod s5 else s5) end.
      assert (Hsf6 : same_files E s5 s6) by apply sf_if_unmod.
      pose proof (finv_same _ _ Hsf6 Hi5) as Hi6.
      assert (Em6 : alookup n (st_outs s6) = None).
      { destruct Hsf6 as (_ & T6 & _). destruct Hsf5 as (_ & T5 & _). rewrite T6, T5, O4. auto. }
      intros H; injection H as <- <-. split; [|intros n0 H0; injection H0 as <-; apply Hlk].
      apply finv_add; auto.
      * unfold stream_target. cbn [os_kind]. intros t Ht.
        apply pend_none. destruct Hi6. eapply no_stream_for_sink; eauto. apply cmd_target_sink; auto.
Qed.

Lemma write_ostream_files s n o p s' o' :
  write_ostream E s n o p = (s', o') -> stream_ok F P (st_fs s) n o ->
  exists f, st_outs s' = st_outs s /\
  (forall t, fs_get (st_fs s') t = fs_get (st_fs s) t ++ (if tgt_is (stream_target E n o) t then f else [])) /\
  (forall t, expected_file E fs0 (st_log s') t = expected_file E fs0 (st_log s) t) /\
  os_kind o' = os_kind o /\ os_buf o ++ p = f ++ os_buf o' /\ stream_ok F P (st_fs s') n o'.
Proof.
  unfold write_ostream. destruct (buf_bytes (e_fcap E) (os_buf o) p) as [f r] eqn:Eb.
  destruct (deliver E s n o f) as [s1 o1] eqn:Ed. intros H Hok. injection H as <- <-.
  destruct (deliver_files _ _ _ _ _ _ Ed Hok) as (A1 & A2 & A3 & A4 & A5 & A6 & A7).
  exists f. cbn [os_kind os_buf]. apply buf_bytes_spec in Eb.
  repeat split; auto; unfold stream_ok in *; cbn [os_kind os_off]; auto.
Qed.

Lemma close_ostream_files s n o s' code err :
  close_ostream E s n o = (s', code, err) -> stream_ok F P (st_fs s) n o ->
  st_outs s' = st_outs s /\
  (forall t, fs_get (st_fs s') t = fs_get (st_fs s) t ++ (if tgt_is (stream_target E n o) t then os_buf o else [])) /\
  (forall t, expected_file E fs0 (st_log s') t = expected_file E fs0 (st_log s) t).
Proof.
  unfold close_ostream. destruct (flush_ostream E s n o) as [s1 o1] eqn:Ef. intros H Hok.
  destruct (flush_ostream_files _ _ _ _ _ Ef Hok) as (A1 & A2 & A3 & A4 & A5 & A6 & A7).
  destruct (os_kind o1).
  - injection H as <- <- <-. auto.
  - unfold child_eof in H. destruct (wait_result _ _). injection H as <- <- <-. auto.
Qed.

Lemma finv_add_synced s n : finv s -> finv (add_synced s n).
Proof. apply finv_fields; auto. Qed.

Lemma getline_file_finv s n s' oc : finv s -> getline_file E s n = (s', oc) -> finv s'.
Proof.
  intros Hi0. unfold getline_file. set (s0 := if sink_busy E s n then set_unmod s else s).
  assert (Hi : finv s0) by (subst s0; apply (finv_same _ _ (sf_if_unmod E _ _)); auto). clearbody s0.
  destruct (amem n (st_outs s0)); [intros H; injection H as <- <-; auto|].
  destruct (alookup n (st_ins s0)); [intros H; injection H as <- <-; apply scan_stream_finv; auto|].
  destruct (alookup n (st_fs s0)); intros H; injection H as <- <-.
  - apply scan_stream_finv. apply finv_set_ins. auto.
  - apply finv_add_obs. auto.
Qed.

Lemma step_print_finv s d ps wr s' oc : finv s ->
  match d with DRedir RPipe c => P c | DRedir _ n => F n | _ => True end ->
  (forall s1, same_files E s1 (fst (wr s1))) ->
  step_print E s d ps wr = (s', oc) -> finv s'.
Proof.
  intros Hi Hw' Hwr. unfold step_print.
    destruct (get_output_stream E s d) as [s1 r] eqn:Eg.
    destruct (get_output_stream_finv _ _ _ _ Hi Hw' Eg) as (Hi1 & Hopen).
    destruct r as [[|n]|]; [| |intros H; injection H as <- <-; auto].
    + pose proof (Hwr s1) as Hsf. destruct (wr s1) as [s2 [|]]; cbn [fst] in Hsf;
        intros H; injection H as <- <-; eapply finv_same; eauto.
    + destruct (alookup n (st_outs s1)) as [os|] eqn:El; [|intros H; injection H as <- <-; auto].
      set (w := match os_kind os with KFile => WFile n | KCmd => WCmd n end).
      set (s1' := add_log s1 (EvWrite w (concat ps))).
      destruct (write_ostream E s1' n os (concat ps)) as [s2 os'] eqn:Ew.
      pose proof (finv_lookup_ok _ _ _ Hi1 El) as Hok.
      destruct (write_ostream_files _ _ _ _ _ _ Ew Hok) as (f & A1 & A2 & A3 & A4 & A5 & A6).
      intros H; injection H as <- <-.
      apply (finv_update s1 n os s2 os' (concat ps) f); auto.
      intros t. rewrite A3. cbn [st_log s1' add_log expected_file].
      assert (Hwt : wdest_target E w = stream_target E n os).
      { subst w. unfold stream_target. destruct (os_kind os); auto. }
      rewrite Hwt. destruct (tgt_is _ t); [auto|rewrite app_nil_r; auto].
Qed.

Lemma step_finv s o s' oc : finv s -> op_within F P Q o -> step E s o = (s', oc) -> finv s'.
Proof.
  intros Hi Hw. destruct o as [d ps|n|[n|]|c|n|c| |code| |n|d rec]; cbn [step].
  - assert (Hw' : match d with DRedir RPipe c => P c | DRedir _ n => F n | _ => True end)
      by (cbn [op_within] in Hw; destruct d as [| | |[| |] n]; auto).
    apply (step_print_finv s d ps _ s' oc Hi Hw'). intros s1. apply sf_write_stdout.
  - destruct (alookup n (st_ins s)) as [i|] eqn:Ei.
    + destruct (if is_cmd i then _ else _) as [code err]. intros H; injection H as <- <-.
      apply finv_add_obs. apply finv_if_print_errorf. apply finv_add_log; [exact I|]. apply finv_set_ins. auto.
    + destruct (alookup n (st_outs s)) as [os|] eqn:El; [|intros H; injection H as <- <-; apply finv_add_obs; auto].
      destruct (close_ostream E _ n os) as [[s1 code] err] eqn:Ec.
      pose proof (finv_lookup_ok _ _ _ Hi El) as Hok.
      destruct (close_ostream_files _ _ _ _ _ _ Ec Hok) as (A1 & A2 & A3).
      intros H; injection H as <- <-.
      apply finv_add_obs. apply finv_if_print_errorf. apply finv_add_log; [exact I|].
      apply (finv_remove s n os s1); auto.
  - destruct (alookup n (st_outs s)) as [os|] eqn:El; intros H; injection H as <- <-; apply finv_add_obs.
    + apply flush_named_finv; auto.
    + apply (finv_if_print_errorf true). auto.
  - destruct (flush_all_finv s Hi) as (Hi1 & _). destruct (flush_all E s) as [s1 ok]. cbn [fst] in Hi1.
    intros H; injection H as <- <-. apply finv_add_obs. auto.
  - cbn [op_within] in Hw.
    destruct (flush_all_finv s Hi) as (Hi1 & _ & _ & Hb1). destruct (flush_all E s) as [s1 ok]. cbn [fst] in *.
    destruct (start_proc_finv s1 c Hi1 Hw) as (Hi2 & _); [intros o Ho; eapply Hb1; eauto|].
    destruct (start_proc E s1 c) as [s2 cg]. cbn [fst] in Hi2.
    pose proof (sf_child_out E s2 cg (c_stdout (e_spec E c))) as Hsf3. destruct (child_out E s2 cg _) as [s3 ok3]. cbn [fst] in Hsf3.
    unfold child_eof. destruct (wait_result _ _) as [code err]. intros H; injection H as <- <-.
    apply finv_add_obs. apply finv_if_print_errorf. eapply finv_same; [exact Hsf3|]. auto.
  - apply getline_file_finv; auto.
  - cbn [op_within] in Hw.
    destruct (amem c (st_outs s)) eqn:Em; [intros H; injection H as <- <-; auto|]. apply amem_false_lookup in Em.
    destruct (alookup c (st_ins s)); [intros H; injection H as <- <-; apply scan_stream_finv; auto|].
    pose proof (sf_flush_stdout E s) as Hsf. fold (flush_out_err E s) in Hsf.
    pose proof (finv_same _ _ Hsf Hi) as Hi1. destruct Hsf as (_ & S2 & _).
    destruct (start_proc_finv _ c Hi1 Hw) as (Hi2 & _); [intros o Ho; rewrite S2 in Ho; congruence|].
    destruct (start_proc E _ c) as [s2 cg]. cbn [fst] in Hi2.
    intros H; injection H as <- <-. apply scan_stream_finv. apply finv_set_ins. auto.
  - intros H; injection H as <- <-. apply finv_add_obs. eapply finv_same; [apply sf_flush_stdout|auto].
  - intros H; injection H as <- <-. auto.
  - intros H; injection H as <- <-. auto.
  - destruct (amem n (st_outs s)); [intros H; injection H as <- <-; auto|].
    destruct (negb (amem n (st_ins s)) && negb (amem n (st_fs s))).
    + intros H; injection H as <- <-. apply (finv_same _ _ (sf_if_unmod E true _)); auto.
    + apply getline_file_finv. apply finv_add_synced; auto.
  - assert (Hw' : match d with DRedir RPipe c => P c | DRedir _ n => F n | _ => True end)
      by (cbn [op_within] in Hw; destruct d as [| | |[| |] n]; auto).
    apply (step_print_finv s d [rec] _ s' oc Hi Hw'). intros s1. apply sf_write_stdout_rec.
Qed.

Lemma exec_finv ops : forall s s' r, finv s -> Forall (op_within F P Q) ops -> exec E s ops = (s', r) -> finv s'.
Proof.
  induction ops as [|o ops IH]; intros s s' r Hi Hw; cbn [exec].
  - intros H; injection H as <- <-; auto.
  - inversion Hw as [|? ? Hw1 Hw2]; subst.
    destruct (step E s o) as [s1 [| |]] eqn:Es; pose proof (step_finv _ _ _ _ Hi Hw1 Es) as Hi1.
    + apply IH; auto.
    + intros H; injection H as <- <-; auto.
    + intros H; injection H as <- <-; auto.
Qed.

(* no helper of close touches the tables *)
Lemma close_ostream_tables s n o :
  st_outs (fst (fst (close_ostream E s n o))) = st_outs s /\ st_ins (fst (fst (close_ostream E s n o))) = st_ins s.
Proof.
  unfold close_ostream, flush_ostream. destruct (deliver_shape E s n o (os_buf o)) as (A & B & _).
  destruct (deliver E s n o (os_buf o)) as [s1 o1]. cbn [fst] in A, B. cbn [os_kind os_cgfail].
  destruct (os_kind o1); cbn [fst]; auto.
  unfold child_eof. destruct (wait_result _ _). cbn [fst]. auto.
Qed.

Lemma close_streams_tables ns : forall s,
  st_ins (close_streams E s ns) = st_ins s /\
  (forall m, alookup m (st_outs (close_streams E s ns)) <> None -> alookup m (st_outs s) <> None /\ ~ In m ns).
Proof.
  induction ns as [|n ns IH]; intros s; cbn [close_streams].
  - split; auto.
  - destruct (alookup n (st_outs s)) as [o|] eqn:El.
    + destruct (close_ostream_tables (set_outs s (aremove n (st_outs s))) n o) as (A1 & A2).
      destruct (close_ostream E _ n o) as [[s1 code] err]. cbn [fst] in A1, A2.
      destruct (IH (add_log s1 (EvClose n false code))) as (B1 & B2). split.
      * rewrite B1. cbn [st_ins add_log]. rewrite A2. reflexivity.
      * intros m Hm. destruct (B2 m Hm) as (C1 & C2). cbn [st_outs add_log] in C1. rewrite A1 in C1. cbn [st_outs set_outs] in C1.
        rewrite alookup_aremove in C1. destruct (n =? m) eqn:Enm; [congruence|]. apply Z.eqb_neq in Enm.
        split; auto. intros [H|H]; auto.
    + destruct (IH s) as (B1 & B2). split; auto.
      intros m Hm. destruct (B2 m Hm) as (C1 & C2). split; auto. intros [H|H]; auto. subst. congruence.
Qed.

(* closeAll closes everything, after any run *)
Theorem close_all_closes_everything s : st_outs (close_all E s) = [] /\ st_ins (close_all E s) = [].
Proof.
  unfold close_all.
  destruct (close_streams_tables (map fst (st_outs (set_ins s []))) (set_ins s [])) as (B1 & B2).
  set (s1 := close_streams E _ _) in *.
  destruct (sf_flush_stdout E s1) as (_ & S2 & S3 & _). fold (flush_out_err E s1) in S2, S3.
  rewrite S2, S3, B1. split; [|reflexivity].
  apply all_none_nil. intros m. destruct (alookup m (st_outs s1)) eqn:El; auto.
  exfalso. destruct (B2 m) as (C1 & C2); [congruence|]. apply C2. apply In_keys_lookup. auto.
Qed.

Lemma close_streams_finv ns : forall s, finv s -> finv (close_streams E s ns).
Proof.
  induction ns as [|n ns IH]; intros s Hi; cbn [close_streams]; auto.
  destruct (alookup n (st_outs s)) as [o|] eqn:El; auto.
  destruct (close_ostream E _ n o) as [[s1 code] err] eqn:Ec.
  pose proof (finv_lookup_ok _ _ _ Hi El) as Hok.
  destruct (close_ostream_files _ _ _ _ _ _ Ec Hok) as (A1 & A2 & A3).
  apply IH. apply finv_add_log; [exact I|]. apply (finv_remove s n o s1); auto.
Qed.

Lemma close_all_finv s : finv s -> finv (close_all E s) /\ st_outs (close_all E s) = [].
Proof.
  intros Hi. split; [|apply close_all_closes_everything]. unfold close_all.
  set (s1 := close_streams E _ _). pose proof (sf_flush_stdout E s1) as Hsf. fold (flush_out_err E s1) in Hsf.
  eapply finv_same; [exact Hsf|]. apply close_streams_finv, finv_set_ins, Hi.
Qed.

Lemma init_finv l : finv (init_state fs0 l).
Proof.
  split.
  - split; cbn; [constructor|intros ? ? []].
  - intros t. cbn. rewrite app_nil_r. auto.
Qed.

(* delivered_in_order, files: whatever way the run ends and whether or not
   standard output fails, every file holds exactly what the log prescribes *)
Theorem files_delivered_from s0 ops s r : finv s0 ->
  Forall (op_within F P Q) ops ->
  run E s0 ops = (s, r) ->
  st_outs s = [] /\ forall t, fs_get (st_fs s) t = expected_file E fs0 (st_log s) t.
Proof.
  intros H0 Hw. unfold run. destruct (exec E _ ops) as [s1 r1] eqn:Ee. intros H; injection H as <- <-.
  pose proof (exec_finv _ _ _ _ H0 Hw Ee) as Hi1.
  destruct (close_all_finv s1 Hi1) as ((_ & Hf) & Ho). split; auto.
  intros t. rewrite Hf, Ho. cbn [pend]. rewrite app_nil_r. auto.
Qed.

Theorem files_delivered limit ops s r :
  Forall (op_within F P Q) ops ->
  run E (init_state fs0 limit) ops = (s, r) ->
  st_outs s = [] /\ forall t, fs_get (st_fs s) t = expected_file E fs0 (st_log s) t.
Proof. apply files_delivered_from, init_finv. Qed.
End Files.
