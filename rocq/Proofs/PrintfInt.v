(* C09: Go's fmt.fmtInteger (as modelled) against the ISO C specification of
   the integer conversions, for every formatter state / resolved specification,
   every value, every width and precision. *)
From Verif Require Import Lib.Base Lib.Dyadic Lib.Utf8 Model.Printf Proofs.PrintfSpec Proofs.Utf8Facts Proofs.PrintfBase.

(* the formatter state doPrintf has built corresponds to the resolved C specification *)
Definition st_matches (f : fmts) (r : rspec) : Prop :=
  wid f = r_width r /\ (widP f = false -> r_width r = 0) /\ 0 <= r_width r /\
  fminus f = r_minus r /\ fplus f = r_plus r /\ fsharp f = r_sharp r /\ fspace f = r_space r /\
  (r_minus r = false -> fzero f = r_zero r) /\
  r_prec r = (if precP f then Some (prec f) else None) /\ 0 <= prec f.

Definition sign_of (negative plus space : bool) : bytes :=
  if negative then [45] else if plus then [43] else if space then [32] else [].

Definition sharp_of (sharp : bool) (base : Z) (upper : bool) (ds : bytes) : bytes :=
  if sharp then
    if base =? 8 then (match ds with 48 :: _ => ds | _ => 48 :: ds end)
    else if base =? 16 then 48 :: (if upper then 88 else 120) :: ds
    else ds
  else ds.

Lemma ascii_sign n p s : ascii (sign_of n p s) = true.
Proof. unfold sign_of. destruct n, p, s; reflexivity. Qed.

Lemma ascii_sharp sh base up ds : ascii ds = true -> ascii (sharp_of sh base up ds) = true.
Proof.
  intros H. unfold sharp_of. destruct sh; [|exact H]. destruct (base =? 8).
  - rewrite match48. destruct ds as [|c t]; [reflexivity|]. destruct (c =? 48); [exact H|].
    cbn [ascii forallb]. exact H.
  - destruct (base =? 16); [|exact H]. destruct up; cbn [ascii forallb]; exact H.
Qed.

Lemma zlen_sign n p s : zlen (sign_of n p s) = if n || p || s then 1 else 0.
Proof. unfold sign_of. destruct n, p, s; reflexivity. Qed.

(* normal form of the modelled fmtInteger, in the terms of the specification it was built from *)
Lemma fmt_integer_nf f r v base signed upper :
  let negative := signed && (v <? 0) in
  let u := if negative then - v else v in
  st_matches f r -> 0 <= u -> 2 <= base <= 16 ->
  fmt_integer f v base signed upper =
    if precP f && (prec f =? 0) && (u =? 0) then rep (r_width r) 32
    else
      let sg := sign_of negative (r_plus r) (r_space r) in
      let p := if precP f then prec f
               else if r_zero r && negb (r_minus r) && widP f then r_width r - zlen sg else 0 in
      let ds := to_digits base u upper in
      let body := sg ++ sharp_of (r_sharp r) base upper (rep (p - zlen ds) 48 ++ ds) in
      if r_minus r then body ++ rep (r_width r - zlen body) 32 else rep (r_width r - zlen body) 32 ++ body.
Proof.
  intros negative u (Hw & HwP & Hw0 & Hm & Hp & Hs & Hsp & Hz & Hpr & Hp0) Hu Hb.
  assert (Ez : fzero f && negb (fminus f) = r_zero r && negb (r_minus r)).
  { rewrite Hm. destruct (r_minus r); [rewrite !andb_false_r | rewrite (Hz eq_refl)]; reflexivity. }
  unfold fmt_integer. fold negative. fold u. rewrite !padding_rep, Ez, Hw, Hp, Hsp, Hs.
  destruct (precP f && (prec f =? 0) && (u =? 0)); [reflexivity|].
  rewrite (digits_of_to_digits base u upper Hu ltac:(lia)).
  set (sg := sign_of negative (r_plus r) (r_space r)).
  replace (if negative || r_plus r || r_space r then r_width r - 1 else r_width r) with (r_width r - zlen sg)
    by (unfold sg; rewrite zlen_sign; destruct (negative || r_plus r || r_space r); lia).
  set (p := if precP f then prec f else _).
  set (ds := to_digits base u upper).
  assert (Hds : ascii (rep (p - zlen ds) 48 ++ ds) = true).
  { rewrite ascii_app, ascii_rep by lia. apply to_digits_ascii; assumption. }
  set (d1 := rep (p - zlen ds) 48 ++ ds) in *.
  change (if r_sharp r then if base =? 8 then match d1 with 48 :: _ => d1 | _ => 48 :: d1 end
            else if base =? 16 then 48 :: (if upper then 88 else 120) :: d1 else d1 else d1)
    with (sharp_of (r_sharp r) base upper d1).
  set (d2 := sharp_of (r_sharp r) base upper d1).
  replace (if negative then 45 :: d2 else if r_plus r then 43 :: d2 else if r_space r then 32 :: d2 else d2)
    with (sg ++ d2) by (unfold sg, sign_of; destruct negative, (r_plus r), (r_space r); reflexivity).
  rewrite pad_norm; [| reflexivity | rewrite <- Hw in HwP; exact HwP | rewrite <- Hw in Hw0; exact Hw0].
  cbn [set_zero wid fminus]. rewrite Hw, Hm, rune_count_ascii; [reflexivity|].
  unfold sg. rewrite ascii_app, ascii_sign. apply ascii_sharp. exact Hds.
Qed.

(* a field no wider than its content gets no padding: fmt tests for it, C's count is then not positive *)
Lemma c_field_guard r zok pre body (g : bool) : (g = false -> r_width r <= zlen pre + zlen body) ->
  (if g then c_field r zok pre body else pre ++ body) = c_field r zok pre body.
Proof.
  intros H. destruct g; [reflexivity|]. specialize (H eq_refl). unfold c_field. rewrite !rep_nonpos by lia.
  destruct (r_minus r), (r_zero r && zok); rewrite ?app_nil_r; reflexivity.
Qed.

(* fmt has no zero fill: the 0 flag becomes a precision as wide as the field minus the sign,
   and the result is padded with spaces.  That is C's zero fill unless an alternate-form
   prefix [pfx] stands between sign and digits *)
Lemma zero_fill_as_prec r (wP pP : bool) (prec : Z) (sg pfx ds : bytes) :
  1 <= zlen ds -> (wP = false -> r_width r = 0) -> 0 <= r_width r ->
  (pfx = [] \/ r_zero r = false \/ r_minus r = true \/ pP = true \/ r_width r = 0) ->
  let p := if pP then prec else if r_zero r && negb (r_minus r) && wP then r_width r - zlen sg else 0 in
  let body := sg ++ pfx ++ rep (p - zlen ds) 48 ++ ds in
  (if r_minus r then body ++ rep (r_width r - zlen body) 32 else rep (r_width r - zlen body) 32 ++ body)
  = c_field r (negb pP) (sg ++ pfx) (rep ((if pP then prec else 1) - zlen ds) 48 ++ ds).
Proof.
  intros Hds HwP Hw0 Hx. unfold c_field. pose proof (zlen_nonneg sg). pose proof (zlen_nonneg pfx).
  destruct pP; cbn [negb]; cbv zeta.
  - rewrite andb_false_r, !zlen_app, <- !app_assoc, <- !Z.add_assoc. destruct (r_minus r); reflexivity.
  - rewrite andb_true_r, (rep_nonpos (1 - zlen ds)) by lia. cbn [app].
    destruct (r_minus r) eqn:EM; [|destruct (r_zero r) eqn:EZ]; cbn [negb andb].
    + rewrite andb_false_r, (rep_nonpos (0 - zlen ds)), !zlen_app, <- !app_assoc, <- !Z.add_assoc by lia. reflexivity.
    + destruct (Z.eq_dec (r_width r) 0) as [E0|N0].
      * rewrite E0. destruct wP; rewrite !rep_nonpos, <- ?app_assoc by (rewrite ?zlen_app, ?zlen_rep; lia); reflexivity.
      * destruct wP; [|specialize (HwP eq_refl); lia].
        destruct Hx as [->|[Hx|[Hx|[Hx|Hx]]]]; try discriminate; try lia. cbn [app zlen length Z.of_nat].
        rewrite (rep_nonpos (r_width r - _)) by (rewrite !zlen_app, zlen_rep; lia).
        cbn [app]. rewrite app_nil_r, Z.sub_add_distr. reflexivity.
    + rewrite (rep_nonpos (0 - zlen ds)), !zlen_app, <- !app_assoc, <- !Z.add_assoc by lia. reflexivity.
Qed.

(* fmtInteger against C's field, for an alternate form that puts [pfx] before the zeros and
   turns the digits into [ds'] *)
Lemma fmt_integer_c f r v base signed upper (pfx ds' : bytes) :
  let negative := signed && (v <? 0) in
  let u := if negative then - v else v in
  let sg := sign_of negative (r_plus r) (r_space r) in
  let p' := match r_prec r with Some p => p | None => 1 end in
  st_matches f r -> 0 <= u -> 2 <= base <= 16 -> 1 <= zlen ds' ->
  (forall n, sharp_of (r_sharp r) base upper (rep (n - zlen (to_digits base u upper)) 48 ++ to_digits base u upper)
             = pfx ++ rep (n - zlen ds') 48 ++ ds') ->
  (pfx = [] \/ r_zero r = false \/ r_minus r = true \/ r_prec r <> None \/ r_width r = 0) ->
  (r_prec r = Some 0 -> u = 0 -> sg ++ pfx = []) ->
  fmt_integer f v base signed upper
  = c_field r (match r_prec r with None => true | Some _ => false end) (sg ++ pfx)
      (if (u =? 0) && (p' =? 0) then [] else rep (p' - zlen ds') 48 ++ ds').
Proof.
  intros negative u sg p' Hst Hu Hb Hd Hsh Hx Hg. rewrite (fmt_integer_nf f r v base signed upper Hst Hu Hb).
  destruct Hst as (_ & HwP & Hw0 & _ & _ & _ & _ & _ & Hpr & _).
  fold negative. fold u. fold sg. cbv zeta. rewrite Hsh. unfold p'. rewrite Hpr in *.
  destruct (precP f) eqn:EP; cbn [andb].
  - rewrite (andb_comm (u =? 0)). destruct ((prec f =? 0) && (u =? 0)) eqn:E0.
    + apply andb_true_iff in E0 as [Ea Eb]. apply Z.eqb_eq in Ea, Eb. rewrite Ea in Hg.
      unfold c_field. rewrite (Hg eq_refl Eb), andb_false_r, app_nil_r. cbn [app zlen length Z.of_nat].
      rewrite Z.sub_0_r. destruct (r_minus r); reflexivity.
    + apply (zero_fill_as_prec r (widP f) true (prec f) sg pfx ds' Hd HwP Hw0).
      destruct Hx as [Hx|[Hx|[Hx|[Hx|Hx]]]]; auto.
  - rewrite andb_false_r. apply (zero_fill_as_prec r (widP f) false (prec f) sg pfx ds' Hd HwP Hw0).
    destruct Hx as [Hx|[Hx|[Hx|[Hx|Hx]]]]; auto. congruence.
Qed.

Theorem fmt_integer_signed f r v : st_matches f r ->
  ~ (r_prec r = Some 0 /\ v = 0 /\ r_plus r || r_space r = true) ->
  fmt_integer f v 10 true false = c_signed r v.
Proof.
  intros Hst Hg.
  assert (Eu : (if true && (v <? 0) then - v else v) = Z.abs v)
    by (cbn [andb]; destruct (v <? 0) eqn:E; [apply Z.ltb_lt in E | apply Z.ltb_ge in E]; lia).
  pose proof (fmt_integer_c f r v 10 true false [] (to_digits 10 (Z.abs v) false)) as H.
  cbv zeta in H. rewrite Eu, app_nil_r in H. apply H; clear H; auto using to_digits_nonempty; try lia.
  - intros n. unfold sharp_of. destruct (r_sharp r); reflexivity.
  - intros Hp Hv. assert (v = 0) by lia. subst v. cbn [andb Z.ltb Z.compare sign_of].
    destruct (r_plus r || r_space r) eqn:Eps; [exfalso; apply Hg; auto|].
    apply orb_false_iff in Eps as [-> ->]. reflexivity.
Qed.

Definition cbase (c : conv) : Z := match c with Co => 8 | Cx | CX => 16 | _ => 10 end.
Definition cupper (c : conv) : bool := match c with CX => true | _ => false end.

(* the combinations in which fmt and C differ for the unsigned conversions *)
Definition unsigned_ok (r : rspec) (c : conv) (u : Z) : Prop :=
  r_plus r = false /\ r_space r = false /\
  match c with
  | Co => ~ (r_sharp r = true /\ r_prec r = Some 0 /\ u = 0)
  | Cx | CX => r_sharp r = true ->
               u <> 0 /\ (r_zero r = false \/ r_minus r = true \/ r_prec r <> None \/ r_width r = 0)
  | _ => True
  end.

Lemma rep_shift n c (l : bytes) : 1 <= n -> rep (n - 1) c ++ c :: l = rep n c ++ l.
Proof.
  intros H. replace n with ((n - 1) + 1) at 2 by lia. rewrite rep_succ by lia.
  change (c :: l) with ([c] ++ l). rewrite app_assoc, rep_snoc. reflexivity.
Qed.

(* # of %o: a leading 0, unless there is one *)
Definition lead0 (ds : bytes) : bytes := match ds with 48 :: _ => ds | _ => 48 :: ds end.

Lemma lead0_cons c t : lead0 (c :: t) = if c =? 48 then c :: t else 48 :: c :: t.
Proof. exact (match48 (c :: t) (c :: t) (48 :: c :: t)). Qed.

(* on zero-extended digits: one zero less is needed when # supplies one *)
Lemma lead0_rep n ds : 1 <= zlen ds -> lead0 (rep (n - zlen ds) 48 ++ ds) = rep (n - zlen (lead0 ds)) 48 ++ lead0 ds.
Proof.
  intros Hne. destruct ds as [|c t]; [rewrite zlen_nil in Hne; lia|]. rewrite (lead0_cons c t).
  destruct (Z_le_gt_dec n (zlen (c :: t))) as [Hle|Hgt].
  - rewrite (rep_nonpos (n - zlen (c :: t))) by lia. cbn [app]. rewrite lead0_cons.
    destruct (c =? 48); rewrite rep_nonpos by (rewrite ?(zlen_cons 48); lia); reflexivity.
  - assert (E : rep (n - zlen (c :: t)) 48 = 48 :: rep (n - zlen (c :: t) - 1) 48)
      by (rewrite <- rep_succ by lia; f_equal; lia).
    rewrite E at 1. cbn [app lead0]. destruct (c =? 48); [rewrite E; reflexivity|].
    replace (n - zlen (48 :: c :: t)) with (n - zlen (c :: t) - 1) by (rewrite (zlen_cons 48); lia).
    rewrite rep_shift, E by lia. reflexivity.
Qed.

Lemma fmt_integer_unsigned f r v base upper pfx ds' :
  let u := v mod two64 in
  let p' := match r_prec r with Some p => p | None => 1 end in
  st_matches f r -> r_plus r = false -> r_space r = false -> 2 <= base <= 16 -> 1 <= zlen ds' ->
  (forall n, sharp_of (r_sharp r) base upper (rep (n - zlen (to_digits base u upper)) 48 ++ to_digits base u upper)
             = pfx ++ rep (n - zlen ds') 48 ++ ds') ->
  (pfx = [] \/ r_zero r = false \/ r_minus r = true \/ r_prec r <> None \/ r_width r = 0) ->
  (r_prec r = Some 0 -> u = 0 -> pfx = []) ->
  fmt_integer f u base false upper
  = c_field r (match r_prec r with None => true | Some _ => false end) pfx
      (if (u =? 0) && (p' =? 0) then [] else rep (p' - zlen ds') 48 ++ ds').
Proof.
  intros u p' Hst Hpl Hsp Hb Hd Hsh Hx Hg.
  assert (Hu : 0 <= u) by (apply Z.mod_pos_bound; reflexivity).
  pose proof (fmt_integer_c f r u base false upper pfx ds') as H. cbv zeta in H. cbn [andb] in H.
  rewrite Hpl, Hsp in H. apply H; assumption.
Qed.

Lemma fmt_integer_u f r v : st_matches f r -> unsigned_ok r Cu (v mod two64) ->
  fmt_integer f (v mod two64) 10 false false = c_unsigned r Cu v.
Proof.
  intros Hst (Hg1 & Hg2 & _).
  apply (fmt_integer_unsigned f r v 10 false [] (to_digits 10 (v mod two64) false));
    auto using to_digits_nonempty; try lia.
  intros n. unfold sharp_of. destruct (r_sharp r); reflexivity.
Qed.

Lemma fmt_integer_o f r v : st_matches f r -> unsigned_ok r Co (v mod two64) ->
  fmt_integer f (v mod two64) 8 false false = c_unsigned r Co v.
Proof.
  intros Hst (Hg1 & Hg2 & Hg). cbv beta iota in Hg.
  pose proof (to_digits_nonempty 8 (v mod two64) false) as Hne.
  rewrite (fmt_integer_unsigned f r v 8 false []
             (if r_sharp r then lead0 (to_digits 8 (v mod two64) false) else to_digits 8 (v mod two64) false));
    auto; try lia; unfold c_unsigned, c_digits; cbv zeta;
    set (u := v mod two64) in *; set (ds := to_digits 8 u false) in *.
  - destruct (r_sharp r); [|reflexivity].
    destruct ((u =? 0) && (_ =? 0)) eqn:E0; [|rewrite <- lead0_rep by exact Hne; reflexivity].
    exfalso. apply Hg. apply andb_true_iff in E0 as [Ea Eb]. apply Z.eqb_eq in Ea, Eb.
    destruct (r_prec r); [subst; auto | discriminate].
  - destruct (r_sharp r); [|exact Hne]. destruct ds as [|c t]; [cbn; lia|]. rewrite lead0_cons.
    destruct (c =? 48); rewrite ?(zlen_cons 48); lia.
  - intros n. unfold sharp_of. destruct (r_sharp r); [|reflexivity]. apply lead0_rep. exact Hne.
Qed.

Definition c_hex (r : rspec) (upper : bool) (v : Z) : bytes :=
  let u := v mod two64 in
  c_field r (match r_prec r with None => true | Some _ => false end)
    (if r_sharp r && negb (u =? 0) then [48; if upper then 88 else 120] else []) (c_digits r 16 u upper).

Lemma fmt_integer_hex f r v upper : st_matches f r -> unsigned_ok r Cx (v mod two64) ->
  fmt_integer f (v mod two64) 16 false upper = c_hex r upper v.
Proof.
  intros Hst (Hg1 & Hg2 & Hg). cbv beta iota in Hg.
  rewrite (fmt_integer_unsigned f r v 16 upper (if r_sharp r then [48; if upper then 88 else 120] else [])
             (to_digits 16 (v mod two64) upper)); auto using to_digits_nonempty; try lia.
  - unfold c_hex, c_digits. destruct (r_sharp r); [|reflexivity].
    destruct (Hg eq_refl) as [N _]. apply Z.eqb_neq in N. rewrite N. reflexivity.
  - intros n. unfold sharp_of. destruct (r_sharp r); reflexivity.
  - destruct (r_sharp r); [|auto]. destruct (Hg eq_refl) as [_ Hx]. right. exact Hx.
  - intros _ E0. destruct (r_sharp r); [|reflexivity]. destruct (Hg eq_refl) as [N _]. contradiction.
Qed.

(* math/big's Format (used by sprintf for %d beyond int64) *)
Lemma rep_max0 n c : rep (Z.max 0 n) c = rep n c.
Proof. unfold rep. f_equal. lia. Qed.

Theorem big_format_signed f r v : st_matches f r -> v <> 0 ->
  big_format f v 10 false = c_signed r v.
Proof.
  intros (Hw & HwP & Hw0 & Hm & Hp & Hs & Hsp & Hz & Hpr & Hp0) Hv.
  unfold big_format, c_signed, c_digits. cbv zeta. change (10 =? 8) with false. change (10 =? 16) with false.
  rewrite (digits_of_to_digits 10 (Z.abs v) false) by lia. rewrite Hpr, Hm, Hp, Hsp, Hw.
  set (ds := to_digits 10 (Z.abs v) false).
  pose proof (to_digits_nonempty 10 (Z.abs v) false) as Hne. fold ds in Hne.
  change (if v <? 0 then [45] else if r_plus r then [43] else if r_space r then [32] else [])
    with (sign_of (v <? 0) (r_plus r) (r_space r)).
  set (sg := sign_of (v <? 0) (r_plus r) (r_space r)).
  replace (if fsharp f then [] else []) with (@nil Z) by (destruct (fsharp f); reflexivity).
  replace (v =? 0) with false by lia.
  replace (Z.abs v =? 0) with false by lia.
  rewrite !andb_false_r. cbn [andb app]. rewrite !padding_rep. change (zlen (@nil Z)) with 0. rewrite Z.add_0_r.
  (* fmt's test "shorter than the width" guards what is C's field in either case *)
  assert (G : forall body : bytes, widP f && (zlen sg + zlen body <? r_width r) = false -> r_width r <= zlen sg + zlen body).
  { intros body G. apply andb_false_iff in G as [G|G].
    - rewrite (HwP G). pose proof (zlen_nonneg sg). pose proof (zlen_nonneg body). lia.
    - apply Z.ltb_ge in G. exact G. }
  destruct (precP f) eqn:EP; cbn [andb negb].
  - replace (if zlen ds <? prec f then prec f - zlen ds else 0) with (Z.max 0 (prec f - zlen ds))
      by (destruct (Z.ltb_spec (zlen ds) (prec f)); lia).
    rewrite rep_max0, <- (zlen_rep _ 48), <- Z.add_assoc, <- zlen_app.
    rewrite <- (c_field_guard r false sg _ _ (G _)).
    destruct (widP f && _); [|reflexivity]. unfold c_field. rewrite !andb_false_r, <- !app_assoc.
    destruct (r_minus r); reflexivity.
  - rewrite (rep_nonpos (1 - zlen ds)), (rep_nonpos 0), Z.add_0_r by lia. cbn [app].
    rewrite <- (c_field_guard r true sg _ _ (G _)).
    destruct (widP f && _); [|reflexivity]. unfold c_field. rewrite !andb_true_r.
    destruct (r_minus r) eqn:EM; [|rewrite (Hz eq_refl)]; reflexivity.
Qed.

Theorem nf_format_nonfinite f r x verb : st_matches f r ->
  (match x with FFin _ _ => False | _ => True end) ->
  nf_format f x verb = c_nonfinite r x ((verb =? 69) || (verb =? 71) || (verb =? 88)).
Proof.
  intros (Hw & HwP & Hw0 & Hm & Hp & Hs & Hsp & Hz & Hpr & Hp0) Hx.
  unfold nf_format, c_nonfinite. rewrite Hm, Hp, Hsp, Hw.
  generalize ((verb =? 69) || (verb =? 71) || (verb =? 88)). intros up.
  assert (G : forall sg word : bytes,
    (if widP f && (r_width r >? zlen (sg ++ word))
     then if r_minus r then (sg ++ word) ++ padding (r_width r - zlen (sg ++ word)) 32
          else padding (r_width r - zlen (sg ++ word)) 32 ++ sg ++ word
     else sg ++ word)
    = c_field r false sg word).
  { intros sg word. rewrite <- (c_field_guard r false sg word (widP f && (r_width r >? zlen (sg ++ word)))).
    - destruct (widP f && _); [|reflexivity]. unfold c_field.
      rewrite !padding_rep, andb_false_r, zlen_app, <- app_assoc. reflexivity.
    - intros G. rewrite <- zlen_app. apply andb_false_iff in G as [G|G].
      + rewrite (HwP G). apply zlen_nonneg.
      + rewrite Z.gtb_ltb in G. apply Z.ltb_ge in G. exact G. }
  destruct x as [|neg|m e]; [| |contradiction]; apply G.
Qed.
