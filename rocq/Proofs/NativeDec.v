(* C17: z_to_dec (strconv.FormatInt(z, 10), the string form of an integral AWK number) really
   is the decimal numeral of z. *)
From Verif Require Import Lib.Base Lib.Dyadic Model.Native.

Fixpoint dec_val_acc (acc : Z) (l : bytes) : Z :=
  match l with [] => acc | d :: r => dec_val_acc (acc * 10 + (d - 48)) r end.

(* the integer a numeral denotes: optional '-' then digits *)
Definition dec_value (l : bytes) : Z :=
  match l with 45 :: r => - dec_val_acc 0 r | _ => dec_val_acc 0 l end.

Definition is_digit (d : Z) : Prop := 48 <= d <= 57.

Lemma dec_val_acc_app l1 : forall a l2, dec_val_acc a (l1 ++ l2) = dec_val_acc (dec_val_acc a l1) l2.
Proof. induction l1 as [|d l1 IH]; intros a l2; cbn [app dec_val_acc]; [reflexivity|apply IH]. Qed.

Lemma dec_digits_spec : forall fuel z acc,
  0 <= z < 10 ^ Z.of_nat fuel -> (1 <= fuel)%nat ->
  exists ds, dec_digits fuel z acc = ds ++ acc /\ ds <> [] /\ Forall is_digit ds /\ dec_val_acc 0 ds = z.
Proof.
  induction fuel as [|f IH]; intros z acc Hz Hf; [lia|].
  cbn [dec_digits]. destruct (Z.ltb_spec z 10) as [E|E].
  - exists [48 + z mod 10]. rewrite Z.mod_small by lia. repeat split.
    + discriminate.
    + constructor; [unfold is_digit; lia|constructor].
    + cbn [dec_val_acc]. lia.
  - assert (Hf1 : (1 <= f)%nat).
    { destruct f; [|lia]. change (10 ^ Z.of_nat 1) with 10 in Hz. lia. }
    assert (Hq : 0 <= z / 10 < 10 ^ Z.of_nat f).
    { split; [apply Z.div_pos; lia|]. apply Z.div_lt_upper_bound; [lia|].
      replace (Z.of_nat (S f)) with (Z.of_nat f + 1) in Hz by lia.
      rewrite Z.pow_add_r in Hz by lia. lia. }
    destruct (IH (z / 10) ((48 + z mod 10) :: acc) Hq Hf1) as (ds & E1 & Hne & Hd & Hv).
    exists (ds ++ [48 + z mod 10]). rewrite E1, <- app_assoc. repeat split.
    + destruct ds; discriminate.
    + apply Forall_app. split; [exact Hd|]. constructor; [|constructor].
      unfold is_digit. pose proof (Z.mod_pos_bound z 10). lia.
    + rewrite dec_val_acc_app, Hv. cbn [dec_val_acc]. pose proof (Z.div_mod z 10). lia.
Qed.

Lemma dec_digits_20 z : 0 <= z < 10 ^ 20 ->
  dec_digits 20 z [] <> [] /\ Forall is_digit (dec_digits 20 z []) /\ dec_val_acc 0 (dec_digits 20 z []) = z.
Proof.
  intros H. destruct (dec_digits_spec 20 z []) as (ds & -> & Hne & Hd & Hv); [exact H|lia|].
  rewrite app_nil_r. repeat split; assumption.
Qed.

Lemma digit_cases d : is_digit d ->
  d = 48 \/ d = 49 \/ d = 50 \/ d = 51 \/ d = 52 \/ d = 53 \/ d = 54 \/ d = 55 \/ d = 56 \/ d = 57.
Proof. unfold is_digit. lia. Qed.

Theorem z_to_dec_value z : Z.abs z < 10 ^ 20 -> dec_value (z_to_dec z) = z.
Proof.
  intros H. unfold z_to_dec. destruct (Z.ltb_spec z 0) as [E|E].
  - destruct (dec_digits_20 (- z)) as (_ & _ & Hv); [lia|].
    cbn [dec_value]. rewrite Hv. lia.
  - destruct (dec_digits_20 z) as (Hne & Hd & Hv); [lia|].
    destruct (dec_digits 20 z []) as [|d ds]; [congruence|].
    unfold dec_value. pose proof (digit_cases d (Forall_inv Hd)) as C.
    repeat destruct C as [->|C]; try subst d; exact Hv.
Qed.

Theorem z_to_dec_digits z : Z.abs z < 10 ^ 20 ->
  match z_to_dec z with
  | 45 :: r => z < 0 /\ r <> [] /\ Forall is_digit r
  | l => 0 <= z /\ l <> [] /\ Forall is_digit l
  end.
Proof.
  intros H. unfold z_to_dec. destruct (Z.ltb_spec z 0) as [E|E].
  - destruct (dec_digits_20 (- z)) as (Hne & Hd & _); [lia|]. repeat split; assumption.
  - destruct (dec_digits_20 z) as (Hne & Hd & _); [lia|].
    destruct (dec_digits 20 z []) as [|d ds]; [congruence|].
    pose proof (digit_cases d (Forall_inv Hd)) as C.
    repeat destruct C as [->|C]; subst; repeat split; assumption.
Qed.
