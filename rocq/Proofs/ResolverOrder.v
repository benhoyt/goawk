(* C16: the result depends neither on the order of the top-level items nor on
   the order in which names are gone through: the accepted types are the least
   solution of the constraint system, so accepted runs on corresponding
   constraint systems give corresponding types. *)
From Verif Require Import Lib.Base Model.Resolver Proofs.Resolver Proofs.ResolverSound Proofs.ResolverExact.
From Coq Require Import Permutation.
Open Scope Z_scope.

Lemma accepted_rho P s F k :
  accepted_by P s F -> rho_of (fin_types F) k = isarr (kty (st_vars s) k).
Proof. intros [-> [[Hi _] _]]. rewrite fin_types_finalize. apply (rho_defaulted P). exact Hi. Qed.

(* an array in the result is an array in every solution *)
Lemma accepted_array_forced P s F k :
  accepted_by P s F -> rho_of (fin_types F) k = true ->
  forall rho, solution P rho -> rho k = true.
Proof.
  intros Hacc Hk rho Hs. rewrite (accepted_rho P s F k Hacc) in Hk.
  destruct Hacc as [_ [[Hi Hf] _]].
  assert (Hkt : kty (st_vars s) k = TArray) by (destruct (kty (st_vars s) k); cbn in Hk; congruence).
  rewrite (forced_kty P _ rho k Hi Hf Hs); rewrite Hkt; [reflexivity | discriminate].
Qed.

Lemma holds_ext rho rho' c : (forall k, rho k = rho' k) -> holds rho c -> holds rho' c.
Proof.
  intros He. destruct c as [k [| |]|k1 k2|k]; cbn [holds]; rewrite <- ?He; auto.
Qed.

Lemma solution_ext P rho rho' : (forall k, rho k = rho' k) -> solution P rho -> solution P rho'.
Proof. intros He Hs c Hc. eapply holds_ext; [exact He | apply Hs; exact Hc]. Qed.

(* Two accepted runs on programs whose constraint systems correspond under a
   bijection of the type variables (identity for a reordering, the renaming
   for a consistent renaming) give corresponding types. *)
Section Unique.
Variables P P' : program.
Variables phi psi : key -> key.
Hypothesis phi_psi : forall k', phi (psi k') = k'.
Hypothesis psi_phi : forall k, psi (phi k) = k.
Hypothesis Hequiv : forall rho, solution P rho <-> solution P' (fun k' => rho (psi k')).

Lemma equiv_back rho' : solution P' rho' <-> solution P (fun k => rho' (phi k)).
Proof.
  rewrite (Hequiv (fun k => rho' (phi k))). split; apply solution_ext; intros k; rewrite phi_psi; reflexivity.
Qed.

Lemma types_correspond cut cut' order order' F F' :
  names_ok P -> names_ok P' -> covers P order -> covers P' order' ->
  resolve_order cut order P = ROk F -> resolve_order cut' order' P' = ROk F' ->
  forall k, rho_of (fin_types F') (phi k) = rho_of (fin_types F) k.
Proof.
  intros Hne Hne' Hcov Hcov' H H'.
  assert (Hnd : NoDup (fnames P)) by (eapply resolve_order_nodup; [exact H | intros f; discriminate]).
  assert (Hnd' : NoDup (fnames P')) by (eapply resolve_order_nodup; [exact H' | intros f; discriminate]).
  destruct (resolve_order_ok P Hnd Hne cut order F H) as [s [Hacc Hpq]].
  destruct (resolve_order_ok P' Hnd' Hne' cut' order' F' H') as [s' [Hacc' Hpq']].
  pose proof (sound_state P s F Hacc (pass_quiet_all P Hnd s order Hcov Hpq)) as Hsol.
  pose proof (sound_state P' s' F' Hacc' (pass_quiet_all P' Hnd' s' order' Hcov' Hpq')) as Hsol'.
  intros k.
  destruct (rho_of (fin_types F) k) eqn:E.
  - (* array for P: forced in P; F' induces a solution of P *)
    apply equiv_back in Hsol'.
    apply (accepted_array_forced P s F k Hacc E _ Hsol').
  - destruct (rho_of (fin_types F') (phi k)) eqn:E'; [|reflexivity].
    (* array for P': forced in P'; F induces a solution of P' *)
    apply Hequiv in Hsol.
    pose proof (accepted_array_forced P' s' F' (phi k) Hacc' E' _ Hsol) as Hk. cbv beta in Hk.
    rewrite psi_phi in Hk. congruence.
Qed.

Lemma sat_correspond : sat P <-> sat P'.
Proof.
  split.
  - intros [rho Hs]. exists (fun k' => rho (psi k')). apply Hequiv. exact Hs.
  - intros [rho' Hs']. exists (fun k => rho' (phi k)). apply equiv_back. exact Hs'.
Qed.

Lemma verdict_correspond cut cut' order order' :
  wf P = true -> wf P' = true -> covers P order -> covers P' order' ->
  resolve_order cut order P <> RErr ETooManyIter -> resolve_order cut' order' P' <> RErr ETooManyIter ->
  ((exists F, resolve_order cut order P = ROk F) <-> (exists F', resolve_order cut' order' P' = ROk F')).
Proof.
  intros Hwf Hwf' Hcov Hcov' Hc Hc'.
  rewrite (resolve_order_exact cut order P Hwf Hcov Hc).
  rewrite (resolve_order_exact cut' order' P' Hwf' Hcov' Hc').
  apply sat_correspond.
Qed.

End Unique.

(* P' has the same functions in another order, and its BEGIN/action/END events
   in another order (reordering BEGIN blocks permutes blocks of events; the
   statement allows any permutation of the events) *)
Definition reordered (P P' : program) : Prop :=
  p_natives P = p_natives P' /\ Permutation (p_funcs P) (p_funcs P') /\ Permutation (p_main P) (p_main P').

Section Reorder.
Variables P P' : program.
Hypothesis Hre : reordered P P'.
Hypothesis Hnd : NoDup (fnames P).

Lemma reorder_fnames : Permutation (fnames P) (fnames P').
Proof. destruct Hre as [_ [H _]]. unfold fnames. apply Permutation_map. exact H. Qed.

Lemma reorder_nodup : NoDup (fnames P').
Proof. eapply Permutation_NoDup; [apply reorder_fnames | exact Hnd]. Qed.

Lemma reorder_find_func f i fd :
  find_func P f = Some (i, fd) -> exists i', find_func P' f = Some (i', fd).
Proof.
  intros H. destruct (find_func_In P f i fd H) as [Hin <-].
  apply find_func_of_In; [apply reorder_nodup|].
  destruct Hre as [_ [Hp _]]. eapply Permutation_in; eassumption.
Qed.

Lemma reorder_find_func_none f : find_func P f = None -> find_func P' f = None.
Proof.
  unfold find_func. intros H. apply find_func_from_none in H. apply find_func_from_none.
  intros Hin. apply H. eapply Permutation_in; [apply Permutation_sym; apply reorder_fnames | exact Hin].
Qed.

Lemma reorder_params_of f : params_of P' f = params_of P f.
Proof.
  unfold params_of. destruct (find_func P f) as [[i fd]|] eqn:E.
  - destruct (reorder_find_func f i fd E) as [i' E']. rewrite E'. reflexivity.
  - rewrite (reorder_find_func_none f E). reflexivity.
Qed.

Lemma mem_perm x l l' : Permutation l l' -> mem x l' = mem x l.
Proof.
  intros Hp. destruct (mem x l) eqn:E.
  - apply mem_In. apply mem_In in E. eapply Permutation_in; eassumption.
  - apply mem_not_In. apply mem_not_In in E. intros H. apply E.
    eapply Permutation_in; [apply Permutation_sym; exact Hp | exact H].
Qed.

Lemma reorder_is_func f : is_func P' f = is_func P f.
Proof. apply mem_perm, reorder_fnames. Qed.

(* the same function information, up to the index *)
Lemma reorder_func_info f :
  match func_info P f, func_info P' f with
  | Some fi, Some fi' => fi_native fi = fi_native fi' /\ fi_params fi = fi_params fi'
  | None, None => True
  | _, _ => False
  end.
Proof.
  unfold func_info. destruct Hre as [Hn _]. rewrite <- Hn.
  destruct (find_func P f) as [[i fd]|] eqn:E.
  - destruct (reorder_find_func f i fd E) as [i' E']. rewrite E'. cbn. auto.
  - rewrite (reorder_find_func_none f E).
    destruct (index_of f (sort_names (map n_name (p_natives P))) 0); cbn; auto.
Qed.

Lemma reorder_scope_key cur v : scope_key P' cur v = scope_key P cur v.
Proof. unfold scope_key. rewrite reorder_params_of. reflexivity. Qed.

Lemma reorder_constr_of_step cur st : constr_of_step P' cur st = constr_of_step P cur st.
Proof.
  destruct st as [v t|f nargs|f i|f i v]; cbn [constr_of_step]; rewrite ?reorder_scope_key; try reflexivity;
    pose proof (reorder_func_info f) as H;
    (destruct (func_info P f) as [fi|], (func_info P' f) as [fi'|]; try contradiction; [|reflexivity]);
    destruct H as [-> ->]; reflexivity.
Qed.

Lemma reorder_constraints : Permutation (constraints P) (constraints P').
Proof.
  destruct Hre as [_ [Hpf Hpm]]. unfold constraints, flat_events.
  assert (E : forall cur l, flat_map (constr_of_step P' cur) l = flat_map (constr_of_step P cur) l)
    by (intros cur l; apply flat_map_ext; intros st; apply reorder_constr_of_step).
  apply Permutation_app_head. apply Permutation_app.
  - rewrite (flat_map_ext _ _ (fun fd => E (f_name fd) (flat_map flat_event (f_body fd)))).
    apply Permutation_flat_map. exact Hpf.
  - rewrite E. apply Permutation_flat_map. apply Permutation_flat_map. exact Hpm.
Qed.

Lemma reorder_solution rho : solution P rho <-> solution P' rho.
Proof.
  pose proof reorder_constraints as Hp.
  split; intros H c Hc; apply H.
  - exact (Permutation_in c (Permutation_sym Hp) Hc).
  - exact (Permutation_in c Hp Hc).
Qed.

Lemma reorder_wf_step cur st : wf_step P' cur st = wf_step P cur st.
Proof.
  assert (Hg : forall v, global_ok P' cur v = global_ok P cur v).
  { intros v. unfold global_ok. rewrite reorder_params_of, reorder_is_func. reflexivity. }
  assert (Ha : forall f i, arg_ok P' f i = arg_ok P f i).
  { intros f i. unfold arg_ok. pose proof (reorder_func_info f) as H.
    destruct (func_info P f) as [fi|], (func_info P' f) as [fi'|]; try contradiction; [|reflexivity].
    destruct H as [-> ->]. reflexivity. }
  destruct st as [v t|f nargs|f i|f i v]; cbn [wf_step]; rewrite ?Hg, ?Ha; try reflexivity.
  rewrite reorder_params_of. pose proof (reorder_func_info f) as H. destruct Hre as [Hn _]. rewrite <- Hn.
  destruct (func_info P f) as [fi|], (func_info P' f) as [fi'|]; try contradiction; [|reflexivity].
  destruct H as [-> ->]. reflexivity.
Qed.

Lemma forallb_perm {A} (f g : A -> bool) l l' :
  (forall x, f x = g x) -> Permutation l l' -> forallb f l = true -> forallb g l' = true.
Proof.
  intros Hfg Hp H. apply forallb_forall. intros x Hx. rewrite <- Hfg.
  rewrite forallb_forall in H. apply H. eapply Permutation_in; [apply Permutation_sym; exact Hp | exact Hx].
Qed.

Lemma reorder_wf : wf P = true -> wf P' = true.
Proof.
  intros H. apply wf_spec. apply wf_spec in H. destruct H as [_ [Hne [[B1 [B2 B3]] [Hwf Hwm]]]].
  destruct Hre as [_ [Hpf Hpm]]. apply Permutation_sym in Hpf.
  split; [apply reorder_nodup|]. split; [|split; [|split]].
  - intros fd Hfd. apply Hne. eapply Permutation_in; eassumption.
  - rewrite !reorder_is_func. auto.
  - intros fd Hfd. generalize (Hwf fd (Permutation_in fd Hpf Hfd)).
    apply forallb_perm; [intros st; symmetry; apply reorder_wf_step | apply Permutation_refl].
  - revert Hwm. apply forallb_perm; [intros st; symmetry; apply reorder_wf_step|].
    apply Permutation_flat_map. exact Hpm.
Qed.

End Reorder.

(* ORDER INDEPENDENCE: reordering the top-level items (and any change of the map
   iteration order) changes neither the verdict nor the type of any variable;
   each program may have its own constant *)
Theorem reorder_independent cut cut' pi pi' P P' :
  perm_oracle pi -> perm_oracle pi' -> wf P = true -> reordered P P' ->
  resolve_cut cut pi P <> RErr ETooManyIter -> resolve_cut cut pi P <> RFuel ->
  resolve_cut cut' pi' P' <> RErr ETooManyIter -> resolve_cut cut' pi' P' <> RFuel ->
  ((exists F, resolve_cut cut pi P = ROk F) <-> (exists F', resolve_cut cut' pi' P' = ROk F')) /\
  (forall F F', resolve_cut cut pi P = ROk F -> resolve_cut cut' pi' P' = ROk F' ->
                forall k, rho_of (fin_types F') k = rho_of (fin_types F) k).
Proof.
  intros Hpi Hpi' Hwf Hre Hc Hf Hc' Hf'.
  destruct (proj1 (wf_spec P) Hwf) as [Hnd [Hne _]].
  pose proof (reorder_wf P P' Hre Hnd Hwf) as Hwf'.
  destruct (proj1 (wf_spec P') Hwf') as [Hnd' [Hne' _]].
  assert (Heq : forall rho, solution P rho <-> solution P' (fun k' => rho (id k'))).
  { intros rho. apply (reorder_solution P P' Hre Hnd). }
  split.
  - rewrite (resolve_exact cut pi P Hpi Hwf Hc Hf). rewrite (resolve_exact cut' pi' P' Hpi' Hwf' Hc' Hf').
    apply (sat_correspond P P' id id); [reflexivity | exact Heq].
  - intros F F' H H'. unfold resolve_cut in H, H'.
    rewrite (proj2 (first_dup_nil _) Hnd) in H. rewrite (proj2 (first_dup_nil _) Hnd') in H'.
    destruct (ordered_funcs pi P) as [order|] eqn:Eo; [|discriminate].
    destruct (ordered_funcs pi' P') as [order'|] eqn:Eo'; [|discriminate].
    apply (types_correspond P P' id id (fun k => eq_refl) (fun k => eq_refl) Heq cut cut' order order' F F' Hne Hne'
             (ordered_funcs_covers pi P order Hpi Eo) (ordered_funcs_covers pi' P' order' Hpi' Eo') H H').
Qed.
