(* C11: the theorems about whole runs (order of the main input, counters, exit), and the specification
   [plan_ops] of the operand walk equation by equation. *)
From Verif Require Import Lib.Base Model.Input Proofs.Input Proofs.InputHist Proofs.InputCtl.

Definition recs_of (l : list pev) : list (bytes * record) :=
  flat_map (fun p => match p with PRec f r => [(f, r)] | _ => [] end) l.

(* the (FILENAME, record) pairs nextLine handed out, oldest first *)
Definition delivered (l : list ev) : list (bytes * record) :=
  flat_map (fun v => match v with EvRec f r => [(f, r)] | _ => [] end) l.

Definition no_skip (l : list ev) : Prop := forall f rs, ~ In (EvSkip f rs) l.

Lemma recs_of_app a b : recs_of (a ++ b) = recs_of a ++ recs_of b.
Proof. unfold recs_of. apply flat_map_app. Qed.

Lemma recs_of_pev_no_skip : forall l, no_skip l -> recs_of (pev_of l) = delivered l.
Proof.
  induction l as [|v l IH]; intros H; [reflexivity|].
  assert (Hl : no_skip l) by (intros f rs Hin; apply (H f rs); right; exact Hin).
  change (pev_of (v :: l)) with (pev_of1 v ++ pev_of l). rewrite recs_of_app, IH by exact Hl.
  destruct v; cbn; try reflexivity. exfalso. eapply H. left. reflexivity.
Qed.

Section Main.
  Variable U : Type.
  Variable step : U -> st -> req * U.
  Variable enter : blk -> U -> U.
  Variable e : env.
  Variable G : U -> Prop.

  (* main_input_order / assign_operands_timing: for a program that leaves ARGV, ARGC and the stdin
     file alone, at the end of any run (normal, exit, or error) the main-input events of the history,
     followed by what the current state would still deliver, are the stream specified by the operand list *)
  Theorem main_input_order fuel rules has_end u a0 args sin u' s' :
    (forall u s, G u -> neutral (fst (step u s)) /\ G (snd (step u s))) ->
    (forall b u, G u -> G (enter b u)) -> G u ->
    exec_all U step enter e fuel rules has_end u (init_st a0 args sin) = FOk u' s' \/
    exec_all U step enter e fuel rules has_end u (init_st a0 args sin) = FErr u' s' ->
    pev_of (hist s') ++ plan e s' = plan_ops e args false sin.
  Proof.
    intros Hn He HG H.
    destruct (exec_all_advances U step enter e G Hn He fuel rules has_end u _ u' s' HG H) as [(new & HL & HP) _].
    unfold hist. rewrite HL. cbn [init_st log]. rewrite app_nil_r.
    rewrite HP. apply plan_init.
  Qed.

  (* if the main loop runs to the end of the input, its main-input events are exactly the plan of the
     state it started from; without nextfile the records delivered are exactly the records of the plan *)
  Theorem main_loop_complete fuel n rules flags u s u' s' fl' :
    (forall u s, G u -> neutral (fst (step u s)) /\ G (snd (step u s))) ->
    (forall b u, G u -> G (enter b u)) -> G u ->
    main_loop U step enter e fuel n rules flags u s = LCont u' s' fl' ->
    exists new, log s' = new ++ log s /\ pev_of (rev new) = plan e s /\
                (no_skip new -> delivered (rev new) = recs_of (plan e s)).
  Proof.
    intros Hn He HG H.
    destruct (main_loop_advances U step enter e G Hn He fuel n rules flags u s u' s' fl' HG H) as [(new & HL & HP) _].
    apply main_loop_end_record in H as (s0 & _ & HN & _). apply next_line_eof_plan in HN. rewrite HN, app_nil_r in HP.
    exists new. split; [exact HL|]. split; [exact HP|].
    intros Hs. rewrite <- HP. symmetry. apply recs_of_pev_no_skip.
    intros f rs Hin. apply (Hs f rs). apply in_rev. exact Hin.
  Qed.

  (* counters: NR, FNR, FILENAME, the exit status and the variables at the end of any run of any
     program are the fold of the history *)
  Theorem counters_of_history fuel rules has_end u a0 args sin u' s' :
    exec_all U step enter e fuel rules has_end u (init_st a0 args sin) = FOk u' s' \/
    exec_all U step enter e fuel rules has_end u (init_st a0 args sin) = FErr u' s' ->
    obs_of s' = fold_left (obs_ev e) (hist s') (0, 0, [], 0, []).
  Proof.
    intros H. destruct (exec_all_tracks U step enter e fuel rules has_end u _ u' s' H) as (new & HL & HO).
    unfold hist. rewrite HL. cbn [init_st log]. rewrite app_nil_r. exact HO.
  Qed.

  (* NR = NR0 + number of main-input records taken, over any stretch of execution that does not assign NR *)
  Theorem nr_counts_records fuel u s o u' s' :
    run U step e fuel u s = ROk o u' s' ->
    exists new, log s' = new ++ log s /\
      (forallb (fun v => negb (writes_nr v)) new = true -> NR s' = NR s + count_recs new).
  Proof. intros H. apply (run_tracks U step e) in H. apply tracks_nr_count in H. exact H. Qed.

  (* exit stops the block at once: nothing of the program runs after the exit statement *)
  Lemma run_exit_stops fuel u s n u' :
    step u s = (RDone (OExit n), u') ->
    exists s', run U step e (S fuel) u s = ROk (OExit n) u' s' /\
               status s' = match n with Some k => k | None => status s end /\ out s' = out s /\ NR s' = NR s.
  Proof.
    intros H. cbn [run]. rewrite H. destruct n as [k|]; eexists; (split; [reflexivity|]); sst; repeat split; reflexivity.
  Qed.
End Main.

(* FNR counts the records since the last file switch *)
Definition writes_fnr (v : ev) : bool :=
  match v with
  | EvSetFNR _ | EvSetFile _ => true
  | EvAssign n _ => negb (bytes_eqb n b_NR) && bytes_eqb n b_FNR
  | _ => false
  end.

Lemma fnr_fold_count : forall l x,
  forallb (fun v => negb (writes_fnr v)) l = true -> fold_left fnr_ev l x = x + count_recs l.
Proof.
  apply count_fold. intros x v Hv. destruct v; cbn [fnr_ev is_rec writes_fnr] in *; try lia; try discriminate.
  destruct (bytes_eqb name b_NR); [lia|]. cbn [negb andb] in Hv. rewrite Hv. lia.
Qed.

Lemma fnr_since_file_switch l1 name l2 x :
  forallb (fun v => negb (writes_fnr v)) l2 = true ->
  fold_left fnr_ev (l1 ++ EvSetFile name :: l2) x = count_recs l2.
Proof.
  intros H. rewrite fold_left_app. cbn [fold_left fnr_ev]. rewrite fnr_fold_count by exact H. lia.
Qed.

Lemma plan_ops_end e sin : plan_ops e [] false sin = PFile b_dash :: map (PRec b_dash) sin /\ plan_ops e [] true sin = [].
Proof. split; reflexivity. Qed.

Lemma plan_ops_empty e ops hd sin : plan_ops e ([] :: ops) hd sin = plan_ops e ops hd sin.
Proof. cbn [plan_ops parse_assign]. destruct (noargvars e); reflexivity. Qed.

Lemma plan_ops_assign e name ops hd sin v raw val :
  noargvars e = false -> parse_assign name = Some (v, raw) -> operand_value raw = Some val -> assign_ok v val = true ->
  plan_ops e (name :: ops) hd sin = PAssign v val :: plan_ops e ops hd sin.
Proof. intros H1 H2 H3 H4. cbn [plan_ops]. rewrite H1, H2, H3, H4. reflexivity. Qed.

Lemma plan_ops_dash e ops hd sin :
  plan_ops e (b_dash :: ops) hd sin = PFile b_dash :: map (PRec b_dash) sin ++ plan_ops e ops true [].
Proof. cbn [plan_ops]. destruct (noargvars e); reflexivity. Qed.

Lemma plan_ops_file e name ops hd sin recs :
  (if noargvars e then None else parse_assign name) = None -> name <> [] -> bytes_eqb name b_dash = false ->
  blookup (fs e) name = Some recs ->
  plan_ops e (name :: ops) hd sin = PFile name :: map (PRec name) recs ++ plan_ops e ops true sin.
Proof.
  intros H1 H2 H3 H4. cbn [plan_ops]. rewrite H1. destruct name; [contradiction|]. rewrite H3, H4. reflexivity.
Qed.

Lemma plan_ops_nofile e name ops hd sin :
  (if noargvars e then None else parse_assign name) = None -> name <> [] -> bytes_eqb name b_dash = false ->
  blookup (fs e) name = None ->
  plan_ops e (name :: ops) hd sin = PBad name :: plan_ops e ops hd sin.
Proof.
  intros H1 H2 H3 H4. cbn [plan_ops]. rewrite H1. destruct name; [contradiction|]. rewrite H3, H4. reflexivity.
Qed.

(* stdin iff no file operand: if every operand is empty or a (modelled) assignment, the stream is
   the assignments in order followed by standard input *)
Definition skipped_operand (e : env) (op : bytes) : Prop :=
  op = [] \/
  exists v raw val, noargvars e = false /\ parse_assign op = Some (v, raw) /\ operand_value raw = Some val /\ assign_ok v val = true.

Definition is_assign (p : pev) : Prop := match p with PAssign _ _ => True | _ => False end.

Lemma plan_ops_no_file_operand e : forall ops sin,
  Forall (skipped_operand e) ops ->
  exists assigns, Forall is_assign assigns /\
    plan_ops e ops false sin = assigns ++ PFile b_dash :: map (PRec b_dash) sin.
Proof.
  induction ops as [|op ops IH]; intros sin H.
  - exists []. split; [constructor|reflexivity].
  - inversion H as [|x l Hop Hops]; subst. destruct (IH sin Hops) as (assigns & HA & HP).
    destruct Hop as [->|(v & raw & val & H1 & H2 & H3 & H4)].
    + exists assigns. split; [exact HA|]. rewrite plan_ops_empty. exact HP.
    + exists (PAssign v val :: assigns). split; [constructor; [exact I|exact HA]|].
      rewrite (plan_ops_assign e op ops false sin v raw val H1 H2 H3 H4), HP. reflexivity.
Qed.
