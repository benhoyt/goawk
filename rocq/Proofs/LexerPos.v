(* C03: the position specification, the lexer-state invariants, and what
   [next] and [unread] do to them. *)
From Verif Require Import Lib.Base Lib.Utf8 Model.Lexer.
From Coq Require Import ZifyBool.
Open Scope Z_scope.

Ltac splits := repeat match goal with |- _ /\ _ => split end.

(* ---- total-correctness assertions on [lres] ---------------------------------------- *)
Definition okr {A} (Q : A -> Prop) (r : lres A) : Prop := exists a, r = LOk a /\ Q a.

Lemma okr_ret {A} (Q : A -> Prop) a : Q a -> okr Q (LOk a).
Proof. intro H; exists a; auto. Qed.

Lemma okr_bind {A B} (Q1 : A -> Prop) (Q2 : B -> Prop) r (f : A -> lres B) :
  okr Q1 r -> (forall a, Q1 a -> okr Q2 (f a)) -> okr Q2 (lbind r f).
Proof. intros (a & -> & Ha) Hf. cbn [lbind]. auto. Qed.

Lemma okr_weaken {A} (Q1 Q2 : A -> Prop) r : okr Q1 r -> (forall a, Q1 a -> Q2 a) -> okr Q2 r.
Proof. intros (a & -> & Ha) H. exists a; auto. Qed.

Lemma okr_if {A} (Q : A -> Prop) (c : bool) x y :
  (c = true -> okr Q x) -> (c = false -> okr Q y) -> okr Q (if c then x else y).
Proof. destruct c; auto. Qed.

(* ---- the character at an offset, 0 outside the source ------------------------------ *)
Definition getch (src : bytes) (k : Z) : Z := match index src k with Ok c => c | _ => 0 end.

Lemma getch_out src k : k < 0 \/ zlen src <= k -> getch src k = 0.
Proof.
  intros H. unfold getch, index.
  replace ((0 <=? k) && (k <? zlen src)) with false by lia. reflexivity.
Qed.

Lemma getch_index src k c : index src k = Ok c -> getch src k = c.
Proof. unfold getch; intros ->; reflexivity. Qed.

Lemma getch_nonzero src k : getch src k <> 0 -> index src k = Ok (getch src k) /\ 0 <= k < zlen src.
Proof.
  unfold getch. destruct (index src k) eqn:E; try congruence.
  intros _. split; [reflexivity|]. exact (proj1 (index_inv _ _ _ E)).
Qed.

(* ---- the specification, one byte at a time ----------------------------------------- *)
Definition adv (p : position) (c : Z) : position :=
  if c =? 10 then (fst p + 1, 1) else if c =? 13 then p else col_add p 1.

Lemma ztake_succ (src : bytes) k c : index src k = Ok c -> ztake (k + 1) src = ztake k src ++ [c].
Proof.
  intros H. pose proof (proj1 (index_inv _ _ _ H)) as R.
  unfold index in H. replace ((0 <=? k) && (k <? zlen src)) with true in H by lia.
  destruct (nth_error src (Z.to_nat k)) eqn:E; [|discriminate]. injection H as ->.
  unfold ztake. replace (Z.to_nat (k + 1)) with (S (Z.to_nat k)) by lia.
  generalize dependent (Z.to_nat k). clear R k.
  induction src as [|x s IH]; intros n E.
  - destruct n; discriminate.
  - destruct n as [|n]; cbn in *.
    + injection E as ->. reflexivity.
    + f_equal. apply IH; assumption.
Qed.

Lemma line_tail_snoc s c : line_tail (s ++ [c]) = if c =? 10 then [] else line_tail s ++ [c].
Proof. unfold line_tail. rewrite fold_left_app. reflexivity. Qed.

Lemma count_lf_snoc s c : count_lf (s ++ [c]) = count_lf s + (if c =? 10 then 1 else 0).
Proof.
  unfold count_lf. rewrite filter_app, zlen_app. cbn [filter].
  destruct (c =? 10); reflexivity.
Qed.

Lemma count_non_cr_snoc s c : count_non_cr (s ++ [c]) = count_non_cr s + (if c =? 13 then 0 else 1).
Proof.
  unfold count_non_cr. rewrite filter_app, zlen_app. cbn [filter].
  destruct (c =? 13); reflexivity.
Qed.

Lemma pos_of_offset_0 src : pos_of_offset src 0 = (1, 1).
Proof. reflexivity. Qed.

Lemma pos_of_offset_neg src k : k <= 0 -> pos_of_offset src k = (1, 1).
Proof. intros H. unfold pos_of_offset. rewrite ztake_neg by lia. reflexivity. Qed.

Lemma pos_of_offset_step src k c :
  index src k = Ok c -> pos_of_offset src (k + 1) = adv (pos_of_offset src k) c.
Proof.
  intros H. unfold pos_of_offset. rewrite (ztake_succ _ _ _ H).
  rewrite count_lf_snoc, line_tail_snoc. unfold adv, col_add. cbn [fst snd].
  destruct (c =? 10) eqn:E10.
  - f_equal. lia.
  - rewrite count_non_cr_snoc. destruct (c =? 13); f_equal; lia.
Qed.

Lemma pos_of_offset_ge1 src k : 1 <= fst (pos_of_offset src k) /\ 1 <= snd (pos_of_offset src k).
Proof.
  unfold pos_of_offset, count_lf, count_non_cr. cbn [fst snd].
  split; match goal with |- 1 <= 1 + zlen ?l => pose proof (zlen_nonneg l); lia end.
Qed.

Lemma pos_of_offset_sat src k : zlen src <= k -> pos_of_offset src k = pos_of_offset src (zlen src).
Proof.
  intros H. unfold pos_of_offset. rewrite (ztake_all k) by lia. rewrite (ztake_all (zlen src)) by lia. reflexivity.
Qed.

Section Inv.
Variable src : bytes.
Notation P := (pos_of_offset src).
Notation len := (zlen src).

(* bounds and current character: enough for "never panics, always terminates" *)
Definition W (l : lexer) : Prop :=
  0 <= offset l <= len + 1 /\ ch l = getch src (offset l - 1).

(* l.pos is the true position of the current byte (offset-1; offset-1 = len: the end of input)
   and l.nextPos the true position of the next one (the end-of-input position once past it) *)
Definition Norm (l : lexer) : Prop :=
  1 <= offset l /\ lpos l = P (offset l - 1) /\ npos l = P (offset l).

(* the end was reached without the extra step of offset (source empty, or ending in a NUL byte
   and next() called on it) *)
Definition EndS (l : lexer) : Prop :=
  offset l = len /\ ch l = 0 /\ lpos l = P len /\ npos l = P len.

Definition PosInv (l : lexer) : Prop := Norm l \/ EndS l.

Definition Inv (l : lexer) : Prop := W l /\ PosInv l.
Definition NormInv (l : lexer) : Prop := W l /\ Norm l.

Lemma NormInv_Inv l : NormInv l -> Inv l.
Proof. intros (Hw & Hn). split; [assumption|left; assumption]. Qed.

Lemma W_ch_nonzero l : W l -> ch l <> 0 -> 1 <= offset l <= len /\ index src (offset l - 1) = Ok (ch l).
Proof.
  intros (Hb & Hc) Hnz. rewrite Hc in Hnz. apply getch_nonzero in Hnz as (Hi & Hr).
  rewrite <- Hc in Hi. split; [lia|assumption].
Qed.

Lemma Inv_nonzero_NormInv l : Inv l -> ch l <> 0 -> NormInv l.
Proof.
  intros (Hw & Hp) Hnz. split; [assumption|].
  destruct Hp as [Hn|He]; [assumption|]. destruct He as (_ & Hz & _). congruence.
Qed.

(* whatever the state, l.pos is the position of some offset 0..len of the source *)
Lemma Inv_lpos_exists l : Inv l -> exists k, 0 <= k <= len /\ lpos l = P k.
Proof.
  intros ((Hb & Hc) & Hp). destruct Hp as [Hn|He].
  - destruct Hn as (H1 & Hl & _). exists (offset l - 1). split; [lia|assumption].
  - destruct He as (_ & _ & Hl & _). exists len. pose proof (zlen_nonneg src). split; [lia|assumption].
Qed.

Lemma Inv_W l : Inv l -> W l.
Proof. intros (H & _); exact H. Qed.

Lemma NormInv_W l : NormInv l -> W l.
Proof. intros (H & _); exact H. Qed.

Lemma NormInv_bounds l : NormInv l -> 1 <= offset l <= len + 1.
Proof. intros ((Hb & _) & H1 & _). lia. Qed.

Lemma NormInv_norm l : NormInv l -> Norm l.
Proof. intros (_ & H). exact H. Qed.

Lemma next_inv l :
  Inv l ->
  okr (fun l' => Inv l' /\ offset l <= offset l' <= offset l + 1 /\
                 (ch l <> 0 -> offset l' = offset l + 1) /\
                 hadSpace l' = hadSpace l /\ lastTok l' = lastTok l /\ lpos l' = npos l /\
                 (Norm l -> ch l <> 0 -> Norm l'))
      (next src l).
Proof.
  intros ((Hb & Hc) & Hp). unfold next.
  destruct (offset l >=? len) eqn:Ege.
  - destruct (ch l =? 0) eqn:Ez.
    + (* at the end with ch = 0: only l.pos := l.nextPos *)
      assert (Ech : ch l = 0) by lia.
      apply okr_ret. cbn [offset ch lpos npos hadSpace lastTok].
      splits; try lia; try reflexivity.
      * split; [split; cbn [offset ch]; assumption|].
        destruct Hp as [Hn|He].
        -- destruct Hn as (H1 & Hl & Hn).
           destruct (Z.eq_dec (offset l) len) as [Eo|Eo].
           ++ right. unfold EndS; cbn [offset ch lpos npos]. rewrite Eo in Hn. splits; try lia; assumption.
           ++ left. unfold Norm; cbn [offset lpos npos]. assert (Eo' : offset l = len + 1) by lia.
              rewrite Eo' in *. replace (len + 1 - 1) with len by lia.
              rewrite (pos_of_offset_sat src (len + 1)) in Hn by lia. splits; try lia; try assumption.
              rewrite (pos_of_offset_sat src (len + 1)) by lia. assumption.
        -- destruct He as (Eo & _ & Hl & Hn). right. unfold EndS; cbn [offset ch lpos npos].
           splits; try lia; assumption.
    + (* the end is loaded now *)
      assert (Hnz : ch l <> 0) by lia.
      pose proof (W_ch_nonzero l (conj Hb Hc) Hnz) as (Ho & Hi).
      assert (Eo : offset l = len) by lia.
      assert (HN : Norm (mkL (offset l + 1) 0 (npos l) (npos l) (hadSpace l) (lastTok l))).
      { destruct Hp as [Hn|He]; [|destruct He as (_ & Hz & _); congruence].
        destruct Hn as (H1 & Hl & Hn). unfold Norm; cbn [offset ch lpos npos].
        replace (offset l + 1 - 1) with (offset l) by lia.
        rewrite (pos_of_offset_sat src (offset l + 1)) by lia. rewrite Eo in *.
        splits; try lia; assumption. }
      apply okr_ret. cbn [offset ch lpos npos hadSpace lastTok].
      splits; try lia; auto.
      split; [split; cbn [offset ch]; [lia|rewrite getch_out; lia]|]. left. exact HN.
  - (* an ordinary byte *)
    destruct (index_ok src (offset l)) as (c & Hi & _); [lia|]. rewrite Hi. cbn [of_res lbind].
    assert (HN : Norm (mkL (offset l + 1) c (npos l)
                (if c =? 10 then (fst (npos l) + 1, 1) else if c =? 13 then npos l else col_add (npos l) 1)
                (hadSpace l) (lastTok l))).
    { assert (Hn : Norm l) by (destruct Hp as [Hn|He]; [assumption|destruct He as (Eo & _); lia]).
      destruct Hn as (H1 & Hl & Hn). unfold Norm; cbn [offset ch lpos npos].
      replace (offset l + 1 - 1) with (offset l) by lia.
      splits; try lia; [assumption|].
      rewrite (pos_of_offset_step _ _ _ Hi), <- Hn. reflexivity. }
    apply okr_ret. cbn [offset ch lpos npos hadSpace lastTok].
    splits; try lia; auto.
    split; [split; cbn [offset ch]; [lia|]|left; exact HN].
    replace (offset l + 1 - 1) with (offset l) by lia.
    symmetry; apply getch_index; assumption.
Qed.

Lemma next_norm l :
  NormInv l -> ch l <> 0 ->
  okr (fun l' => NormInv l' /\ offset l' = offset l + 1 /\ lpos l' = npos l /\ lastTok l' = lastTok l)
      (next src l).
Proof.
  intros Hn Hnz. pose proof (NormInv_Inv _ Hn) as Hi.
  destruct (next_inv l Hi) as (l' & E & Hi' & Ho & Ho1 & Hh & Ht & Hl & HN).
  exists l'. split; [assumption|]. specialize (Ho1 Hnz).
  splits; try assumption; try lia.
  split; [apply Hi'|]. apply HN; [apply Hn|assumption].
Qed.

End Inv.
