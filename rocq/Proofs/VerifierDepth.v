(* C02: [all_states Q k C ip stk m] says that Q holds of every machine state the first k dispatch
   steps of the run from (C, ip, stk, m) go through, including the runs of for-in bodies and of
   called functions (it follows the recursion of [VM.run] exactly). *)
From Verif Require Import Lib.Base Model.Ast Model.Instr Model.Compiler Model.Prims Model.VM.

Section Depth.
  Variables value St err : Type.
  Variable P : prims value St err.
  Variable F : list cfunc.

  Notation mstate := (mstate value St).
  Notation run := (run P F).
  Notation step := (step P F).

  Fixpoint all_states (Q : mstate -> Prop) (k : nat) (C : code) (ip : Z) (stk : list value) (m : mstate) : Prop :=
    Q m /\
    match k with
    | O => True
    | S f =>
      match step C ip stk m with
      | ANext ip' stk' m' => all_states Q f C ip' stk' m'
      | AStop _ => True
      | AForIn vsc vi keys body ipa stk0 m0 =>
          (fix loop (ks : list value) (stk : list value) (m : mstate) : Prop :=
             match ks with
             | [] => all_states Q f C ipa stk m
             | key :: ks' =>
                 match var_write P m vsc vi key with
                 | WStuck => True
                 | WErr _ m1 => Q m1
                 | WOk m1 =>
                     all_states Q f body 0 stk m1 /\
                     match run f body 0 stk m1 with
                     | VDone stk' m2 => loop ks' stk' m2
                     | VBrk stk' m2 => all_states Q f C ipa stk' m2
                     | _ => True
                     end
                 end
             end) keys stk0 m0
      | ACall fn m1 saved ipa stk0 =>
          all_states Q f (cf_body fn) 0 stk0 m1 /\
          match run f (cf_body fn) 0 stk0 m1 with
          | VDone stk' m2 =>
              match pop_n (Z.to_nat (cf_nscalars fn)) stk' [] with
              | Some (_, t) => all_states Q f C ipa (p_null P :: t) (restore P saved m2)
              | None => True
              end
          | VRet v stk' m2 =>
              match pop_n (Z.to_nat (cf_nscalars fn)) stk' [] with
              | Some (_, t) => all_states Q f C ipa (v :: t) (restore P saved m2)
              | None => True
              end
          | _ => True
          end
      end
    end.

End Depth.

Arguments all_states {value St err}.
