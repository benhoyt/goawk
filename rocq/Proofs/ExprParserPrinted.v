(* C04 — the general lemma: a writing that respects the table (fits) is read back by the parser
   model as exactly the tree that was written, at every position, in both towers. *)
From Verif Require Import Lib.Base Model.ExprAst Model.ExprParser Proofs.ExprParserMono Proofs.ExprParserRel Proofs.PrecSpec.
Local Open Scope nat_scope.

(* induction on trees with lists of sub-trees *)
Section ExprInd.
  Variable P : expr -> Prop.
  Definition optP (o : option expr) : Prop := match o with Some x => P x | None => True end.
  Hypothesis HNum : forall s, P (ENum s).
  Hypothesis HStr : forall s, P (EStr s).
  Hypothesis HStrRegex : forall s, P (EStrRegex s).
  Hypothesis HRegex : forall s, P (ERegex s).
  Hypothesis HField : forall i, P i -> P (EField i).
  Hypothesis HNamedField : forall i, P i -> P (ENamedField i).
  Hypothesis HVar : forall s, P (EVar s).
  Hypothesis HIndex : forall a idx, Forall P idx -> P (EIndex a idx).
  Hypothesis HIn : forall idx a, Forall P idx -> P (EIn idx a).
  Hypothesis HUnary : forall op v, P v -> P (EUnary op v).
  Hypothesis HBinary : forall op l r, P l -> P r -> P (EBinary op l r).
  Hypothesis HCond : forall c t f, P c -> P t -> P f -> P (ECond c t f).
  Hypothesis HAssign : forall l r, P l -> P r -> P (EAssign l r).
  Hypothesis HAugAssign : forall op l r, P l -> P r -> P (EAugAssign op l r).
  Hypothesis HIncr : forall op pre x, P x -> P (EIncr op pre x).
  Hypothesis HCall : forall f args, Forall P args -> P (ECall f args).
  Hypothesis HUserCall : forall n args, Forall P args -> P (EUserCall n args).
  Hypothesis HMulti : forall es, Forall P es -> P (EMulti es).
  Hypothesis HGetline : forall c t f, optP c -> optP t -> optP f -> P (EGetline c t f).
  Hypothesis HGroup : forall x, P x -> P (EGroup x).

  Fixpoint expr_ind' (e : expr) : P e :=
    let all := fix all (l : list expr) : Forall P l :=
      match l with [] => Forall_nil P | x :: r => Forall_cons x (expr_ind' x) (all r) end in
    let opt := fun (o : option expr) => match o return optP o with Some x => expr_ind' x | None => I end in
    match e with
    | ENum s => HNum s | EStr s => HStr s | EStrRegex s => HStrRegex s | ERegex s => HRegex s
    | EField i => HField i (expr_ind' i)
    | ENamedField i => HNamedField i (expr_ind' i)
    | EVar s => HVar s
    | EIndex a idx => HIndex a idx (all idx)
    | EIn idx a => HIn idx a (all idx)
    | EUnary op v => HUnary op v (expr_ind' v)
    | EBinary op l r => HBinary op l r (expr_ind' l) (expr_ind' r)
    | ECond c t f => HCond c t f (expr_ind' c) (expr_ind' t) (expr_ind' f)
    | EAssign l r => HAssign l r (expr_ind' l) (expr_ind' r)
    | EAugAssign op l r => HAugAssign op l r (expr_ind' l) (expr_ind' r)
    | EIncr op pre x => HIncr op pre x (expr_ind' x)
    | ECall f args => HCall f args (all args)
    | EUserCall n args => HUserCall n args (all args)
    | EMulti es => HMulti es (all es)
    | EGetline c t f => HGetline c t f (opt c) (opt t) (opt f)
    | EGroup x => HGroup x (expr_ind' x)
    end.
End ExprInd.

Lemma okn_zero e : forall pc, okn pc e 0 0 = true.
Proof.
  induction e using expr_ind'; intros pc; cbn [okn]; try reflexivity;
    try (destruct pc; reflexivity); try (rewrite ?IHe, ?IHe2, ?IHe3; destruct pc; reflexivity).
  - destruct op; rewrite IHe2; destruct pc; reflexivity.
  - destruct pre; [apply IHe | reflexivity].
  - destruct f as [f|]; [apply H1|]. destruct t as [t|]; [cbn in H0; rewrite H0|]; reflexivity.
Qed.

Lemma ok_zero pc e t : tok_cont false t = 0 -> ok pc e t = true.
Proof.
  intros H. unfold ok. rewrite H.
  assert (Ht : tok_cont true t = 0) by (pose proof (tok_cont_true_le t); lia).
  rewrite Ht. apply okn_zero.
Qed.

Lemma fits_mono pc k k' e : fits pc k e -> k' <= k -> fits pc k' e.
Proof.
  intros H Hk. destruct e; cbn [fits] in *; try exact H.
  - destruct idx as [|x [|y r]]; try exact H. destruct H as (H1 & H2); split; [lia | exact H2].
  - destruct op; (destruct H as (H1 & H2); split; [lia | exact H2]).
  - destruct H as (H1 & H2); split; [lia | exact H2].
  - destruct H as (H1 & H2); split; [lia | exact H2].
  - destruct H as (H1 & H2); split; [lia | exact H2].
  - destruct pre; [exact H|].
    destruct e; try exact H; [lia | destruct H as (H1 & H2); split; [lia | exact H2]].
Qed.

(* the rank of the level function that creates the node *)
Definition nat_rk (e : expr) : nat :=
  match e with
  | EBinary op _ _ =>
      match op with
      | BOr => 3 | BAnd => 4 | BMatch | BNotMatch => 6 | BConcat => 8 | BAdd | BSub => 9
      | BMul | BDiv | BMod => 10 | BPow => 11 | _ => 7
      end
  | ECond _ _ _ => 2
  | EAssign _ _ | EAugAssign _ _ _ => 0
  | EIn [_] _ => 5
  | EIncr _ false (EField _) => 13
  | EIncr _ false _ => 12
  | _ => 13
  end.

Lemma fits_nat pc k e : k <= 13 -> fits pc k e -> k <= nat_rk e.
Proof.
  intros Hk H. destruct e; cbn [fits nat_rk] in *; try lia; try contradiction.
  all: try solve [destruct idx as [|x [|y r]]; try lia; destruct H; lia].
  all: try solve [destruct op; destruct H as (H & _); lia].
  all: try solve [destruct pre; [lia|]; destruct e; try lia; try contradiction; intuition lia].
Qed.

Definition loop_rank (j : nat) : Prop := j = 3 \/ j = 4 \/ j = 5 \/ j = 8 \/ j = 9 \/ j = 10.

(* when a node is complete the level that creates it has just returned, or, for a left-associative
   loop level, the next higher one, which read the right operand *)
Lemma ret_rank e :
  nat_rk e <= rk (ret_lvl e) /\ (loop_rank (nat_rk e) -> rk (ret_lvl e) = nat_rk e + 1).
Proof.
  unfold loop_rank. destruct e; cbn; try lia.
  - destruct idx as [|x [|y r]]; cbn; lia.
  - destruct op; cbn; lia.
  - destruct pre; cbn; try lia. destruct e; cbn; lia.
Qed.

Lemma fits_ret_left pc j l : fits pc j l -> loop_rank j -> j + 1 <= rk (ret_lvl l).
Proof.
  intros H Hj. apply fits_nat in H; [|unfold loop_rank in Hj; lia]. destruct (ret_rank l) as [Hn Hl].
  destruct (Nat.eq_dec (nat_rk l) j) as [E|E]; [|lia].
  rewrite Hl; [lia | rewrite E; exact Hj].
Qed.

Lemma fits_ret pc k e : k <= 13 -> fits pc k e -> k <= rk (ret_lvl e).
Proof. intros Hk H. apply fits_nat in H; [|lia]. pose proof (proj1 (ret_rank e)). lia. Qed.

Lemma rk_le13 l : rk l <= 13.
Proof. destruct l; cbn; lia. Qed.

Lemma fits_prim pc e : fits pc 13 e -> ret_lvl e = LPrimary.
Proof.
  intros H. apply rk_inj. apply fits_ret in H; [|lia]. pose proof (rk_le13 (ret_lvl e)). cbn [rk]. lia.
Qed.

Lemma ret_not_getline e : ret_lvl e <> LGetline.
Proof.
  destruct e; cbn; try congruence.
  - destruct idx as [|x [|y r]]; congruence.
  - destruct op; congruence.
  - destruct pre; try congruence. destruct e; congruence.
Qed.

(* a writing starts with a token that can only start an operand *)
Definition is_start (t : tok) : bool :=
  match t with
  | TNumber _ | TString _ | TRegex _ | TName _ | TDollar | TNot | TAdd | TSub | TIncr | TDecr
  | TLParen _ | TFunc _ | TGetline | TAt => true
  | _ => false
  end.

Lemma hd_tok_app ts rest : is_start (hd_tok ts) = true -> hd_tok (ts ++ rest) = hd_tok ts.
Proof. destruct ts; cbn; [discriminate | reflexivity]. Qed.

Lemma flat_start e : forall pc k, fits pc k e -> is_start (first_tok e) = true.
Proof.
  unfold first_tok.
  induction e using expr_ind'; intros pc k Hf; cbn [fits flat] in *; try reflexivity; try contradiction.
  - (* EIn *)
    destruct idx as [|x [|y r]]; try contradiction; [|reflexivity].
    destruct Hf as (_ & Hx & _). inversion H; subst.
    rewrite hd_tok_app; eauto.
  - destruct op; reflexivity.
  - (* EBinary *)
    assert (Hl : exists k', fits pc k' e1) by (destruct op; eexists; apply Hf).
    destruct Hl as [k' Hl]. rewrite hd_tok_app; eauto.
  - destruct Hf as (_ & Hc & _). rewrite hd_tok_app; eauto.
  - destruct Hf as (_ & _ & Hl & _). rewrite hd_tok_app; eauto.
  - destruct Hf as (_ & _ & Hl & _). rewrite hd_tok_app; eauto.
  - destruct pre; [destruct op; reflexivity|].
    destruct e; try contradiction; try reflexivity.
Qed.

Lemma start_cons ts : is_start (hd_tok ts) = true -> exists t r, ts = t :: r /\ is_start t = true.
Proof. destruct ts as [|t r]; cbn; [discriminate|]. eauto. Qed.

Lemma start_no_stop ts rest : is_start (hd_tok ts) = true -> exprlist_stop (ts ++ rest) = false.
Proof. intros H. apply start_cons in H as (t & r & -> & Ht). destruct t; cbn in *; congruence. Qed.

Lemma start_skip_nl ts rest : is_start (hd_tok ts) = true -> skip_nl (ts ++ rest) = ts ++ rest.
Proof. intros H. apply start_cons in H as (t & r & -> & Ht). destruct t; cbn in *; congruence. Qed.

Lemma optlv_var_pc pc s r : tok_cont pc (hd_tok r) <= 13 -> OptLv (TName s :: r) (Some (EVar s), r).
Proof.
  intros H. exists 1%nat. cbn [opt_lvalue].
  destruct r as [|t r']; [reflexivity|]. destruct t; try reflexivity; cbn in H; try lia.
  destruct sp; cbn in H; try lia; reflexivity.
Qed.

(* the statement proved by induction on e: level k, started on a writing of e that fits there, returns
   whatever the suffix code of the levels from the one that creates e down to k makes of e and the
   rest.  The suffix code is left open because an operator level goes on with a larger tree. *)
Definition M (e : expr) : Prop :=
  forall k pc rest R,
    fits pc (rk k) e -> ok pc e (hd_tok rest) = true -> (pc = true -> k <> LGetline) ->
    PF pc k (ret_lvl e) e rest R ->
    Parses k pc None (flat e ++ rest) R.

Lemma M_closed e : M e -> forall k pc rest,
  fits pc (rk k) e -> ok pc e (hd_tok rest) = true -> (pc = true -> k <> LGetline) ->
  tok_cont pc (hd_tok rest) <= rk k ->
  Parses k pc None (flat e ++ rest) (e, rest).
Proof.
  intros HM k pc rest Hf Hok Hpc Hc. apply HM; try assumption.
  apply pf_stops; [eapply fits_ret; [apply rk_le13 | exact Hf] | | exact Hc].
  intros Hp. split; [apply ret_not_getline | auto].
Qed.

(* an expression followed by a token that nothing consumes, where a whole expression is read *)
Lemma M_top e : M e -> forall pc rest, fits pc 0 e -> tok_cont false (hd_tok rest) = 0 ->
  Parses LExpr pc None (flat e ++ rest) (e, rest).
Proof.
  intros HM pc rest Hf Hz.
  apply (M_closed _ HM LExpr pc); [exact Hf | apply ok_zero; exact Hz | congruence |].
  pose proof (tok_cont_true_le (hd_tok rest)). destruct pc; lia.
Qed.

(* the left operand l of an operator is complete and the token t follows: every level from the one
   that returned l down to hi stops on t, and the level lo below hi consumes it *)
Lemma M_operand l : M l -> forall k pc lo hi t tail e1 ts1 R,
  lower pc hi = Some lo -> (pc = true -> hi <> LGetline) ->
  fits pc (rk k) l -> rk hi <= rk (ret_lvl l) -> (pc = true -> k <> LGetline) ->
  ok pc l t = true -> tok_cont pc t <= rk hi ->
  Afters lo pc l (t :: tail) (e1, ts1) -> PF pc k lo e1 ts1 R ->
  Parses k pc None (flat l ++ t :: tail) R.
Proof.
  intros Ml k pc lo hi t tail e1 ts1 R Hlo Hhi Hf Hr Hpc Hok Hc HA HF.
  apply Ml; try assumption.
  eapply pf_skip with (l1 := hi); [exact Hr | | exact Hc | eapply PF_step; eassumption].
  intros Hp. split; [apply ret_not_getline | auto].
Qed.

Lemma M_prim e : M e -> forall pc rest,
  fits pc 13 e -> ok pc e (hd_tok rest) = true -> Prim (flat e ++ rest) (e, rest).
Proof.
  intros HM pc rest Hf Hok. apply (prim_of_parses pc).
  apply HM; try assumption; try discriminate.
  rewrite (fits_prim _ _ Hf). apply PF_done.
Qed.

Definition tailc (es : list expr) : list tok := flat_map (fun x => TComma :: flat x) es.

Lemma commas_cons x r : commas flat (x :: r) = flat x ++ tailc r.
Proof.
  revert x. induction r as [|y r IH]; intros x; cbn [commas tailc flat_map].
  - rewrite app_nil_r. reflexivity.
  - f_equal. specialize (IH y). cbn [commas] in IH. cbn [app]. f_equal. exact IH.
Qed.

Lemma hd_tailc es c rest : hd_tok (tailc es ++ c :: rest) = match es with [] => c | _ => TComma end.
Proof. destruct es; reflexivity. Qed.

(* exprList in either tower; c is the token that stops it, which only the last element sees *)
Lemma exprlist_tail_pc pc c rest : exprlist_stop (c :: rest) = true -> tok_cont pc c = 0 ->
  forall es, Forall M es -> all_fit (fits pc 0) es ->
  (match es with [] => True | _ => ok pc (last es (ENum [])) c = true end) ->
  ExprList pc false (tailc es ++ c :: rest) (es, c :: rest).
Proof.
  intros Hstop Hc. induction es as [|x es IH]; intros HM Hf Hlast.
  - apply exprlist_nil. exact Hstop.
  - inversion HM as [|? ? Hx HMs]; subst. destruct Hf as [Hfx Hfs].
    cbn [tailc flat_map app]. rewrite <- app_assoc.
    pose proof (flat_start _ _ _ Hfx) as Hst.
    eapply exprlist_next; [|apply IH; try assumption].
    + rewrite start_skip_nl by exact Hst. fold (tailc es).
      destruct es as [|y es']; [|apply (M_top _ Hx); [exact Hfx | reflexivity]].
      apply (M_closed _ Hx LExpr pc); try assumption; [congruence | cbn; lia].
    + destruct es as [|y es']; [exact I | exact Hlast].
Qed.

Lemma exprlist_all_pc pc c rest : exprlist_stop (c :: rest) = true -> tok_cont pc c = 0 ->
  forall x es, Forall M (x :: es) -> all_fit (fits pc 0) (x :: es) ->
  ok pc (last (x :: es) (ENum [])) c = true ->
  ExprList pc true (commas flat (x :: es) ++ c :: rest) (x :: es, c :: rest).
Proof.
  intros Hstop Hc x es HM Hf Hlast.
  inversion HM as [|? ? Hx HMs]; subst. destruct Hf as [Hfx Hfs].
  rewrite commas_cons, <- app_assoc.
  pose proof (flat_start _ _ _ Hfx) as Hst.
  eapply exprlist_first; [apply start_no_stop; exact Hst | | apply exprlist_tail_pc; try assumption].
  - destruct es as [|y es']; [|apply (M_top _ Hx); [exact Hfx | reflexivity]].
    apply (M_closed _ Hx LExpr pc); try assumption; [congruence | cbn; lia].
  - destruct es as [|y es']; [exact I | exact Hlast].
Qed.

Lemma exprlist_all c rest : exprlist_stop (c :: rest) = true -> tok_cont false c = 0 ->
  forall x es, Forall M (x :: es) -> all_fit (fits false 0) (x :: es) ->
  ExprList false true (commas flat (x :: es) ++ c :: rest) (x :: es, c :: rest).
Proof. intros Hstop Hc x es HM Hf. apply exprlist_all_pc; try assumption. apply ok_zero. exact Hc. Qed.

Ltac ok_split H H1 H2 :=
  unfold ok in H; cbn [okn] in H; apply andb_prop in H as [H1 H2]; apply Nat.leb_le in H1; fold (ok) in *.

(* what the model says about a loop level and its operator *)
Lemma loop_of_spec op lj lh t : loop_of op = Some (lj, lh, t) ->
  (forall pc, lower pc lh = Some lj) /\ rk lh = rk lj + 1 /\ loop_rank (rk lj) /\
  (forall pc, tok_cont pc t = rk lh) /\ lh <> LGetline /\
  (forall pc k l r, fits pc k (EBinary op l r) ->
     k <= rk lj /\ fits pc (rk lj) l /\ ok pc l t = true /\ fits pc (rk lh) r) /\
  (forall pc l r t', ok pc (EBinary op l r) t' = true -> tok_cont pc t' <= rk lh /\ ok pc r t' = true) /\
  (forall l r, ret_lvl (EBinary op l r) = lh) /\
  (forall l r, flat (EBinary op l r) = flat l ++ t :: flat r).
Proof.
  intros Hop. destruct op; inversion Hop; subst; cbn [rk]; unfold loop_rank;
    repeat match goal with |- _ /\ _ => split end; try reflexivity; try lia; try congruence;
    try (intros pc k l r H; exact H).
  all: intros pc l r t' H; ok_split H H1 H2; (split; [destruct pc; exact H1 | exact H2]).
Qed.

(* left-associative loop levels with an operator token: || && + - * / % *)
Lemma M_loop op lj lh t l r : loop_of op = Some (lj, lh, t) -> M l -> M r -> M (EBinary op l r).
Proof.
  intros Hop Ml Mr k pc rest R Hf Ho Hpc HF.
  destruct (loop_of_spec _ _ _ _ Hop) as (Hlow & Hrk & Hloop & Hcont & Hng & Hfits & Hok & Hret & Hflat).
  apply Hfits in Hf as (Hk & Fl & Okl & Fr). apply Hok in Ho as (Hc & Okr).
  rewrite Hret in HF. rewrite Hflat, <- app_assoc. cbn [app].
  destruct (pf_inv _ _ _ _ _ _ HF ltac:(lia)) as (l' & e1 & ts1 & Hl' & HA & HF').
  rewrite Hlow in Hl'. injection Hl' as <-.
  eapply (M_operand l Ml k pc lj lh t); [apply Hlow | intros _; exact Hng | eapply fits_mono; [exact Fl | exact Hk]
    | rewrite Hrk; apply (fits_ret_left pc); assumption | exact Hpc | exact Okl | rewrite Hcont; lia | | exact HF'].
  pose proof (flat_start _ _ _ Fr) as Hst.
  eapply (aft_loop op); [exact Hop | apply start_skip_nl; exact Hst | | exact HA].
  apply (M_closed _ Mr); try assumption. intros _. exact Hng.
Qed.

Lemma M_concat l r : M l -> M r -> M (EBinary BConcat l r).
Proof.
  intros Ml Mr k pc rest R Hf Ho Hpc HF.
  cbn [fits] in Hf. destruct Hf as (Hk & Fl & Fr & Hcs & Hc9 & Okl).
  ok_split Ho Hc Okr. cbn [ret_lvl] in HF. cbn [flat binop_tok app]. rewrite <- app_assoc.
  destruct (pf_inv _ _ _ _ _ _ HF ltac:(cbn; lia)) as (l' & e1 & ts1 & Hl' & HA & HF').
  cbn in Hl'. injection Hl' as <-.
  (* the operator token is the first token t0 of the right operand *)
  pose proof (flat_start _ _ _ Fr) as Hst. destruct (start_cons _ Hst) as (t0 & r0 & Efl & _).
  unfold first_tok in Hcs, Hc9, Okl. rewrite Efl in Hcs, Hc9, Okl |- *. cbn [hd_tok app] in *.
  eapply (M_operand l Ml k pc LConcat LAdd t0); [reflexivity | congruence | eapply fits_mono; [exact Fl | exact Hk]
    | apply (fits_ret_left pc 8); [assumption | unfold loop_rank; lia] | exact Hpc | exact Okl | exact Hc9 | | exact HF'].
  eapply aft_loop_concat; [exact Hcs | | exact HA].
  change (t0 :: r0 ++ rest) with ((t0 :: r0) ++ rest). rewrite <- Efl.
  apply (M_closed _ Mr); try assumption; [congruence | destruct pc; exact Hc].
Qed.

Lemma M_in1 x a : M x -> M (EIn [x] a).
Proof.
  intros Mx k pc rest R Hf Ho Hpc HF.
  cbn [fits] in Hf. destruct Hf as (Hk & Fx & Okx).
  cbn [ret_lvl] in HF. cbn [flat]. rewrite <- app_assoc. cbn [app].
  destruct (pf_inv _ _ _ _ _ _ HF ltac:(cbn; lia)) as (l' & e1 & ts1 & Hl' & HA & HF').
  cbn in Hl'. injection Hl' as <-.
  eapply (M_operand x Mx k pc LIn LMatch TIn); [reflexivity | congruence | eapply fits_mono; [exact Fx | exact Hk]
    | apply (fits_ret_left pc 5); [assumption | unfold loop_rank; lia] | exact Hpc | exact Okx | cbn; lia | | exact HF'].
  apply aft_loop_in. exact HA.
Qed.

Lemma M_pow l r : M l -> M r -> M (EBinary BPow l r).
Proof.
  intros Ml Mr k pc rest R Hf Ho Hpc HF.
  cbn [fits] in Hf. destruct Hf as (Hk & Fl & Okl & Fr).
  ok_split Ho Hc Okr. cbn [ret_lvl] in HF. cbn [flat binop_tok app]. rewrite <- app_assoc. cbn [app].
  eapply (M_operand l Ml k pc LPow LPostIncr TPow); [reflexivity | congruence | eapply fits_mono; [exact Fl | lia]
    | eapply fits_ret; [cbn; lia | exact Fl] | exact Hpc | exact Okl | cbn; lia | | exact HF].
  apply aft_pow. apply (M_closed _ Mr); try assumption; [congruence | destruct pc; exact Hc].
Qed.

(* what the model says about a comparison operator; in the print tower > is not one *)
Lemma cmp_op_spec t op : cmp_op false t = Some op ->
  binop_tok op = [t] /\
  (forall pc, (pc = true -> op <> BGt) -> cmp_op pc t = Some op /\ tok_cont pc t = 8) /\
  (forall pc k l r, fits pc k (EBinary op l r) ->
     k <= 7 /\ (pc = true -> op <> BGt) /\ fits pc 8 l /\ ok pc l t = true /\ fits pc 8 r) /\
  (forall pc l r t', ok pc (EBinary op l r) t' = true -> tok_cont pc t' <= 8 /\ ok pc r t' = true) /\
  (forall l r, ret_lvl (EBinary op l r) = LCompare).
Proof.
  intros Hop. destruct t; try discriminate Hop; injection Hop as <-;
    repeat match goal with |- _ /\ _ => split end; try reflexivity;
    try (intros pc k l r H; exact H); try (intros pc H; split; destruct pc; try reflexivity; exfalso; apply H; reflexivity).
  all: intros pc l r t' H; ok_split H H1 H2; (split; [destruct pc; exact H1 | exact H2]).
Qed.

Lemma M_cmp op t l r : cmp_op false t = Some op -> M l -> M r -> M (EBinary op l r).
Proof.
  intros Hop Ml Mr k pc rest R Hf Ho Hpc HF.
  destruct (cmp_op_spec _ _ Hop) as (Htk & Hcmp & Hfits & Hok & Hret).
  apply Hfits in Hf as (Hk & Hgt & Fl & Okl & Fr). apply Hok in Ho as (Hc & Okr).
  destruct (Hcmp pc Hgt) as (Hcp & Hct).
  rewrite Hret in HF. cbn [flat]. rewrite Htk. cbn [app]. rewrite <- app_assoc. cbn [app].
  eapply (M_operand l Ml k pc LCompare LConcat t); [reflexivity | congruence | eapply fits_mono; [exact Fl | lia]
    | eapply fits_ret; [cbn; lia | exact Fl] | exact Hpc | exact Okl | rewrite Hct; cbn; lia | | exact HF].
  apply (aft_cmp pc l t op (flat r ++ rest) r rest Hcp).
  apply (M_closed _ Mr); try assumption. congruence.
Qed.

(* the right operand of ~ and !~ is a regex token or an expression that does not start like one *)
Lemma M_regex_operand r : M r -> forall pc rest,
  match r with EStrRegex _ => True | _ => fits pc 7 r /\ not_regex_start r end ->
  ok pc r (hd_tok rest) = true -> tok_cont pc (hd_tok rest) <= 7 ->
  RegexStr LCompare pc (flat r ++ rest) (r, rest).
Proof.
  intros Mr pc rest Fr Okr Hc.
  assert (Hr : (exists s, r = EStrRegex s) \/ fits pc 7 r /\ not_regex_start r) by (destruct r; eauto).
  destruct Hr as [(s & ->) | (Fr' & Hnr)]; [apply regex_str_lit|].
  apply regex_str_expr; [|apply (M_closed _ Mr); try assumption; congruence].
  pose proof (flat_start _ _ _ Fr') as Hst. destruct (start_cons _ Hst) as (t0 & r0 & E0 & _).
  unfold not_regex_start, first_tok in Hnr. rewrite E0 in Hnr |- *. cbn [app hd_tok] in *.
  destruct t0; try exact I; contradiction.
Qed.

Lemma M_match op t l r : (op = BMatch /\ t = TMatch \/ op = BNotMatch /\ t = TNotMatch) ->
  M l -> M r -> M (EBinary op l r).
Proof.
  intros Hop Ml Mr k pc rest R Hf Ho Hpc HF.
  destruct Hop as [[-> ->] | [-> ->]];
    cbn [fits] in Hf; destruct Hf as (Hk & Fl & Okl & Fr); ok_split Ho Hc Okr;
    cbn [ret_lvl] in HF; cbn [flat binop_tok app]; rewrite <- app_assoc; cbn [app];
    (eapply (M_operand l Ml k pc LMatch LCompare);
      [reflexivity | congruence | eapply fits_mono; [exact Fl | lia] | eapply fits_ret; [cbn; lia | exact Fl]
      | exact Hpc | exact Okl | cbn; lia | | exact HF]).
  - apply aft_match. apply (M_regex_operand r Mr); [exact Fr | exact Okr | destruct pc; exact Hc].
  - apply aft_notmatch. apply (M_regex_operand r Mr); [exact Fr | exact Okr | destruct pc; exact Hc].
Qed.

Lemma M_cond c t f : M c -> M t -> M f -> M (ECond c t f).
Proof.
  intros Mc Mt Mf k pc rest R Hf Ho Hpc HF.
  cbn [fits] in Hf. destruct Hf as (Hk & Fc & Okc & Ft & Ff).
  ok_split Ho Hc Okf. cbn [ret_lvl] in HF. cbn [flat]. rewrite <- app_assoc. cbn [app].
  eapply (M_operand c Mc k pc LCond LOr TQuestion); [reflexivity | congruence | eapply fits_mono; [exact Fc | lia]
    | eapply fits_ret; [cbn; lia | exact Fc] | exact Hpc | exact Okc | cbn; lia | | exact HF].
  pose proof (flat_start _ _ _ Ft) as Hst. pose proof (flat_start _ _ _ Ff) as Hsf.
  rewrite <- app_assoc. cbn [app].
  eapply aft_cond.
  - rewrite start_skip_nl by exact Hst. apply (M_top _ Mt); [exact Ft | reflexivity].
  - rewrite start_skip_nl by exact Hsf.
    apply (M_closed _ Mf LExpr pc); try assumption; try congruence.
    destruct pc; exact Hc.
Qed.

Lemma is_lvalue_ret l : is_lvalue l = true -> ret_lvl l = LPrimary.
Proof. destruct l; cbn; try discriminate; reflexivity. Qed.

Lemma ok_same_cont pc e t t' :
  tok_cont true t = tok_cont true t' -> tok_cont false t = tok_cont false t' -> ok pc e t = ok pc e t'.
Proof. unfold ok. intros -> ->. reflexivity. Qed.

Lemma M_assign_gen e l r t aop :
  flat e = flat l ++ t :: flat r -> e = make_assign l aop r ->
  (forall pc k, fits pc k e -> assign_op t = Some aop /\
     k = 0 /\ is_lvalue l = true /\ fits pc 1 l /\ ok pc l TAssign = true /\ fits pc 0 r) ->
  (forall pc t', ok pc e t' = true -> tok_cont pc t' <= 0 /\ ok pc r t' = true) ->
  ret_lvl e = LExpr ->
  M l -> M r -> M e.
Proof.
  intros Hfl He Hfits Hoks Hret Ml Mr k pc rest R Hf Ho Hpc HF.
  apply Hfits in Hf as (Hop & Hk & Hlv & Fl & Okl & Fr). apply Hoks in Ho as (Hc & Okr).
  assert (k = LExpr) by (destruct k; cbn in Hk; try lia; reflexivity). subst k.
  rewrite Hret in HF. apply pf_same in HF. subst R.
  rewrite Hfl, <- app_assoc. cbn [app].
  assert (Hct : forall pc', tok_cont pc' t = 1) by (intros pc'; destruct t; cbn in Hop; try discriminate; reflexivity).
  eapply (M_operand l Ml LExpr pc LExpr (higher pc LExpr) t);
    [destruct pc; reflexivity | intros ->; discriminate | eapply fits_mono; [exact Fl | cbn; lia]
    | rewrite (is_lvalue_ret _ Hlv); destruct pc; cbn; lia | exact Hpc
    | rewrite <- Okl; apply ok_same_cont; rewrite !Hct; reflexivity | rewrite Hct; destruct pc; cbn; lia | | apply PF_done].
  rewrite He. apply aft_assign; [exact Hop | exact Hlv |].
  apply (M_closed _ Mr LExpr); assumption.
Qed.

Lemma M_assign l r : M l -> M r -> M (EAssign l r).
Proof.
  apply (M_assign_gen (EAssign l r) l r TAssign AsgPlain); try reflexivity.
  - intros pc k H. split; [reflexivity | exact H].
  - intros pc t' H. ok_split H H1 H2. split; [destruct pc; exact H1 | exact H2].
Qed.

Lemma M_augassign op l r : M l -> M r -> M (EAugAssign op l r).
Proof.
  apply (M_assign_gen (EAugAssign op l r) l r (aug_tok op) (AsgAug op)); try reflexivity.
  - intros pc k H. cbn [fits] in H. intuition.
  - intros pc t' H. ok_split H H1 H2. split; [destruct pc; exact H1 | exact H2].
Qed.

Lemma M_of_prim e :
  ret_lvl e = LPrimary ->
  (forall pc k rest, fits pc k e -> ok pc e (hd_tok rest) = true -> Prim (flat e ++ rest) (e, rest)) ->
  M e.
Proof.
  intros Hret HP k pc rest R Hf Ho Hpc HF. rewrite Hret in HF.
  eapply parses_via; [apply parses_prim; eapply HP; eassumption | exact HF].
Qed.

Lemma M_num s : M (ENum s).
Proof. apply M_of_prim; [reflexivity|]. intros. apply prim_num. Qed.
Lemma M_str s : M (EStr s).
Proof. apply M_of_prim; [reflexivity|]. intros. apply prim_str. Qed.
Lemma M_regex s : M (ERegex s).
Proof. apply M_of_prim; [reflexivity|]. intros. apply prim_regex. Qed.

Lemma M_var s : M (EVar s).
Proof.
  apply M_of_prim; [reflexivity|]. intros pc k rest _ Ho.
  unfold ok in Ho. cbn [okn] in Ho. apply Nat.leb_le in Ho.
  apply (prim_var pc). destruct pc; exact Ho.
Qed.

Lemma M_unary op v : M v -> M (EUnary op v).
Proof.
  intros Mv. apply M_of_prim; [reflexivity|]. intros pc k rest Hf Ho.
  cbn [fits] in Hf. ok_split Ho Hc Okv. cbn [flat app].
  apply prim_unary. apply (M_closed _ Mv LPow false); try assumption; discriminate.
Qed.

Lemma M_group x : M x -> M (EGroup x).
Proof.
  intros Mx. apply M_of_prim; [reflexivity|]. intros pc k rest Hf _.
  cbn [fits] in Hf. cbn [flat app]. rewrite <- app_assoc. cbn [app].
  apply prim_group.
  apply (exprlist_all TRParen rest eq_refl eq_refl x []); [repeat constructor; exact Mx | split; [exact Hf | exact I]].
Qed.

Lemma M_field i : M i -> M (EField i).
Proof.
  intros Mi. apply M_of_prim; [reflexivity|]. intros pc k rest Hf Ho.
  cbn [fits] in Hf. ok_split Ho Hc Oki. cbn [flat app].
  apply prim_field; [|exact Hc]. apply (M_prim _ Mi false); assumption.
Qed.

Lemma M_index a idx : Forall M idx -> M (EIndex a idx).
Proof.
  intros Mi. apply M_of_prim; [reflexivity|]. intros pc k rest Hf _.
  cbn [fits] in Hf. destruct Hf as [Hne Hf]. destruct idx as [|x es]; [congruence|].
  cbn [flat app]. rewrite <- app_assoc. cbn [app].
  apply prim_index. apply exprlist_all; [reflexivity | reflexivity | exact Mi | exact Hf].
Qed.

Lemma M_in_multi x y es a : Forall M (x :: y :: es) -> M (EIn (x :: y :: es) a).
Proof.
  intros Mi. apply M_of_prim; [reflexivity|]. intros pc k rest Hf _.
  cbn [flat app]. rewrite <- app_assoc. cbn [app].
  apply prim_multi_in. apply exprlist_all; [reflexivity | reflexivity | exact Mi | exact Hf].
Qed.

(* userCall's loop: as exprList, with its own stop test *)
Lemma uargs_tail rest : forall es, Forall M es -> all_fit (fits false 0) es ->
  UArgs false (tailc es ++ TRParen :: rest) (es, TRParen :: rest).
Proof.
  induction es as [|x es IH]; intros HM Hf.
  - apply uargs_nil.
  - inversion HM as [|? ? Hx HMs]; subst. destruct Hf as [Hfx Hfs].
    cbn [tailc flat_map app]. rewrite <- app_assoc.
    pose proof (flat_start _ _ _ Hfx) as Hst.
    eapply uargs_next; [|apply IH; assumption].
    rewrite start_skip_nl by exact Hst. fold (tailc es).
    apply (M_top _ Hx); [exact Hfx | rewrite hd_tailc; destruct es; reflexivity].
Qed.

Lemma M_ucall n args : Forall M args -> M (EUserCall n args).
Proof.
  intros Ma. apply M_of_prim; [reflexivity|]. intros pc k rest Hf _.
  cbn [fits] in Hf. cbn [flat app]. rewrite <- app_assoc. cbn [app].
  apply prim_ucall. destruct args as [|x es]; [apply uargs_nil|].
  inversion Ma as [|? ? Hx HMs]; subst. destruct Hf as [Hfx Hfs].
  rewrite commas_cons, <- app_assoc.
  pose proof (flat_start _ _ _ Hfx) as Hst.
  eapply uargs_first; [| | apply uargs_tail; assumption].
  - destruct (start_cons _ Hst) as (t0 & r0 & -> & Ht0). cbn [app]. destruct t0; try exact I; discriminate.
  - apply (M_top _ Hx); [exact Hfx | rewrite hd_tailc; destruct es; reflexivity].
Qed.

(* on an lvalue, optionalLValue() does what primary() does *)
Lemma optlv_of_prim x rest : is_lvalue x = true ->
  Prim (flat x ++ rest) (x, rest) -> OptLv (flat x ++ rest) (Some x, rest).
Proof.
  intros Hlv [[|n] H]; [discriminate|]. exists (S n).
  destruct x; try discriminate; cbn [flat app] in *; cbn [primary opt_lvalue] in *.
  - (* $i *)
    destruct (primary n None (flat x ++ rest)) as [[i' r']| | |] eqn:E; cbn [pbind] in *; try discriminate.
    destruct r' as [|t r'']; [congruence|]. destruct t; try congruence.
  - (* variable *)
    destruct rest as [|t r']; [exact (f_equal _ eq_refl)|].
    destruct t; try reflexivity.
    + destruct (exprlist n false true r') as [[idx r2]| | |]; cbn [pbind] in *; try discriminate.
      destruct idx; try discriminate. destruct (expect_rbracket r2); cbn [pbind] in *; discriminate.
    + destruct sp; [reflexivity|].
      destruct (ucall_args n true r') as [[args r2]| | |]; cbn [pbind] in *; try discriminate.
      destruct (expect_rparen r2); cbn [pbind] in *; discriminate.
  - (* a[...] *)
    rewrite <- app_assoc in *. cbn [app] in *.
    destruct (exprlist n false true _) as [[idx' r2]| | |]; cbn [pbind] in *; try discriminate.
    destruct idx'; try discriminate. destruct (expect_rbracket r2); cbn [pbind] in *; congruence.
Qed.

Lemma M_preincr op x : M x -> M (EIncr op true x).
Proof.
  intros Mx. apply M_of_prim; [reflexivity|]. intros pc k rest Hf Ho.
  cbn [flat app]. apply prim_preincr.
  assert (Hlv : is_lvalue x = true) by (destruct x; cbn [fits] in Hf; try contradiction; reflexivity).
  apply optlv_of_prim; [exact Hlv|].
  apply (M_prim _ Mx pc).
  - destruct x; try discriminate; cbn [fits] in Hf |- *; exact Hf.
  - exact Ho.
Qed.

Lemma M_postincr_field op i : M i -> M (EIncr op false (EField i)).
Proof.
  intros Mi k pc rest R Hf Ho Hpc HF.
  cbn [fits] in Hf. destruct Hf as [Fi Oki]. cbn [ret_lvl] in HF.
  eapply parses_via; [|exact HF]. apply parses_prim.
  cbn [flat app]. rewrite <- app_assoc. cbn [app].
  apply prim_field_postincr.
  apply (M_prim _ Mi false); [exact Fi|].
  cbn [hd_tok]. rewrite <- Oki. apply ok_same_cont; destruct op; reflexivity.
Qed.

Lemma M_postincr_lv op x : (match x with EVar _ | EIndex _ _ => True | _ => False end) ->
  M x -> M (EIncr op false x).
Proof.
  intros Hx Mx k pc rest R Hf Ho Hpc HF.
  assert (Hlv : is_lvalue x = true) by (destruct x; try contradiction; reflexivity).
  assert (Hret : ret_lvl (EIncr op false x) = LPostIncr) by (destruct x; try contradiction; reflexivity).
  rewrite Hret in HF.
  cbn [flat]. rewrite <- app_assoc. cbn [app].
  apply Mx; try assumption.
  - destruct x; try contradiction; cbn [fits] in Hf |- *; [exact I | apply Hf].
  - destruct x; try contradiction; [|reflexivity]. destruct op, pc; reflexivity.
  - rewrite (is_lvalue_ret _ Hlv).
    eapply PF_step; [reflexivity | | exact HF].
    apply aft_postincr; [destruct op; auto | exact Hlv].
Qed.

(* postfix ++ / -- on $i is created by the primary() call that reads i, two constructors down *)
Definition M' (e : expr) : Prop := M e /\ match e with EField i => M i | _ => True end.

Lemma Forall_M' es : Forall M' es -> Forall M es.
Proof. intros H. eapply Forall_impl; [|exact H]. intros a [Ha _]. exact Ha. Qed.

Lemma M_unsupported e : (forall pc k, ~ fits pc k e) -> M e.
Proof. intros H k pc rest R Hf. exfalso. eapply H. exact Hf. Qed.

Theorem parse_printed_all : forall e, M' e.
Proof.
  (* a constructor that fits rejects outright needs no argument *)
  induction e using expr_ind'; (split; [|try exact I]);
    try (apply M_unsupported; intros pc k Hf; exact Hf).
  - apply M_num.
  - apply M_str.
  - apply M_regex.
  - apply M_field, IHe.
  - apply IHe.
  - apply M_var.
  - apply M_index, Forall_M'; assumption.
  - apply Forall_M' in H. destruct idx as [|x [|y es]].
    + apply M_unsupported; intros pc k Hf; exact Hf.
    + inversion H; subst. apply M_in1; assumption.
    + apply M_in_multi; assumption.
  - apply M_unary, IHe.
  - destruct IHe1 as [Ml _], IHe2 as [Mr _].
    destruct (loop_of op) as [[[lj lh] t]|] eqn:Hl; [exact (M_loop _ _ _ _ _ _ Hl Ml Mr)|].
    destruct op; try discriminate Hl.
    + apply M_pow; assumption.
    + apply (M_cmp BEq TEquals); auto.
    + apply (M_cmp BNe TNotEquals); auto.
    + apply (M_cmp BLt TLess); auto.
    + apply (M_cmp BLe TLte); auto.
    + apply (M_cmp BGt TGreater); auto.
    + apply (M_cmp BGe TGte); auto.
    + eapply M_match; eauto.
    + eapply M_match; eauto.
    + apply M_concat; assumption.
  - apply M_cond; [apply IHe1 | apply IHe2 | apply IHe3].
  - apply M_assign; [apply IHe1 | apply IHe2].
  - apply M_augassign; [apply IHe1 | apply IHe2].
  - destruct IHe as [Mx Mi]. destruct pre; [apply M_preincr; exact Mx|].
    destruct e; try (apply M_unsupported; intros pc k Hf; exact Hf).
    + apply M_postincr_field; exact Mi.
    + apply M_postincr_lv; [exact I | exact Mx].
    + apply M_postincr_lv; [exact I | exact Mx].
  - apply M_ucall, Forall_M'; assumption.
  - apply M_group, IHe.
Qed.

(* the general lemma of DESIGN §4 C04: a writing that respects the table, followed by a token that
   none of the still-open level functions consumes, is read back as exactly the tree written *)
Theorem parse_printed : forall e k pc rest,
  fits pc (rk k) e -> ok pc e (hd_tok rest) = true -> (pc = true -> k <> LGetline) ->
  tok_cont pc (hd_tok rest) <= rk k ->
  exists n0, forall n, n0 <= n -> p_lv n k pc None (flat e ++ rest) = POk (e, rest).
Proof.
  intros e k pc rest Hf Ho Hpc Hc. apply parses_all_fuel.
  exact (M_closed e (proj1 (parse_printed_all e)) k pc rest Hf Ho Hpc Hc).
Qed.
