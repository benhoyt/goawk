(* C05: the comparison part.  String order is a strict total order; the numeric
   order on non-NaN doubles is a total order; the twelve comparison sites of vm.go
   all compute one specification function; the six operators are functions of one
   three-way outcome, hence mutually consistent. *)
From Verif Require Import Lib.Base Lib.Dyadic Lib.Utf8 Model.Value.

Lemma bytes_cmp_refl a : bytes_cmp a a = Eq.
Proof. induction a as [|x a IH]; cbn [bytes_cmp]; [reflexivity|]. rewrite Z.compare_refl. exact IH. Qed.

Lemma bytes_cmp_eq a b : bytes_cmp a b = Eq <-> a = b.
Proof.
  split; [|intros ->; apply bytes_cmp_refl].
  revert b; induction a as [|x a IH]; intros [|y b]; cbn [bytes_cmp]; intro H; try reflexivity; try discriminate.
  destruct (Z.compare x y) eqn:E; try discriminate.
  apply Z.compare_eq in E. subst y. f_equal. apply IH. exact H.
Qed.

Lemma bytes_cmp_antisym a b : bytes_cmp b a = CompOpp (bytes_cmp a b).
Proof.
  revert b; induction a as [|x a IH]; intros [|y b]; cbn [bytes_cmp]; try reflexivity.
  rewrite (Z.compare_antisym x y). destruct (Z.compare x y); cbn [CompOpp]; try reflexivity. apply IH.
Qed.

Lemma bytes_cmp_lt_trans a b c : bytes_cmp a b = Lt -> bytes_cmp b c = Lt -> bytes_cmp a c = Lt.
Proof.
  revert b c; induction a as [|x a IH]; intros [|y b] [|z c]; cbn [bytes_cmp]; intros H1 H2;
    try reflexivity; try discriminate.
  destruct (Z.compare x y) eqn:E1; try discriminate; destruct (Z.compare y z) eqn:E2; try discriminate.
  - apply Z.compare_eq in E1, E2. subst. rewrite Z.compare_refl. eapply IH; eassumption.
  - apply Z.compare_eq in E1. subst. rewrite E2. reflexivity.
  - apply Z.compare_eq in E2. subst. rewrite E1. reflexivity.
  - pose proof (Z.lt_trans x y z E1 E2) as Hxz. unfold Z.lt in Hxz. rewrite Hxz. reflexivity.
Qed.

(* the order Go's < on strings denotes: first differing byte decides, a proper prefix is smaller *)
Inductive lex_lt : bytes -> bytes -> Prop :=
| lex_nil y b : lex_lt [] (y :: b)
| lex_head x y a b : x < y -> lex_lt (x :: a) (y :: b)
| lex_tail x a b : lex_lt a b -> lex_lt (x :: a) (x :: b).

Lemma s_lt_lex a b : s_lt a b = true <-> lex_lt a b.
Proof.
  unfold s_lt. split.
  - revert b; induction a as [|x a IH]; intros [|y b]; cbn [bytes_cmp]; intro H; try discriminate.
    + constructor.
    + destruct (Z.compare x y) eqn:E; try discriminate.
      * apply Z.compare_eq in E. subst. apply lex_tail. apply IH. exact H.
      * apply lex_head. exact E.
  - induction 1 as [y b|x y a b Hxy|x a b _ IH]; cbn [bytes_cmp].
    + reflexivity.
    + unfold Z.lt in Hxy. rewrite Hxy. reflexivity.
    + rewrite Z.compare_refl. exact IH.
Qed.

Theorem string_order_strict_total :
  (forall a, s_lt a a = false) /\
  (forall a b c, s_lt a b = true -> s_lt b c = true -> s_lt a c = true) /\
  (forall a b, (s_lt a b = true /\ a <> b /\ s_lt b a = false) \/
               (s_lt a b = false /\ a = b /\ s_lt b a = false) \/
               (s_lt a b = false /\ a <> b /\ s_lt b a = true)).
Proof.
  unfold s_lt. split; [|split].
  - intro a. rewrite bytes_cmp_refl. reflexivity.
  - intros a b c H1 H2.
    destruct (bytes_cmp a b) eqn:E1; try discriminate. destruct (bytes_cmp b c) eqn:E2; try discriminate.
    rewrite (bytes_cmp_lt_trans _ _ _ E1 E2). reflexivity.
  - intros a b. rewrite (bytes_cmp_antisym a b).
    destruct (bytes_cmp a b) eqn:E; cbn [CompOpp].
    + right; left. apply bytes_cmp_eq in E. auto.
    + left. repeat split; auto. intro Hab. apply bytes_cmp_eq in Hab. congruence.
    + right; right. repeat split; auto. intro Hab. apply bytes_cmp_eq in Hab. congruence.
Qed.

Lemma fin_cmp_antisym m1 e1 m2 e2 : fin_cmp m2 e2 m1 e1 = CompOpp (fin_cmp m1 e1 m2 e2).
Proof. unfold fin_cmp. rewrite (Z.min_comm e2 e1). apply Z.compare_antisym. Qed.

Definition is_nan (x : fnum) : bool := match x with FNaN => true | _ => false end.

(* the three-way outcome of comparing two doubles; None = unordered *)
Definition f_order (x y : fnum) : option comparison :=
  match x, y with
  | FNaN, _ | _, FNaN => None
  | FFin m1 e1, FFin m2 e2 => Some (fin_cmp m1 e1 m2 e2)
  | FInf a, FInf b => Some (if Bool.eqb a b then Eq else if a then Lt else Gt)
  | FInf a, FFin _ _ => Some (if a then Lt else Gt)
  | FFin _ _, FInf b => Some (if b then Gt else Lt)
  end.

Definition decide (op : cmpop) (o : option comparison) : bool :=
  match op, o with
  | ONe, None => true
  | _, None => false
  | OEq, Some Eq => true | OEq, Some _ => false
  | ONe, Some Eq => false | ONe, Some _ => true
  | OLt, Some Lt => true | OLt, Some _ => false
  | OGt, Some Gt => true | OGt, Some _ => false
  | OLe, Some Gt => false | OLe, Some _ => true
  | OGe, Some Lt => false | OGe, Some _ => true
  end.

Lemma num_cmp_decide op x y : num_cmp op x y = decide op (f_order x y).
Proof.
  destruct x as [|a|m1 e1], y as [|b|m2 e2]; destruct op; cbn [num_cmp f_order decide feq flt negb orb];
    try reflexivity;
    try (destruct a; reflexivity); try (destruct b; reflexivity);
    try (destruct a, b; reflexivity).
  all: try (rewrite (fin_cmp_antisym m1 e1 m2 e2)); destruct (fin_cmp m1 e1 m2 e2); reflexivity.
Qed.

Lemma f_order_some x y : is_nan x = false -> is_nan y = false -> exists c, f_order x y = Some c.
Proof. destruct x, y; cbn; intros; try discriminate; eauto. Qed.

Lemma f_order_swap x y : f_order y x = option_map CompOpp (f_order x y).
Proof.
  destruct x as [|a|m1 e1], y as [|b|m2 e2]; cbn [f_order option_map]; try reflexivity.
  - destruct a, b; reflexivity.
  - destruct a; reflexivity.
  - destruct b; reflexivity.
  - rewrite (fin_cmp_antisym m1 e1 m2 e2). reflexivity.
Qed.

Lemma str_cmp_decide op a b : str_cmp op a b = decide op (Some (bytes_cmp a b)).
Proof. destruct op; cbn [str_cmp decide]; destruct (bytes_cmp a b); reflexivity. Qed.

Lemma is_true_str_numeric v :
  is_true_str v = match numeric_operand v with Some x => (x, false) | None => (fzero, true) end.
Proof. destruct v as [|s|n|s]; cbn [is_true_str numeric_operand]; try reflexivity. destruct (parse_float s); reflexivity. Qed.

Definition rmap {A B} (f : A -> B) (r : res A) : res B :=
  match r with Ok a => Ok (f a) | Err m => Err m | Panic => Panic | Unmod => Unmod end.

(* the one shape of the twelve sites: the string comparison fs unless both operands are numbers,
   then the numeric comparison ff; k makes the result pushed (expression opcodes) or is the
   identity (fused jumps) *)
Definition site_gen {A} (k : bool -> A) (fs : bytes -> bytes -> bool) (ff : fnum -> fnum -> bool)
    (cf : bytes) (l r : value) : res A :=
  let '(ln, lIsStr) := is_true_str l in
  let '(rn, rIsStr) := is_true_str r in
  if lIsStr || rIsStr then do sl <- to_string cf l; do sr <- to_string cf r; Ok (k (fs sl sr))
  else Ok (k (ff ln rn)).

Definition s_op (op : cmpop) : bytes -> bytes -> bool :=
  match op with OEq => s_eq | ONe => s_ne | OLt => s_lt | OGt => s_gt | OLe => s_le | OGe => s_ge end.
Definition f_op (op : cmpop) : fnum -> fnum -> bool :=
  match op with OEq => f_eq | ONe => f_ne | OLt => f_lt | OGt => f_gt | OLe => f_le | OGe => f_ge end.

Lemma s_op_str_cmp op a b : s_op op a b = str_cmp op a b.
Proof. destruct op; unfold s_op, s_ne, s_le, s_ge, s_eq, s_lt, s_gt, str_cmp; destruct (bytes_cmp a b); reflexivity. Qed.

Lemma site_gen_spec {A} (k : bool -> A) op cf l r :
  site_gen k (s_op op) (f_op op) cf l r = rmap k (spec_cmp cf op l r).
Proof.
  unfold site_gen, spec_cmp, to_string. rewrite !is_true_str_numeric.
  destruct (numeric_operand l) as [x|], (numeric_operand r) as [y|]; cbn [orb rmap];
    [destruct op; reflexivity|..].
  all: destruct (v_str cf l) as [sl| | |]; cbn [rbind rmap]; try reflexivity.
  all: destruct (v_str cf r) as [sr| | |]; cbn [rbind rmap]; rewrite ?s_op_str_cmp; reflexivity.
Qed.

Lemma twelve_sites_agree cf op l r :
  expr_site op cf l r = rmap boolean (spec_cmp cf op l r) /\
  jump_site op cf l r = spec_cmp cf op l r.
Proof.
  split.
  - replace (expr_site op) with (site_gen boolean (s_op op) (f_op op)) by (destruct op; reflexivity).
    apply site_gen_spec.
  - replace (jump_site op) with (site_gen (fun b => b) (s_op op) (f_op op)) by (destruct op; reflexivity).
    rewrite site_gen_spec. destruct (spec_cmp cf op l r); reflexivity.
Qed.

Lemma numeric_operand_cases v :
  (exists x, numeric_operand v = Some x) <->
  (v = VNull \/ (exists n, v = VNum n) \/ (exists s f, v = VNumStr s /\ parse_float s = PFOk f)).
Proof.
  destruct v as [|s|n|s]; cbn [numeric_operand]; split.
  - intros _. left; reflexivity.
  - intros _. eauto.
  - intros [x Hx]. discriminate.
  - intros [H|[[n H]|[s' [f [H _]]]]]; discriminate.
  - intros _. right; left; eauto.
  - intros _. eauto.
  - intros [x Hx]. destruct (parse_float s) as [f| |] eqn:E; try discriminate. right; right; eauto.
  - intros [H|[[n H]|[s' [f [H Hp]]]]]; try discriminate. injection H as <-. rewrite Hp. eauto.
Qed.

(* the three-way outcome of a comparison of two values: numeric when both operands are
   numeric operands, else bytewise on the two string forms *)
Definition spec_order (cf : bytes) (l r : value) : res (option comparison) :=
  match numeric_operand l, numeric_operand r with
  | Some x, Some y => Ok (f_order x y)
  | _, _ => do sl <- v_str cf l; do sr <- v_str cf r; Ok (Some (bytes_cmp sl sr))
  end.

Lemma spec_cmp_order cf op l r : spec_cmp cf op l r = rmap (decide op) (spec_order cf l r).
Proof.
  unfold spec_cmp, spec_order.
  destruct (numeric_operand l) as [x|], (numeric_operand r) as [y|]; cbn [rmap];
    try (rewrite num_cmp_decide; reflexivity);
    destruct (v_str cf l) as [sl| | |]; cbn [rbind rmap]; try reflexivity;
    destruct (v_str cf r) as [sr| | |]; cbn [rbind rmap]; try reflexivity;
    rewrite str_cmp_decide; reflexivity.
Qed.

Lemma compare_mode cf op l r :
  (forall x y, numeric_operand l = Some x -> numeric_operand r = Some y ->
     jump_site op cf l r = Ok (num_cmp op x y)) /\
  (numeric_operand l = None \/ numeric_operand r = None ->
     jump_site op cf l r = do sl <- v_str cf l; do sr <- v_str cf r; Ok (str_cmp op sl sr)).
Proof.
  rewrite (proj2 (twelve_sites_agree cf op l r)). unfold spec_cmp. split.
  - intros x y -> ->. reflexivity.
  - intros [H|H]; rewrite H; [|destruct (numeric_operand l)]; reflexivity.
Qed.

(* a NaN takes part in the comparison as a number *)
Definition nan_operand (v : value) : Prop := numeric_operand v = Some FNaN.

Lemma spec_order_cases cf l r o :
  spec_order cf l r = Ok o ->
  (exists x y, numeric_operand l = Some x /\ numeric_operand r = Some y /\ o = f_order x y) \/
  (exists sl sr, (numeric_operand l = None \/ numeric_operand r = None) /\
     v_str cf l = Ok sl /\ v_str cf r = Ok sr /\ o = Some (bytes_cmp sl sr)).
Proof.
  unfold spec_order. intro H.
  destruct (numeric_operand l) as [x|], (numeric_operand r) as [y|];
    [left; injection H as <-; eauto|right..].
  all: destruct (v_str cf l) as [sl| | |]; cbn [rbind] in H; try discriminate.
  all: destruct (v_str cf r) as [sr| | |]; cbn [rbind] in H; try discriminate.
  all: injection H as <-; exists sl, sr; auto.
Qed.

Lemma spec_order_some cf l r o :
  ~ nan_operand l -> ~ nan_operand r -> spec_order cf l r = Ok o -> exists c, o = Some c.
Proof.
  unfold nan_operand. intros Hl Hr H.
  destruct (spec_order_cases cf l r o H) as [(x & y & El & Er & ->)|(sl & sr & _ & _ & _ & ->)]; [|eauto].
  apply f_order_some; [destruct x|destruct y]; try reflexivity; congruence.
Qed.

Lemma spec_order_swap cf l r o :
  spec_order cf l r = Ok o -> spec_order cf r l = Ok (option_map CompOpp o).
Proof.
  intro H. unfold spec_order.
  destruct (spec_order_cases cf l r o H) as [(x & y & -> & -> & ->)|(sl & sr & Hn & -> & -> & ->)].
  - rewrite f_order_swap. reflexivity.
  - cbn [rbind option_map]. rewrite (bytes_cmp_antisym sl sr).
    destruct Hn as [-> | ->]; [destruct (numeric_operand r)|]; reflexivity.
Qed.

Lemma site_outcome cf op l r o :
  spec_order cf l r = Ok o ->
  jump_site op cf l r = Ok (decide op o) /\ expr_site op cf l r = Ok (boolean (decide op o)).
Proof.
  intro H. destruct (twelve_sites_agree cf op l r) as [He Hj].
  rewrite He, Hj, spec_cmp_order, H. split; reflexivity.
Qed.

(* a fact about the opcodes: the fused jump of the opposite operator is the negation for
   == / != always, and for the ordering operators when no operand is NaN.  (It is why the
   compiler must not replace "not (a < b)" by the opposite jump: it does so only for == / !=.) *)
Definition inv_op (op : cmpop) : cmpop :=
  match op with OEq => ONe | ONe => OEq | OLt => OGe | OGe => OLt | OGt => OLe | OLe => OGt end.

Lemma decide_inv_op op o :
  op = OEq \/ op = ONe \/ o <> None -> decide (inv_op op) o = negb (decide op o).
Proof. intros [-> | [-> | H]]; destruct o as [[]|]; try reflexivity; try congruence; destruct op; reflexivity. Qed.

Lemma inverse_jump cf op l r o :
  op = OEq \/ op = ONe \/ o <> None -> spec_order cf l r = Ok o ->
  exists b, jump_site op cf l r = Ok b /\ jump_site (inv_op op) cf l r = Ok (negb b).
Proof.
  intros Hop H. exists (decide op o).
  rewrite (proj1 (site_outcome cf op l r o H)), (proj1 (site_outcome cf (inv_op op) l r o H)), (decide_inv_op op o Hop).
  split; reflexivity.
Qed.

Lemma inverse_jump_is_negation cf op l r o :
  ~ nan_operand l -> ~ nan_operand r -> spec_order cf l r = Ok o ->
  exists b, jump_site op cf l r = Ok b /\ jump_site (inv_op op) cf l r = Ok (negb b).
Proof.
  intros Hl Hr H. apply (inverse_jump cf op l r o); [|exact H].
  destruct (spec_order_some cf l r o Hl Hr H) as [c ->]. right; right. discriminate.
Qed.

Lemma ne_not_eq cf l r o :
  spec_order cf l r = Ok o ->
  exists b, jump_site OEq cf l r = Ok b /\ jump_site ONe cf l r = Ok (negb b).
Proof. exact (inverse_jump cf OEq l r o (or_introl eq_refl)). Qed.

Lemma le_not_gt cf l r o :
  ~ nan_operand l -> ~ nan_operand r -> spec_order cf l r = Ok o ->
  exists b, jump_site OGt cf l r = Ok b /\ jump_site OLe cf l r = Ok (negb b).
Proof. exact (inverse_jump_is_negation cf OGt l r o). Qed.

Lemma ge_not_lt cf l r o :
  ~ nan_operand l -> ~ nan_operand r -> spec_order cf l r = Ok o ->
  exists b, jump_site OLt cf l r = Ok b /\ jump_site OGe cf l r = Ok (negb b).
Proof. exact (inverse_jump_is_negation cf OLt l r o). Qed.

Lemma lt_gt_swap cf l r o :
  spec_order cf l r = Ok o ->
  exists b, jump_site OLt cf l r = Ok b /\ jump_site OGt cf r l = Ok b.
Proof.
  intro H. exists (decide OLt o).
  rewrite (proj1 (site_outcome cf OLt l r o H)).
  rewrite (proj1 (site_outcome cf OGt r l _ (spec_order_swap cf l r o H))).
  split; [reflexivity|]. destruct o as [[]|]; reflexivity.
Qed.

Lemma trichotomy cf l r o :
  ~ nan_operand l -> ~ nan_operand r -> spec_order cf l r = Ok o ->
  exists lt eq gt, jump_site OLt cf l r = Ok lt /\ jump_site OEq cf l r = Ok eq /\ jump_site OGt cf l r = Ok gt /\
    ((lt = true /\ eq = false /\ gt = false) \/ (lt = false /\ eq = true /\ gt = false) \/
     (lt = false /\ eq = false /\ gt = true)).
Proof.
  intros Hl Hr H. destruct (spec_order_some cf l r o Hl Hr H) as [c ->].
  exists (decide OLt (Some c)), (decide OEq (Some c)), (decide OGt (Some c)).
  rewrite (proj1 (site_outcome cf OLt l r _ H)), (proj1 (site_outcome cf OEq l r _ H)),
          (proj1 (site_outcome cf OGt l r _ H)).
  repeat split. destruct c; cbn [decide]; tauto.
Qed.

Lemma v_boolean_boolean b : v_boolean (boolean b) = b.
Proof. destruct b; reflexivity. Qed.

(* what the compiler emits for a comparison in condition position, direct or inverted, enters
   the guarded code exactly when the comparison is true as an expression - NaN included *)
Lemma condition_forms_agree cf op l r :
  cond_direct op cf l r = spec_cmp cf op l r /\ cond_inverted op cf l r = spec_cmp cf op l r.
Proof.
  split; [exact (proj2 (twelve_sites_agree cf op l r))|].
  assert (Hord : forall op', expr_site op' cf l r = rmap boolean (spec_cmp cf op' l r) ->
            (do v <- expr_site op' cf l r; Ok (v_boolean v)) = spec_cmp cf op' l r).
  { intros op' ->. destruct (spec_cmp cf op' l r); cbn [rmap rbind]; try reflexivity.
    rewrite v_boolean_boolean. reflexivity. }
  destruct op; cbn [cond_inverted];
    try (apply Hord; exact (proj1 (twelve_sites_agree cf _ l r))).
  - change (site_JumpNotEquals cf l r) with (jump_site (inv_op OEq) cf l r).
    rewrite (proj2 (twelve_sites_agree cf (inv_op OEq) l r)), !spec_cmp_order.
    destruct (spec_order cf l r) as [o| | |]; cbn [rmap rbind]; try reflexivity.
    rewrite decide_inv_op, negb_involutive by auto. reflexivity.
  - change (site_JumpEquals cf l r) with (jump_site (inv_op ONe) cf l r).
    rewrite (proj2 (twelve_sites_agree cf (inv_op ONe) l r)), !spec_cmp_order.
    destruct (spec_order cf l r) as [o| | |]; cbn [rmap rbind]; try reflexivity.
    rewrite decide_inv_op, negb_involutive by auto. reflexivity.
Qed.
