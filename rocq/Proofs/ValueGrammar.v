(* C05: the AWK numeric grammar, and the scanner (parseFloatPrefix) against it:
   what the scanner consumes is in the grammar, and no longer prefix is. *)
From Verif Require Import Lib.Base Lib.Dyadic Lib.Utf8 Model.Value Proofs.ValueScan.

(* digits+ [ . digits* ]  |  . digits+      over a digit class p *)
Definition mantissa (p : Z -> bool) (m : bytes) : Prop :=
  exists d1 dot d2, m = d1 ++ dot ++ d2 /\ forallb p d1 = true /\ forallb p d2 = true /\
    (dot = [46] \/ (dot = [] /\ d2 = [])) /\ (d1 <> [] \/ d2 <> []).

(* [+-] mantissa [ (e|E) [+-] digits+ ] *)
Definition awk_decimal (t : bytes) : Prop :=
  exists sg m x, t = sg ++ m ++ x /\ sign_str sg /\ mantissa is_digit m /\ (x = [] \/ exponent 101 69 x).

(* [+-] 0 (x|X) hexmantissa [ (p|P) [+-] digits+ ] *)
Definition awk_hex (t : bytes) : Prop :=
  exists sg b m x, t = sg ++ [48; b] ++ m ++ x /\ sign_str sg /\ (b = 120 \/ b = 88) /\
    mantissa is_hex_digit m /\ (x = [] \/ exponent 112 80 x).

Definition awk_numeral (t : bytes) : Prop := awk_decimal t \/ awk_hex t.

Lemma is_nil_app_false {A} (a b : list A) : a <> [] -> is_nil (a ++ b) = false.
Proof. destruct a; [congruence|reflexivity]. Qed.

Lemma lex_mant_prefix p d tail : forallb p d = true ->
  lex_mant p (d ++ tail) =
    let '(f, dt, D2, r3) := lex_mant p tail in (d ++ f, dt, D2, r3).
Proof.
  intro Hd. unfold lex_mant. rewrite (span_prefix p d tail Hd).
  destruct (span p tail) as [f r1]. cbn [fst snd]. destruct (opt_dot r1) as [dt r2].
  destruct (span p r2) as [D2 r3]. reflexivity.
Qed.

Lemma lex_mant_decomp p tail f dt D2 r3 : lex_mant p tail = (f, dt, D2, r3) -> tail = f ++ dt ++ D2 ++ r3.
Proof. intro H. exact (proj1 (lex_mant_spec _ _ _ _ _ _ H)). Qed.

(* lexing a grammatical mantissa+exponent followed by anything *)
Lemma lex_forward p lo up m x tail :
  p 46 = false -> p lo = false -> p up = false -> lo <> 46 -> up <> 46 ->
  mantissa p m -> (x = [] \/ exponent lo up x) ->
  exists d1 dot d2 r3 more tail',
    lex_mant p (m ++ x ++ tail) = (d1, dot, d2, r3) /\ is_nil d1 && is_nil d2 = false /\
    d1 ++ dot ++ d2 ++ scan_exp lo up r3 = m ++ x ++ more /\ tail = more ++ tail'.
Proof.
  intros Hp46 Hplo Hpup Hlo46 Hup46 [a [dot [b [-> [Ha [Hb [Hdot Hne]]]]]]] Hx.
  assert (Hnil : forall f, is_nil a && is_nil (b ++ f) = false).
  { intro f. destruct a; [|reflexivity]. destruct b; [destruct Hne; congruence|reflexivity]. }
  destruct Hx as [-> | [c [es [ed [-> [Hc [Hes [Hed Hedd]]]]]]]].
  - (* no exponent in the shorter text *)
    cbn [app]. destruct Hdot as [-> | [-> ->]].
    + (* a . b  then tail *)
      destruct (span p tail) as [f r] eqn:Esp.
      destruct (scan_exp_spec lo up r) as [[r' Hr] _].
      exists a, [46], (b ++ f), r, (f ++ scan_exp lo up r), r'.
      split; [|split; [apply Hnil|split]].
      * unfold lex_mant. rewrite <- !app_assoc.
        rewrite (span_stop p a ([46] ++ b ++ tail) Ha) by (cbn [app stops]; exact Hp46).
        cbn [app opt_dot]. rewrite Z.eqb_refl. rewrite (span_prefix p b tail Hb), Esp. reflexivity.
      * rewrite <- !app_assoc. reflexivity.
      * destruct (span_eq _ _ _ _ Esp) as [-> _]. rewrite <- app_assoc, <- Hr. reflexivity.
    + (* a then tail *)
      rewrite app_nil_r. cbn [app].
      destruct (lex_mant p tail) as [[[f dt] D2] r3] eqn:El.
      destruct (scan_exp_spec lo up r3) as [[r' Hr] _].
      exists (a ++ f), dt, D2, r3, (f ++ dt ++ D2 ++ scan_exp lo up r3), r'.
      split; [|split; [|split]].
      * rewrite (lex_mant_prefix p a tail Ha), El. reflexivity.
      * rewrite is_nil_app_false; [reflexivity|]. destruct Hne as [H|H]; congruence.
      * rewrite <- !app_assoc. reflexivity.
      * rewrite (lex_mant_decomp _ _ _ _ _ _ El) at 1. rewrite <- !app_assoc. rewrite <- Hr. reflexivity.
  - (* with exponent *)
    assert (Hpc : p c = false) by (destruct Hc as [-> | ->]; assumption).
    assert (Hc46 : (c =? 46) = false) by (apply Z.eqb_neq; destruct Hc as [-> | ->]; assumption).
    destruct (span is_digit tail) as [g tail'] eqn:Eg.
    assert (Hex : scan_exp lo up ((c :: es ++ ed) ++ tail) = (c :: es ++ ed) ++ g).
    { cbn [app]. rewrite <- app_assoc. rewrite scan_exp_shape by assumption. rewrite Eg. cbn [fst].
      rewrite <- app_assoc. reflexivity. }
    exists a, dot, b, ((c :: es ++ ed) ++ tail), g, tail'.
    split; [|split; [|split]].
    + rewrite <- !app_assoc. apply lex_mant_intro; try assumption. intros _. exact Hc46.
    + specialize (Hnil []). rewrite app_nil_r in Hnil. exact Hnil.
    + rewrite Hex. rewrite <- !app_assoc. reflexivity.
    + destruct (span_eq _ _ _ _ Eg) as [H _]. exact H.
Qed.

Ltac norm_app := cbn [app]; repeat (rewrite <- app_assoc || rewrite <- app_comm_cons); cbn [app].

Lemma is_nil_pair_false {A} (a b : list A) : is_nil a && is_nil b = false -> a <> [] \/ b <> [].
Proof. destruct a; [destruct b; [discriminate|right; discriminate]|left; discriminate]. Qed.

Lemma lex_mant_mantissa p u d1 dot d2 r3 :
  lex_mant p u = (d1, dot, d2, r3) -> is_nil d1 && is_nil d2 = false -> mantissa p (d1 ++ dot ++ d2).
Proof.
  intros Hl Hn. pose proof (lex_mant_spec _ _ _ _ _ _ Hl) as [_ [H1 [H2 [Hd [_ H4]]]]].
  exists d1, dot, d2. split; [reflexivity|]. split; [exact H1|]. split; [exact H2|]. split.
  - destruct Hd as [-> | ->]; [left; reflexivity|right]. split; [reflexivity|]. exact (proj1 (H4 eq_refl)).
  - apply is_nil_pair_false. exact Hn.
Qed.

(* what a number verdict says: the text consumed is a numeral of the grammar, decimal and handed
   over as it is, or hexadecimal and patched exactly when it has no exponent *)
Lemma scan_t_num_inv start t start' c patch :
  scan_t start t = PSNum start' c patch ->
  start' = start /\ (exists rest, t = c ++ rest) /\
  exists sg m x, sign_str sg /\
    ((c = sg ++ m ++ x /\ mantissa is_digit m /\ (x = [] \/ exponent 101 69 x) /\ patch = false) \/
     (exists b, c = sg ++ [48; b] ++ m ++ x /\ (b = 120 \/ b = 88) /\ mantissa is_hex_digit m /\
        (x = [] \/ exponent 112 80 x) /\ patch = is_nil x)).
Proof.
  unfold scan_t. destruct (opt_sign t) as [sg u] eqn:Hos.
  destruct (opt_sign_inv _ _ _ Hos) as [Et Hsg].
  destruct ((3 <=? zlen u) && has_nan_prefix u); [discriminate|].
  destruct ((3 <=? zlen u) && has_inf_prefix u); [destruct t; discriminate|].
  unfold scan_num. destruct (lex_mant (mant_digit (hex_of u)) (body_of u)) as [[[d1 dot] d2] r3] eqn:Hl.
  destruct (is_nil d1 && is_nil d2) eqn:Hn; [discriminate|].
  intro H. injection H as <- <- <-. split; [reflexivity|].
  destruct (scan_exp_spec (if hex_of u then 112 else 101) (if hex_of u then 80 else 69) r3) as [[r' Hr] Hex].
  split.
  - exists r'. rewrite Et, <- (pre_body u) at 1. rewrite (lex_mant_decomp _ _ _ _ _ _ Hl). rewrite Hr at 1.
    norm_app. reflexivity.
  - exists sg, (d1 ++ dot ++ d2), (scan_exp (if hex_of u then 112 else 101) (if hex_of u then 80 else 69) r3).
    split; [exact Hsg|]. unfold pre_of. destruct (hex_of u) eqn:Hh.
    + destruct (hex_of_true_inv u Hh) as (b & c0 & r & -> & Hb). right. exists b.
      rewrite (lex_mant_ext _ _ _ mant_digit_hex) in Hl.
      split; [norm_app; reflexivity|]. split; [exact Hb|].
      split; [exact (lex_mant_mantissa _ _ _ _ _ _ Hl Hn)|]. split; [exact Hex|reflexivity].
    + left. rewrite (lex_mant_ext _ _ _ mant_digit_dec) in Hl.
      split; [norm_app; reflexivity|]. split; [exact (lex_mant_mantissa _ _ _ _ _ _ Hl Hn)|]. split; [exact Hex|reflexivity].
Qed.

Lemma scan_t_num_grammar start t start' c patch :
  scan_t start t = PSNum start' c patch ->
  start' = start /\ (exists rest, t = c ++ rest) /\ awk_numeral c.
Proof.
  intro H. destruct (scan_t_num_inv _ _ _ _ _ H) as (Hs & Hpre & sg & m & x & Hsg & Hc).
  split; [exact Hs|]. split; [exact Hpre|].
  destruct Hc as [(-> & Hm & Hx & _)|(b & -> & Hb & Hm & Hx & _)]; [left; exists sg, m, x|right; exists sg, b, m, x]; auto.
Qed.

Lemma mantissa_head p m rest : mantissa p m -> exists h r, m ++ rest = h :: r /\ (p h = true \/ h = 46).
Proof.
  intros [a [dot [b [-> [Ha [Hb [Hdot Hne]]]]]]].
  destruct a as [|h a'].
  - destruct Hdot as [-> | [-> ->]]; [|destruct Hne; congruence].
    eexists 46, _. split; [reflexivity|right; reflexivity].
  - cbn [forallb] in Ha. apply andb_true_iff in Ha as [Hh _].
    eexists h, _. split; [reflexivity|left; exact Hh].
Qed.

Lemma opt_sign_build sg h r : sign_str sg -> is_sign h = false -> opt_sign (sg ++ h :: r) = (sg, h :: r).
Proof. intros [-> | [-> | ->]] Hh; cbn [app opt_sign]; [rewrite Hh|..]; reflexivity. Qed.

Lemma digit_or_dot_not_sign p h : (forall c, p c = true -> is_sign c = false) -> (p h = true \/ h = 46) -> is_sign h = false.
Proof. intros Hp [H | ->]; [apply Hp; exact H|reflexivity]. Qed.

Lemma hex_digit_not_sign c : is_hex_digit c = true -> is_sign c = false.
Proof. unfold is_hex_digit, is_digit, is_sign. intro H. lia. Qed.

Lemma zlen_app3 {A} (a b c : list A) : zlen (a ++ b ++ c) = zlen a + zlen b + zlen c.
Proof. rewrite !zlen_app. lia. Qed.

(* a decimal numeral that starts like "0x": it is just "0" *)
Lemma dec_hex_prefix_inv m x rest b r :
  mantissa is_digit m -> (x = [] \/ exponent 101 69 x) -> (b = 120 \/ b = 88) ->
  m ++ x ++ rest = 48 :: b :: r -> m ++ x = [48].
Proof.
  intros [a [dot [b' [-> [Ha [Hb' [Hdot Hne]]]]]]] Hx Hb Eu.
  destruct a as [|h1 a'].
  - destruct Hdot as [-> | [-> ->]]; [cbn [app] in Eu; discriminate|destruct Hne; congruence].
  - cbn [app] in Eu. injection Eu as -> Eu. destruct a' as [|h2 a''].
    + cbn [app] in Eu.
      destruct Hdot as [-> | [-> ->]]; [cbn [app] in Eu; injection Eu as <- _; destruct Hb; discriminate|].
      cbn [app] in Eu |- *.
      destruct Hx as [-> | [c [es [ed [-> [Hc _]]]]]]; [reflexivity|].
      cbn [app] in Eu. injection Eu as <- _. destruct Hc as [-> | ->], Hb; discriminate.
    + cbn [app] in Eu. injection Eu as <- _. cbn [forallb] in Ha.
      apply andb_true_iff in Ha as [_ Ha]. apply andb_true_iff in Ha as [Ha _].
      destruct Hb as [-> | ->]; discriminate.
Qed.

Lemma scan_t_dominates_dec start sg m x rest :
  sign_str sg -> mantissa is_digit m -> (x = [] \/ exponent 101 69 x) ->
  (exists c patch rest', scan_t start (sg ++ m ++ x ++ rest) = PSNum start c patch /\
      zlen (sg ++ m ++ x) <= zlen c /\ sg ++ m ++ x ++ rest = c ++ rest') \/
  (scan_t start (sg ++ m ++ x ++ rest) = PSZero /\ m ++ x = [48]).
Proof.
  intros Hsg Hm Hx.
  destruct (mantissa_head is_digit m (x ++ rest) Hm) as [h [r [Eu Hh]]].
  assert (Hhs : is_sign h = false) by (apply (digit_or_dot_not_sign is_digit); [apply digit_not_sign|exact Hh]).
  unfold scan_t, pre_of, body_of. rewrite Eu, (opt_sign_build sg h r Hsg Hhs).
  destruct (no_special_prefix h r Hh) as [N1 N2]. rewrite N1, N2.
  destruct (hex_of (h :: r)) eqn:Hhex; unfold scan_num.
  - (* the text continues with x/X: the only decimal prefix is sign? 0 *)
    destruct (hex_of_true_inv _ Hhex) as [b [c0 [r0 [E Hb]]]]. injection E as -> ->.
    pose proof (dec_hex_prefix_inv m x rest b (c0 :: r0) Hm Hx Hb Eu) as Hmx.
    change (ztake 2 (48 :: b :: c0 :: r0)) with [48; b]. change (zdrop 2 (48 :: b :: c0 :: r0)) with (c0 :: r0).
    destruct (lex_mant (mant_digit true) (c0 :: r0)) as [[[d1 dot] d2] r3] eqn:Hl.
    destruct (is_nil d1 && is_nil d2); [right; split; [reflexivity|exact Hmx]|].
    left. destruct (scan_exp_spec 112 80 r3) as [[r' Hr] _].
    eexists _, _, r'. split; [reflexivity|]. split.
    + rewrite zlen_app, Hmx. rewrite !zlen_app. change (zlen [48]) with 1. change (zlen [48; b]) with 2.
      pose proof (zlen_nonneg d1). pose proof (zlen_nonneg dot). pose proof (zlen_nonneg d2).
      pose proof (zlen_nonneg (scan_exp 112 80 r3)). lia.
    + rewrite (lex_mant_decomp _ _ _ _ _ _ Hl). rewrite Hr at 1.
      norm_app. reflexivity.
  - left. rewrite <- Eu, (lex_mant_ext _ _ _ mant_digit_dec).
    destruct (lex_forward is_digit 101 69 m x rest eq_refl eq_refl eq_refl ltac:(lia) ltac:(lia) Hm Hx)
      as [d1 [dot [d2 [r3 [more [tail' [Hl [Hn [Hc Ht]]]]]]]]].
    rewrite Hl, Hn. exists (sg ++ d1 ++ dot ++ d2 ++ scan_exp 101 69 r3), false, tail'.
    split; [reflexivity|]. rewrite Hc. split.
    + rewrite !zlen_app. pose proof (zlen_nonneg more). lia.
    + rewrite Ht. norm_app. reflexivity.
Qed.

Lemma scan_t_dominates_hex start sg b m x rest :
  sign_str sg -> (b = 120 \/ b = 88) -> mantissa is_hex_digit m -> (x = [] \/ exponent 112 80 x) ->
  exists c patch rest', scan_t start (sg ++ [48; b] ++ m ++ x ++ rest) = PSNum start c patch /\
      zlen (sg ++ [48; b] ++ m ++ x) <= zlen c /\ sg ++ [48; b] ++ m ++ x ++ rest = c ++ rest'.
Proof.
  intros Hsg Hb Hm Hx.
  destruct (mantissa_head is_hex_digit m (x ++ rest) Hm) as [h [r [Eu _]]].
  unfold scan_t, pre_of, body_of. cbn [app]. rewrite (opt_sign_build sg 48 _ Hsg eq_refl).
  destruct (no_special_prefix 48 (b :: m ++ x ++ rest) (or_introl eq_refl)) as [N1 N2]. rewrite N1, N2.
  rewrite Eu.
  rewrite (hex_of_intro b h r Hb).
  change (ztake 2 (48 :: b :: h :: r)) with [48; b]. change (zdrop 2 (48 :: b :: h :: r)) with (h :: r).
  rewrite <- Eu. unfold scan_num. rewrite (lex_mant_ext _ _ _ mant_digit_hex).
  destruct (lex_forward is_hex_digit 112 80 m x rest eq_refl eq_refl eq_refl ltac:(lia) ltac:(lia) Hm Hx)
    as [d1 [dot [d2 [r3 [more [tail' [Hl [Hn [Hc Ht]]]]]]]]].
  rewrite Hl, Hn. eexists _, _, tail'. split; [reflexivity|]. rewrite Hc. split.
  - cbn [app]. repeat (rewrite zlen_app || rewrite zlen_cons). pose proof (zlen_nonneg more). lia.
  - rewrite Ht. norm_app. reflexivity.
Qed.

Lemma scan_t_dominates start t p rest :
  t = p ++ rest -> awk_numeral p ->
  (exists c patch, scan_t start t = PSNum start c patch /\ zlen p <= zlen c) \/
  (scan_t start t = PSZero /\ exists sg, sign_str sg /\ p = sg ++ [48]).
Proof.
  intros -> [[sg [m [x [-> [Hsg [Hm Hx]]]]]] | [sg [b [m [x [-> [Hsg [Hb [Hm Hx]]]]]]]]].
  - replace ((sg ++ m ++ x) ++ rest) with (sg ++ m ++ x ++ rest) by (rewrite <- !app_assoc; reflexivity).
    destruct (scan_t_dominates_dec start sg m x rest Hsg Hm Hx) as [[c [patch [rest' [H1 [H2 _]]]]] | [H1 H2]].
    + left. exists c, patch. split; assumption.
    + right. split; [exact H1|]. exists sg. split; [exact Hsg|]. rewrite H2. reflexivity.
  - replace ((sg ++ [48; b] ++ m ++ x) ++ rest) with (sg ++ [48; b] ++ m ++ x ++ rest)
      by (cbn [app]; rewrite <- !app_assoc; cbn [app]; rewrite <- !app_assoc; reflexivity).
    destruct (scan_t_dominates_hex start sg b m x rest Hsg Hb Hm Hx) as [c [patch [rest' [H1 [H2 _]]]]].
    left. exists c, patch. split; assumption.
Qed.

Lemma has_nan_prefix3 a b c r : has_nan_prefix (a :: b :: c :: r) = has_nan_prefix [a; b; c].
Proof. reflexivity. Qed.
Lemma has_inf_prefix3 a b c r : has_inf_prefix (a :: b :: c :: r) = has_inf_prefix [a; b; c].
Proof. reflexivity. Qed.

Lemma scan_t_number start t sg u :
  opt_sign t = (sg, u) ->
  (3 <=? zlen u) && has_nan_prefix u = false -> (3 <=? zlen u) && has_inf_prefix u = false ->
  scan_t start t = PSZero \/ exists c patch, scan_t start t = PSNum start c patch.
Proof.
  intros Hos Hn Hi. unfold scan_t. rewrite Hos, Hn, Hi.
  unfold scan_num. destruct (lex_mant _ _) as [[[d1 dot] d2] r3]. destruct (is_nil d1 && is_nil d2); eauto.
Qed.

(* the scanner's verdict against the grammar *)
Definition scan_verdict_ok (t : bytes) (r : pscan) (start : Z) : Prop :=
  match r with
  | PSNum start' c patch =>
      start' = start /\ (exists rest, t = c ++ rest) /\ awk_numeral c /\
      (forall p rest, t = p ++ rest -> awk_numeral p -> zlen p <= zlen c)
  | PSZero =>
      forall p rest, t = p ++ rest -> awk_numeral p -> exists sg, sign_str sg /\ p = sg ++ [48]
  | PSNaN =>
      exists sg a b c r, sign_str sg /\ t = sg ++ a :: b :: c :: r /\ has_nan_prefix [a; b; c] = true
  | PSInf neg =>
      exists sg a b c r, sign_str sg /\ t = sg ++ a :: b :: c :: r /\ has_inf_prefix [a; b; c] = true /\
        neg = match t with h :: _ => h =? 45 | [] => false end
  | PSPanic => False
  end.

Lemma scan_t_longest start t : scan_verdict_ok t (scan_t start t) start.
Proof.
  destruct (opt_sign t) as [sg u] eqn:Hos. destruct (opt_sign_inv _ _ _ Hos) as [Et Hsg].
  destruct ((3 <=? zlen u) && has_nan_prefix u) eqn:Hn.
  { apply andb_true_iff in Hn as [_ Hn]. destruct u as [|a [|b [|c r]]]; try discriminate.
    rewrite (scan_t_nan start t sg a b c r Hos Hn). exists sg, a, b, c, r. auto. }
  destruct ((3 <=? zlen u) && has_inf_prefix u) eqn:Hi.
  { apply andb_true_iff in Hi as [_ Hi]. destruct u as [|a [|b [|c r]]]; try discriminate.
    destruct t as [|h t']; [destruct sg; discriminate|].
    rewrite (scan_t_inf start h t' sg a b c r Hos Hi). exists sg, a, b, c, r. auto. }
  destruct (scan_t_number start t sg u Hos Hn Hi) as [E|(c & patch & E)]; rewrite E; cbn [scan_verdict_ok].
  - intros p rest Hp Hnum.
    destruct (scan_t_dominates start t p rest Hp Hnum) as [[c [patch [H _]]] | [_ H]]; [congruence|exact H].
  - destruct (scan_t_num_grammar start t start c patch E) as [_ [Hpre Hg]].
    split; [reflexivity|]. split; [exact Hpre|]. split; [exact Hg|].
    intros p rest Hp Hnum.
    destruct (scan_t_dominates start t p rest Hp Hnum) as [[c' [patch' [H Hle]]] | [H _]]; [|congruence].
    rewrite E in H. injection H as <- _. exact Hle.
Qed.

Theorem prefix_is_longest s :
  let ws := fst (span ascii_space s) in
  let t := snd (span ascii_space s) in
  s = ws ++ t /\ forallb ascii_space ws = true /\ stops ascii_space t /\
  scan_verdict_ok t (scan_prefix s) (zlen ws).
Proof.
  cbv zeta. pose proof (span_spec ascii_space s) as [H1 [H2 H3]].
  split; [exact H1|]. split; [exact H2|]. split; [exact H3|].
  rewrite scan_prefix_eq. apply scan_t_longest.
Qed.

Corollary scan_prefix_no_panic s : scan_prefix s <> PSPanic.
Proof.
  pose proof (prefix_is_longest s) as H. cbv zeta in H. destruct H as [_ [_ [_ H]]].
  intro E. rewrite E in H. exact H.
Qed.
