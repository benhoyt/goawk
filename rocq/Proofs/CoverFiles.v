(* C18: FileReader.  AddFile keeps the concatenated source newline-terminated
   and its line table exact, so FileLine maps the global line of every byte of every program
   file to that file and to the byte's line inside it. *)
From Verif Require Import Lib.Base Model.Cover.

Definition total_lines (fs : ftable) : Z := fold_right (fun f a => snd f + a) 0 fs.

Lemma total_lines_cons p n fs : total_lines ((p, n) :: fs) = n + total_lines fs.
Proof. reflexivity. Qed.

Lemma total_lines_app a b : total_lines (a ++ b) = total_lines a + total_lines b.
Proof. unfold total_lines. induction a as [|x a IH]; cbn [app fold_right]; lia. Qed.

Lemma total_lines_nonneg fs : Forall (fun f => 0 <= snd f) fs -> 0 <= total_lines fs.
Proof. induction 1 as [|[p n] fs Hn _ IH]; [reflexivity|]. rewrite total_lines_cons. cbn [snd] in Hn. lia. Qed.

Lemma count_nl_app a b : count_nl (a ++ b) = count_nl a + count_nl b.
Proof. induction a as [|c a IH]; cbn [app count_nl]; lia. Qed.

Lemma count_nl_nonneg s : 0 <= count_nl s.
Proof. induction s as [|c s IH]; cbn [count_nl]; [lia|]. destruct (c =? 10); lia. Qed.

Lemma ends_nl_snoc s : ends_nl (s ++ [10]) = true.
Proof. unfold ends_nl. rewrite rev_app_distr. reflexivity. Qed.

Lemma ends_nl_app a b : b <> [] -> ends_nl (a ++ b) = ends_nl b.
Proof.
  intros Hb. unfold ends_nl. rewrite rev_app_distr.
  destruct (rev b) as [|c r] eqn:Hr; [|reflexivity].
  exfalso. apply Hb. rewrite <- (rev_involutive b), Hr. reflexivity.
Qed.

(* a non-empty suffix of a newline-terminated string contains a newline *)
Lemma suffix_has_nl pre post : ends_nl (pre ++ post) = true -> post <> [] -> 1 <= count_nl post.
Proof.
  intros He Hp. rewrite ends_nl_app in He by exact Hp. unfold ends_nl in He.
  destruct (rev post) as [|c r] eqn:Hr; [discriminate He|].
  assert (Hpost : post = rev r ++ [c]) by (rewrite <- (rev_involutive post), Hr; reflexivity).
  rewrite Hpost, count_nl_app. cbn [count_nl]. rewrite He. pose proof (count_nl_nonneg (rev r)). lia.
Qed.

(* the reader state is well formed: table total = newlines of the source, source newline-terminated *)
Definition reader_ok (st : ftable * bytes) : Prop :=
  count_nl (snd st) = total_lines (fst st)
  /\ (snd st = [] \/ ends_nl (snd st) = true)
  /\ Forall (fun f => 0 <= snd f) (fst st).

Lemma reader_ok_init : reader_ok ([], []).
Proof. split; [reflexivity|]. split; [left; reflexivity|constructor]. Qed.

(* what AddFile appends *)
Lemma add_file_eq files src path content :
  exists added, add_file (files, src) path content = (files ++ [(path, count_nl added)], src ++ added)
    /\ (added = content \/ added = content ++ [10]) /\ ends_nl (src ++ added) = true.
Proof.
  unfold add_file. destruct (ends_nl (src ++ content)) eqn:He.
  - exists content. rewrite skipn_app, skipn_all, Nat.sub_diag. cbn [skipn app].
    split; [reflexivity|]. split; [left; reflexivity|exact He].
  - exists (content ++ [10]). rewrite <- app_assoc, skipn_app, skipn_all, Nat.sub_diag. cbn [skipn app].
    split; [reflexivity|]. split; [right; reflexivity|]. rewrite app_assoc. apply ends_nl_snoc.
Qed.

Theorem add_file_ok st path content : reader_ok st -> reader_ok (add_file st path content).
Proof.
  destruct st as [files src]. intros (H1 & H2 & H3). cbn [fst snd] in *.
  destruct (add_file_eq files src path content) as (added & -> & _ & He). unfold reader_ok. cbn [fst snd].
  split; [|split].
  - rewrite count_nl_app, total_lines_app, total_lines_cons, H1. change (total_lines []) with 0. lia.
  - right. exact He.
  - apply Forall_app. split; [exact H3|]. constructor; [apply count_nl_nonneg|constructor].
Qed.

(* FileLine on a table extended at the end *)
Lemma file_line_from_skip fs : forall start line p n,
  Forall (fun f => 0 <= snd f) fs -> start + total_lines fs <= line < start + total_lines fs + n ->
  file_line_from (fs ++ [(p, n)]) start line = (p, line - (start + total_lines fs) + 1).
Proof.
  induction fs as [|[q m] fs IH]; intros start line p n HF Hl; cbn [app file_line_from].
  - change (total_lines []) with 0 in *.
    rewrite (proj2 (Z.leb_le _ _)) by lia. rewrite (proj2 (Z.ltb_lt _ _)) by lia.
    cbn [andb]. f_equal. lia.
  - inversion HF as [|? ? Hm HF']; subst. cbn [snd] in Hm. rewrite total_lines_cons in *.
    pose proof (total_lines_nonneg fs HF') as Hnn.
    rewrite (proj2 (Z.ltb_ge _ _)), andb_false_r by lia.
    rewrite (IH (start + m) line p n HF') by lia. f_equal. lia.
Qed.

Lemma file_line_from_keep fs : forall start line x,
  start <= line < start + total_lines fs -> Forall (fun f => 0 <= snd f) fs ->
  file_line_from (fs ++ [x]) start line = file_line_from fs start line.
Proof.
  induction fs as [|[q m] fs IH]; intros start line x Hl HF; cbn [app file_line_from].
  - change (total_lines []) with 0 in Hl. lia.
  - inversion HF as [|? ? Hm HF']; subst. cbn [snd] in Hm. rewrite total_lines_cons in Hl.
    destruct ((start <=? line) && (line <? start + m)) eqn:Hin; [reflexivity|].
    apply IH; [|exact HF']. apply andb_false_iff in Hin as [Hin|Hin]; [apply Z.leb_gt in Hin|apply Z.ltb_ge in Hin]; lia.
Qed.

(* FileLine is exact: the byte at offset |pre| of the text this AddFile appended lies on global
   line (newlines before it in the whole source) + 1; FileLine maps that line to this file and
   to (newlines before the byte inside the file) + 1; and lines of earlier files keep their image. *)
Theorem file_line_exact files src path content :
  reader_ok (files, src) ->
  exists added, add_file (files, src) path content = (files ++ [(path, count_nl added)], src ++ added)
  /\ (added = content \/ added = content ++ [10])
  /\ (forall pre post, added = pre ++ post -> post <> [] ->
        file_line (files ++ [(path, count_nl added)]) (count_nl (src ++ pre) + 1) = (path, count_nl pre + 1))
  /\ (forall line, 1 <= line <= count_nl src ->
        file_line (files ++ [(path, count_nl added)]) line = file_line files line).
Proof.
  intros (H1 & H2 & H3). cbn [fst snd] in *.
  destruct (add_file_eq files src path content) as (added & Heq & Hadd & He).
  exists added. split; [exact Heq|]. split; [exact Hadd|]. split.
  - intros pre post Hsplit Hpost. unfold file_line.
    assert (Hnl : 1 <= count_nl post).
    { apply (suffix_has_nl (src ++ pre) post); [|exact Hpost]. rewrite <- app_assoc, <- Hsplit. exact He. }
    rewrite file_line_from_skip; [|exact H3|].
    + f_equal. rewrite count_nl_app, H1. lia.
    + rewrite Hsplit, !count_nl_app, H1. pose proof (count_nl_nonneg pre). lia.
  - intros line Hl. unfold file_line. apply file_line_from_keep; [rewrite <- H1; lia|exact H3].
Qed.

(* Without -coverappend (or when the file did not exist) the previous content plays no role:
   the file is created or truncated, so the result is the profile a fresh path would get. *)
Theorem write_profile_overwrites m app existed old abs bl data :
  app && existed = false ->
  write_profile m app existed old abs bl data = write_profile m false false [] abs bl data.
Proof.
  unfold write_profile. intros H. rewrite (andb_comm existed app), H. reflexivity.
Qed.

(* With -coverappend on an existing file the old content is kept and only block lines follow *)
Theorem write_profile_appends m old abs bl data :
  write_profile m true true old abs bl data = old ++ profile_lines abs bl data 0.
Proof. reflexivity. Qed.

Lemma dec_digits_no_nl fuel : forall n acc, 0 <= n -> Forall (fun c => c <> 10) acc ->
  Forall (fun c => c <> 10) (dec_digits fuel n acc).
Proof.
  induction fuel as [|f IH]; intros n acc Hn Hacc; cbn [dec_digits]; [exact Hacc|].
  assert (Hd : Forall (fun c => c <> 10) ((48 + n mod 10) :: acc)).
  { constructor; [|exact Hacc]. pose proof (Z.mod_pos_bound n 10 ltac:(lia)). lia. }
  destruct (n <? 10); [exact Hd|]. apply IH; [|exact Hd]. apply Z.div_pos; lia.
Qed.

Lemma dec_of_Z_no_nl n : Forall (fun c => c <> 10) (dec_of_Z n).
Proof.
  unfold dec_of_Z. destruct (n <? 0) eqn:Hn.
  - apply Z.ltb_lt in Hn. constructor; [lia|]. apply dec_digits_no_nl; [lia|constructor].
  - apply Z.ltb_ge in Hn. apply dec_digits_no_nl; [lia|constructor].
Qed.

Lemma count_nl_no_nl s : Forall (fun c => c <> 10) s -> count_nl s = 0.
Proof.
  induction 1 as [|c s Hc _ IH]; [reflexivity|]. cbn [count_nl]. rewrite IH.
  destruct (c =? 10) eqn:E; [apply Z.eqb_eq in E; contradiction|reflexivity].
Qed.

Lemma profile_line_one abs b cnt : Forall (fun c => c <> 10) (abs (b_path b)) ->
  count_nl (profile_line abs b cnt) = 1.
Proof.
  intros Hp. unfold profile_line. rewrite !count_nl_app.
  rewrite (count_nl_no_nl _ Hp), !(count_nl_no_nl _ (dec_of_Z_no_nl _)). reflexivity.
Qed.

Lemma profile_lines_count abs bl data : forall i,
  Forall (fun b => Forall (fun c => c <> 10) (abs (b_path b))) bl ->
  count_nl (profile_lines abs bl data i) = zlen bl.
Proof.
  induction bl as [|b t IH]; intros i HF; [reflexivity|].
  inversion HF as [|? ? Hb Ht]; subst. cbn [profile_lines].
  rewrite count_nl_app, (profile_line_one _ _ _ Hb), (IH _ Ht), zlen_cons. reflexivity.
Qed.

(* a fresh profile is the mode line followed by exactly one line per block of the program run *)
Theorem write_profile_line_count m app existed old abs bl data :
  app && existed = false ->
  Forall (fun b => Forall (fun c => c <> 10) (abs (b_path b))) bl ->
  count_nl (write_profile m app existed old abs bl data) = 1 + zlen bl.
Proof.
  intros H HF. rewrite (write_profile_overwrites _ _ _ _ _ _ _ H). unfold write_profile. cbn [andb negb].
  rewrite !count_nl_app, (profile_lines_count _ _ _ _ HF).
  destruct m; reflexivity.
Qed.
