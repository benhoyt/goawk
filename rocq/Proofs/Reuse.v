(* C14, layer (b): a reused Interpreter, prepared for its next run, is in the same observable state as a new
   one -- for EVERY state the earlier runs may have left behind.

   A run (executeAll) is an ARBITRARY state transformer, constrained only by the frame computed from the
   generated table: it changes no field outside Model/Reuse.run_mutable (= Gen/InterpFields.may_run plus the
   objects changed through a method), and it never resizes `globals` or the global part of `arrays`.
   The Vars loop of setExecuteConfig is an arbitrary transformer too, constrained by a frame and by
   non-interference (its effect on a set of fields containing what it reads depends only on those fields).

   The proof is an agreement (information-flow) analysis of the step list Model/Reuse.setExecuteConfig_steps,
   proved sound once and then run by computation on the concrete tables. *)
From Coq Require Import String List ZArith Bool Lia.
From Verif Require Import Lib.Base Gen.InterpFields Model.Reuse Proofs.ReuseTable.
Import ListNotations.
Open Scope string_scope.

Definition agree (A : list field) (s1 s2 : state) : Prop := forall f, In f A -> s1 f = s2 f.

Lemma upd_eq f v s : upd f v s f = v.
Proof. unfold upd. rewrite String.eqb_refl. reflexivity. Qed.

Lemma upd_neq f g v s : g <> f -> upd f v s g = s g.
Proof. intros H. unfold upd. destruct (String.eqb g f) eqn:E; [apply String.eqb_eq in E; contradiction | reflexivity]. Qed.

Lemma mem_In f l : mem f l = true <-> In f l.
Proof.
  unfold mem. rewrite existsb_exists. split.
  - intros [x [Hin Hx]]. apply String.eqb_eq in Hx. subst. exact Hin.
  - intros H. exists f. split; [exact H | apply String.eqb_refl].
Qed.

Lemma mem_false f l : mem f l = false -> ~ In f l.
Proof. intros H Hin. apply mem_In in Hin. congruence. Qed.

Lemma subset_incl a b : subset a b = true -> incl a b.
Proof.
  unfold subset. rewrite forallb_forall. intros H x Hx. apply mem_In. apply H. exact Hx.
Qed.

Definition disj (a b : list string) : bool := forallb (fun f => negb (mem f b)) a.

Lemma disj_sound a b f : disj a b = true -> In f a -> ~ In f b.
Proof.
  unfold disj. rewrite forallb_forall. intros H Hf. apply mem_false. apply negb_true_iff. apply H. exact Hf.
Qed.

Lemma agree_incl A B s1 s2 : incl B A -> agree A s1 s2 -> agree B s1 s2.
Proof. intros Hi Ha f Hf. apply Ha. apply Hi. exact Hf. Qed.

Lemma agree_map A reads s1 s2 : incl reads A -> agree A s1 s2 -> map s1 reads = map s2 reads.
Proof. intros Hi Ha. apply map_ext_in. intros f Hf. apply Ha. apply Hi. exact Hf. Qed.

Lemma agree_upd A f v s1 s2 : agree A s1 s2 -> agree (f :: A) (upd f v s1) (upd f v s2).
Proof.
  intros Ha g Hg. destruct (string_dec g f) as [->|Hne].
  - rewrite !upd_eq. reflexivity.
  - rewrite !upd_neq by exact Hne. destruct Hg as [Hg|Hg]; [congruence | apply Ha; exact Hg].
Qed.

Lemma agree_upd_drop A f v1 v2 s1 s2 :
  agree A s1 s2 -> agree (remove string_dec f A) (upd f v1 s1) (upd f v2 s2).
Proof.
  intros Ha g Hg. apply in_remove in Hg. destruct Hg as [Hg Hne].
  rewrite !upd_neq by exact Hne. apply Ha. exact Hg.
Qed.

Lemma set_all_other l : forall s f, ~ In f (map fst l) -> set_all l s f = s f.
Proof.
  unfold set_all. induction l as [|[k v] r IH]; intros s f Hn; simpl in *.
  - reflexivity.
  - rewrite IH by tauto. apply upd_neq. intros ->. tauto.
Qed.

(* assigning to a field the value it has changes nothing *)
Lemma set_all_same l : forall s f, (forall v, In (f, v) l -> s f = v) -> set_all l s f = s f.
Proof.
  unfold set_all. induction l as [|[k v] r IH]; intros s f H; simpl; [reflexivity|].
  destruct (string_dec f k) as [->|Hne].
  - rewrite IH; rewrite upd_eq.
    + symmetry. apply H. left. reflexivity.
    + intros v' Hin. rewrite <- (H v (or_introl eq_refl)). apply H. right. exact Hin.
  - rewrite IH; rewrite upd_neq by exact Hne; [reflexivity|].
    intros v' Hin. apply H. right. exact Hin.
Qed.

Lemma agree_set_all l : forall A s1 s2,
  agree A s1 s2 -> agree (rev (map fst l) ++ A) (set_all l s1) (set_all l s2).
Proof.
  unfold set_all. induction l as [|[k v] r IH]; intros A s1 s2 Ha; simpl.
  - exact Ha.
  - eapply agree_incl; [| apply (IH (k :: A)); apply agree_upd; exact Ha].
    intros f Hf. rewrite <- app_assoc in Hf. simpl in Hf. exact Hf.
Qed.

(* what the Vars loop (setVarByName, setSpecial, ensureFields, joinFields) reads, caches aside.
   ensureFields also looks at savedInputMode / savedCSVInputConfig (role LineShadow); they are left out: inside
   the Vars loop the record is still the empty one resetCore installed (nothing there calls setLine), and the
   empty record has no fields whatever those two say. *)
Definition SV_READS : list field :=
  [ "scalarIndexes"; "globals"; "convertFormat"; "line"; "lineIsTrueStr"; "fields"; "fieldsIsTrueStr";
    "haveFields"; "numFields"; "inputMode"; "csvInputConfig"; "outputMode"; "csvOutputConfig";
    "savedFieldSep"; "savedFieldSepRegex"; "recordSep"; "savedRecordSep"; "outputFieldSep" ].

Fixpoint flow (l : list step) (A : list field) : option (list field) :=
  match l with
  | [] => Some A
  | SSet f reads _ :: r =>
      if String.eqb f "nativeFuncs" then None
      else flow r (if subset reads A then f :: A else remove string_dec f A)
  | SCheck reads _ :: r => if subset reads A then flow r A else None
  | SInitOnce f _ :: r => if String.eqb f "nativeFuncs" then flow r (f :: A) else None
  | SVars :: r => if subset SV_READS A then flow r A else None
  end.

Fixpoint once_fn_ok (c : config) (F : val) (l : list step) : Prop :=
  match l with
  | [] => True
  | SInitOnce _ fn :: r => fn c = F /\ once_fn_ok c F r
  | _ :: r => once_fn_ok c F r
  end.

Definition once_ok (F : val) (s : state) : Prop := s "nativeFuncs" = VNil \/ s "nativeFuncs" = F.

Definition sv_noninterference (sv : setvars) : Prop :=
  forall vars A s1 s2, incl SV_READS A -> agree A s1 s2 ->
    snd (sv vars s1) = snd (sv vars s2) /\ agree A (fst (sv vars s1)) (fst (sv vars s2)).

(* if p.nativeFuncs == nil { p.nativeFuncs = v }, when v is the value every run builds *)
Lemma init_once F v s : v = F -> once_ok F s ->
  let t := if val_is_nil (s "nativeFuncs") then upd "nativeFuncs" v s else s in
  t "nativeFuncs" = F /\ forall g, g <> "nativeFuncs" -> t g = s g.
Proof.
  intros HF Ho. split.
  - destruct Ho as [Hn|Hn]; rewrite Hn.
    + simpl. rewrite upd_eq. exact HF.
    + destruct (val_is_nil F); [rewrite upd_eq; exact HF | exact Hn].
  - intros g Hg. destruct (val_is_nil (s "nativeFuncs")); [apply upd_neq; exact Hg | reflexivity].
Qed.

(* running the analysis by computation: the boolean form and what it gives *)
Lemma flow_covers_b l A O :
  match flow l A with Some B => subset O B | None => false end = true ->
  exists B, flow l A = Some B /\ incl O B.
Proof.
  destruct (flow l A) as [B|]; [|discriminate]. intros H. exists B. split; [reflexivity | apply subset_incl; exact H].
Qed.

Section Flow.
  Variable sv : setvars.
  Variable e : envt.
  Variable c : config.
  Variable F : val.
  Hypothesis sv_ni : sv_noninterference sv.
  Hypothesis sv_nf : forall vars s, fst (sv vars s) "nativeFuncs" = s "nativeFuncs".

  Lemma flow_sound : forall l A B s1 s2,
    once_fn_ok c F l -> flow l A = Some B -> agree A s1 s2 -> once_ok F s1 -> once_ok F s2 ->
    snd (run_steps sv e c l s1) = snd (run_steps sv e c l s2) /\
    (snd (run_steps sv e c l s1) = None ->
     agree B (fst (run_steps sv e c l s1)) (fst (run_steps sv e c l s2))).
  Proof.
    induction l as [|st r IH]; intros A B s1 s2 Hfn Hfl Ha Ho1 Ho2.
    - simpl in *. inversion Hfl; subst. split; [reflexivity | intros _; exact Ha].
    - destruct st as [f reads fn | reads chk | f fn | ]; cbn [flow once_fn_ok run_steps] in Hfl, Hfn |- *.
      + destruct (String.eqb f "nativeFuncs") eqn:Ef; [discriminate|].
        assert (Hne : "nativeFuncs" <> f) by (intros <-; rewrite String.eqb_refl in Ef; discriminate).
        destruct (subset reads A) eqn:Es.
        * apply subset_incl in Es. rewrite (agree_map A reads s1 s2 Es Ha).
          eapply IH; [exact Hfn | exact Hfl | apply agree_upd; exact Ha | |];
            unfold once_ok; rewrite upd_neq by exact Hne; assumption.
        * eapply IH; [exact Hfn | exact Hfl | apply agree_upd_drop; exact Ha | |];
            unfold once_ok; rewrite upd_neq by exact Hne; assumption.
      + destruct (subset reads A) eqn:Es; [|discriminate].
        apply subset_incl in Es. rewrite (agree_map A reads s1 s2 Es Ha).
        destruct (chk c (map s2 reads)) as [err|].
        * simpl. split; [reflexivity | discriminate].
        * eapply IH; eassumption.
      + destruct (String.eqb f "nativeFuncs") eqn:Ef; [|discriminate].
        apply String.eqb_eq in Ef. subst f. destruct Hfn as [HF Hfn].
        destruct (init_once F (fn c) s1 HF Ho1) as [H1 Hoth1]. destruct (init_once F (fn c) s2 HF Ho2) as [H2 Hoth2].
        eapply IH; [exact Hfn | exact Hfl | | right; exact H1 | right; exact H2].
        intros g Hg. destruct (string_dec g "nativeFuncs") as [->|Hne]; [congruence|].
        rewrite Hoth1, Hoth2 by exact Hne. destruct Hg as [Hg|Hg]; [congruence | apply Ha; exact Hg].
      + destruct (subset SV_READS A) eqn:Es; [|discriminate].
        apply subset_incl in Es.
        destruct (sv_ni (c_vars c) A s1 s2 Es Ha) as [He Hag].
        destruct (sv (c_vars c) s1) as [t1 e1] eqn:E1. destruct (sv (c_vars c) s2) as [t2 e2] eqn:E2.
        simpl in He, Hag. subst e2.
        destruct e1 as [err|].
        * simpl. split; [reflexivity | discriminate].
        * eapply IH; [exact Hfn | exact Hfl | exact Hag | |]; unfold once_ok.
          -- replace t1 with (fst (sv (c_vars c) s1)) by (rewrite E1; reflexivity). rewrite sv_nf. exact Ho1.
          -- replace t2 with (fst (sv (c_vars c) s2)) by (rewrite E2; reflexivity). rewrite sv_nf. exact Ho2.
  Qed.

  (* Execute/ExecuteContext up to executeAll, on two states that agree on A0 *)
  Lemma prepare_sound : forall en A0 B s1 s2,
    c_funcs c = F ->
    flow setExecuteConfig_steps (rev (map fst (prologue_binds en)) ++ rev (map fst resetCore_binds) ++ A0) = Some B ->
    agree A0 s1 s2 -> once_ok F s1 -> once_ok F s2 ->
    snd (m_prepare sv e en c s1) = snd (m_prepare sv e en c s2) /\
    (snd (m_prepare sv e en c s1) = None ->
     agree B (fst (m_prepare sv e en c s1)) (fst (m_prepare sv e en c s2))).
  Proof.
    intros en A0 B s1 s2 HF Hfl Ha Ho1 Ho2.
    unfold m_prepare, m_setExecuteConfig, m_prologue, m_resetCore.
    assert (Hk : forall s, once_ok F s -> once_ok F (set_all (prologue_binds en) (set_all resetCore_binds s))).
    { intros s Ho. unfold once_ok in *. rewrite !set_all_other; [exact Ho | |].
      - apply mem_false. reflexivity.
      - destruct en; apply mem_false; reflexivity. }
    eapply flow_sound.
    - simpl. repeat split; try exact I. exact HF.
    - exact Hfl.
    - apply agree_set_all. apply agree_set_all. exact Ha.
    - apply Hk. exact Ho1.
    - apply Hk. exact Ho2.
  Qed.
End Flow.

Definition vlen (v : val) : option nat :=
  match v with VNil => Some O | VL l => Some (length l) | _ => None end.
Definition same_len (a b : val) : Prop := vlen a = vlen b /\ vlen a <> None.

Lemma vlen_vlist l : vlen (vlist l) = Some (length l).
Proof. destruct l; reflexivity. Qed.

Lemma same_len_refl v : (exists l, v = vlist l) -> same_len v v.
Proof. intros [l ->]. split; [reflexivity | rewrite vlen_vlist; discriminate]. Qed.

Lemma same_len_trans a b c : same_len a b -> same_len b c -> same_len a c.
Proof. intros [H1 H2] [H3 H4]. split; congruence. Qed.

Lemma map_const_repeat {A B} (x : B) (l : list A) : map (fun _ => x) l = repeat x (length l).
Proof. induction l; simpl; congruence. Qed.

(* null_all and clear_maps overwrite every element with a constant *)
Definition fill (x v : val) : val := match v with VL l => vlist (map (fun _ => x) l) | y => y end.

Lemma fill_fresh x g n : same_len g (vlist (repeat x n)) -> fill x g = vlist (repeat x n).
Proof.
  intros [H _]. rewrite vlen_vlist, repeat_length in H.
  destruct g as [| | | | |l| |]; simpl in H; try discriminate; injection H as H; subst n.
  - reflexivity.
  - simpl. rewrite map_const_repeat. reflexivity.
Qed.

Lemma same_len_fill x g h : same_len g h -> same_len (fill x g) h.
Proof.
  intros [H1 H2]. destruct g as [| | | | |l| |]; try (split; assumption).
  unfold same_len, fill. rewrite vlen_vlist, map_length. split; [exact H1 | discriminate].
Qed.

Lemma upd_nth_length n f l : length (upd_nth n f l) = length l.
Proof. revert n. induction l; intros [|n]; simpl; auto. Qed.

Lemma same_len_set_array_value idxs a h name key v : same_len a h -> same_len (set_array_value idxs a name key v) h.
Proof.
  intros [H1 H2]. destruct a as [| | | | |l| |]; try (split; assumption).
  unfold same_len, set_array_value. cbn [vlen] in *. rewrite upd_nth_length. split; [exact H1 | discriminate].
Qed.

Lemma same_len_set_args idxs args : forall i a h, same_len a h -> same_len (set_args idxs i args a) h.
Proof.
  induction args as [|x r IH]; intros i a h H; simpl; [exact H|].
  apply IH. apply same_len_set_array_value. exact H.
Qed.

Lemma same_len_set_environ idxs kvs : forall a h, same_len a h -> same_len (set_environ idxs kvs a) h.
Proof.
  induction kvs as [|[k v] r IH]; intros a h H; simpl; [exact H|].
  apply IH. apply same_len_set_array_value. exact H.
Qed.

Definition var_fields : list field := filter (has_role VarState) all_fields.
Definition rand_fields : list field := filter (has_role RandState) all_fields.
Definition A0 : list field := const_fields ++ var_fields ++ rand_fields.

(* what no reset, no preparation and no run may change *)
Definition kept : list field := "nativeFuncs" :: const_fields.

(* the fields a step list assigns outright *)
Definition set_targets (l : list step) : list field :=
  flat_map (fun st => match st with SSet f _ _ => [f] | _ => [] end) l.

(* side conditions under which a step list keeps the invariant: it assigns none of the kept fields, what it
   assigns to "arrays" has as many elements as before, and nativeFuncs is the only field initialised once *)
Definition step_wf (st : step) : Prop :=
  match st with
  | SSet f reads fn =>
      f = "arrays" -> forall e c (g : state) h, same_len (g "arrays") h -> same_len (fn e c (map g reads)) h
  | SInitOnce f _ => f = "nativeFuncs"
  | _ => True
  end.
Definition steps_wf (l : list step) : Prop :=
  disj (set_targets l) ("globals" :: kept) = true /\ Forall step_wf l.

Lemma setExecuteConfig_steps_wf : steps_wf setExecuteConfig_steps.
Proof.
  split; [vm_compute; reflexivity|].
  assert (Hoth : forall f reads fn, String.eqb f "arrays" = false -> step_wf (SSet f reads fn)).
  { intros f reads fn Hf ->. discriminate Hf. }
  unfold setExecuteConfig_steps.
  repeat (apply Forall_cons; [first [exact I | exact eq_refl | apply Hoth; reflexivity | intros _ e c g h Hlen]|]);
    [| | |apply Forall_nil].
  - apply same_len_set_array_value. exact Hlen.
  - apply same_len_set_args. exact Hlen.
  - apply same_len_set_environ. exact Hlen.
Qed.

(* resetVars as one list of bindings *)
Definition resetVars_targets : list field := "globals" :: "arrays" :: "arrays.locals" :: map fst resetVars_binds.

Lemma m_resetVars_other g f : ~ In f resetVars_targets -> m_resetVars g f = g f.
Proof.
  exact (set_all_other (("globals", null_all (g "globals")) :: ("arrays", clear_maps (g "arrays")) ::
                        ("arrays.locals", clear_maps (g "arrays.locals")) :: resetVars_binds) g f).
Qed.

Section Reuse.
  Variable sv : setvars.          (* the Vars loop of setExecuteConfig *)
  Variable e : envt.
  Variable pc : progconst.
  Variable F : val.               (* the nativeFuncs built from Config.Funcs, the same in every run *)
  Variable I : Type.              (* whatever a run depends on: input, files, time, scheduling ... *)
  Variable run : I -> state -> state.   (* executeAll *)

  Hypothesis sv_ni : sv_noninterference sv.
  (* frame of the Vars loop: it writes only fields that setVarByName and its callees write *)
  Hypothesis sv_frame : forall vars s f, ~ In f may_setVarByName -> fst (sv vars s) f = s f.
  Hypothesis sv_globals : forall vars s h, same_len (s "globals") h -> same_len (fst (sv vars s) "globals") h.
  Hypothesis sv_arrays : forall vars s h, same_len (s "arrays") h -> same_len (fst (sv vars s) "arrays") h.
  (* frame of a run, from the generated table *)
  Hypothesis run_frame : forall i s f, ~ In f run_mutable -> run i s f = s f.
  Hypothesis run_globals : forall i s h, same_len (s "globals") h -> same_len (run i s "globals") h.
  Hypothesis run_arrays : forall i s h, same_len (s "arrays") h -> same_len (run i s "arrays") h.

  Definition fresh : state := m_newInterp e pc.

  Record Inv (g : state) : Prop := {
    inv_const : forall f, In f const_fields -> g f = fresh f;
    inv_globals : same_len (g "globals") (fresh "globals");
    inv_arrays : same_len (g "arrays") (fresh "arrays");
    inv_once : once_ok F g
  }.

  Lemma sv_nf : forall vars s, fst (sv vars s) "nativeFuncs" = s "nativeFuncs".
  Proof. intros. apply sv_frame. apply mem_false. vm_compute. reflexivity. Qed.

  Lemma fresh_globals : fresh "globals" = vlist (repeat v_null (vmap_len (pc_scalarIndexes pc))).
  Proof. reflexivity. Qed.
  Lemma fresh_arrays : fresh "arrays" = vlist (repeat VNil (vmap_len (pc_arrayIndexes pc))).
  Proof. reflexivity. Qed.

  Lemma Inv_fresh : Inv fresh.
  Proof.
    split.
    - reflexivity.
    - apply same_len_refl. eexists. apply fresh_globals.
    - apply same_len_refl. eexists. apply fresh_arrays.
    - left. reflexivity.
  Qed.

  Lemma Inv_keep g g' : (forall f, In f kept -> g' f = g f) ->
    same_len (g' "globals") (fresh "globals") -> same_len (g' "arrays") (fresh "arrays") -> Inv g -> Inv g'.
  Proof.
    intros Hk Hg Ha [Hc _ _ Ho]. split.
    - intros f Hf. rewrite (Hk f (in_cons _ _ _ Hf)). apply Hc. exact Hf.
    - exact Hg.
    - exact Ha.
    - unfold once_ok. rewrite (Hk _ (in_eq _ _)). exact Ho.
  Qed.

  (* a list of constant bindings that touches none of the protected fields keeps the invariant *)
  Lemma Inv_set_all l g : disj (map fst l) ("globals" :: "arrays" :: kept) = true -> Inv g -> Inv (set_all l g).
  Proof.
    intros Hl HI.
    assert (Hn : forall f, In f ("globals" :: "arrays" :: kept) -> set_all l g f = g f).
    { intros f Hf. apply set_all_other. intros Hin. exact (disj_sound _ _ f Hl Hin Hf). }
    apply (Inv_keep g).
    - intros f Hf. apply Hn, in_cons, in_cons, Hf.
    - rewrite (Hn _ (in_eq _ _)). apply HI.
    - rewrite (Hn _ (in_cons _ _ _ (in_eq _ _))). apply HI.
    - exact HI.
  Qed.

  Lemma Inv_resetCore g : Inv g -> Inv (m_resetCore g).
  Proof. apply Inv_set_all. vm_compute. reflexivity. Qed.

  Lemma Inv_resetRand g : Inv g -> Inv (m_resetRand e g).
  Proof. apply Inv_set_all. vm_compute. reflexivity. Qed.

  Lemma Inv_prologue en g : Inv g -> Inv (m_prologue en g).
  Proof. apply Inv_set_all. destruct en; vm_compute; reflexivity. Qed.

  Lemma Inv_resetVars g : Inv g -> Inv (m_resetVars g).
  Proof.
    intros HI.
    assert (Hd : disj resetVars_targets kept = true) by (vm_compute; reflexivity).
    apply (Inv_keep g).
    - intros f Hf. apply m_resetVars_other. intros Hin. exact (disj_sound _ _ f Hd Hin Hf).
    - unfold m_resetVars. rewrite set_all_other by (apply mem_false; reflexivity).
      rewrite upd_neq by discriminate. rewrite upd_neq by discriminate. rewrite upd_eq.
      apply (same_len_fill v_null). apply HI.
    - unfold m_resetVars. rewrite set_all_other by (apply mem_false; reflexivity).
      rewrite upd_neq by discriminate. rewrite upd_eq.
      apply (same_len_fill VNil). apply HI.
    - exact HI.
  Qed.

  Lemma Inv_run_steps c : c_funcs c = F -> forall l,
    (forall f, In f (set_targets l) -> ~ In f ("globals" :: kept)) -> Forall step_wf l ->
    once_fn_ok c F l -> forall g, Inv g -> Inv (fst (run_steps sv e c l g)).
  Proof.
    intros HF. induction l as [|st r IH]; intros Ht Hwf Hfn g HI; [exact HI|].
    inversion Hwf as [|? ? Hst Hr]; subst.
    assert (IHr : once_fn_ok c F r -> forall g, Inv g -> Inv (fst (run_steps sv e c r g))).
    { apply IH; [|exact Hr]. intros f Hf. apply Ht. apply in_or_app. right. exact Hf. }
    clear IH. destruct st as [f reads fn | reads chk | f fn | ]; cbn [once_fn_ok run_steps step_wf] in Hfn, Hst |- *.
    - apply IHr; [exact Hfn|].
      pose proof (Ht f (in_eq _ _)) as Hf.
      apply (Inv_keep g).
      + intros x Hx. apply upd_neq. intros ->. exact (Hf (in_cons _ _ _ Hx)).
      + rewrite upd_neq by (intros <-; exact (Hf (in_eq _ _))). apply HI.
      + destruct (string_dec f "arrays") as [->|Hne].
        * rewrite upd_eq. apply (Hst eq_refl). apply HI.
        * rewrite upd_neq by congruence. apply HI.
      + exact HI.
    - destruct (chk c (map g reads)); [exact HI | apply IHr; assumption].
    - rewrite Hst. destruct Hfn as [Hfc Hfn]. apply IHr; [exact Hfn|].
      destruct (init_once F (fn c) g Hfc (inv_once g HI)) as [Hnf Hoth].
      assert (Hnc : ~ In "nativeFuncs" const_fields) by (apply mem_false; vm_compute; reflexivity).
      split.
      + intros h Hh. rewrite Hoth by (intros ->; exact (Hnc Hh)). apply HI. exact Hh.
      + rewrite Hoth by discriminate. apply HI.
      + rewrite Hoth by discriminate. apply HI.
      + right. exact Hnf.
    - assert (Hd : disj kept may_setVarByName = true) by (vm_compute; reflexivity).
      assert (Hg' : Inv (fst (sv (c_vars c) g))).
      { apply (Inv_keep g).
        - intros f Hf. apply sv_frame. exact (disj_sound _ _ f Hd Hf).
        - apply sv_globals. apply HI.
        - apply sv_arrays. apply HI.
        - exact HI. }
      destruct (sv (c_vars c) g) as [g' [err|]]; [exact Hg' | apply IHr; assumption].
  Qed.

  Lemma once_fn_ok_setcfg c : c_funcs c = F -> once_fn_ok c F setExecuteConfig_steps.
  Proof. intros H. simpl. repeat split; try exact I. exact H. Qed.

  Lemma Inv_prepare en c g : c_funcs c = F -> Inv g -> Inv (fst (m_prepare sv e en c g)).
  Proof.
    intros HF Hinv. unfold m_prepare, m_setExecuteConfig.
    destruct setExecuteConfig_steps_wf as [Ht Hwf].
    apply Inv_run_steps; [exact HF | exact (fun f => disj_sound _ _ f Ht) | exact Hwf | apply once_fn_ok_setcfg; exact HF |].
    apply Inv_prologue. apply Inv_resetCore. exact Hinv.
  Qed.

  Lemma Inv_run i g : Inv g -> Inv (run i g).
  Proof.
    intros HI.
    assert (Hd : disj kept run_mutable = true) by (vm_compute; reflexivity).
    apply (Inv_keep g).
    - intros f Hf. apply run_frame. exact (disj_sound _ _ f Hd Hf).
    - apply run_globals. apply HI.
    - apply run_arrays. apply HI.
    - exact HI.
  Qed.

  (* every state an Interpreter can be in: created by New, then any sequence of ResetVars, ResetRand,
     Execute/ExecuteContext calls (accepted by setExecuteConfig and run, with any outcome; or rejected) *)
  Inductive reachable : state -> Prop :=
  | R_new : reachable fresh
  | R_resetVars g : reachable g -> reachable (m_resetVars g)
  | R_resetRand g : reachable g -> reachable (m_resetRand e g)
  | R_execute g en c i : reachable g -> c_funcs c = F -> reachable (run i (fst (m_prepare sv e en c g)))
  | R_rejected g en c : reachable g -> c_funcs c = F -> reachable (fst (m_prepare sv e en c g)).

  Lemma reachable_Inv g : reachable g -> Inv g.
  Proof.
    induction 1.
    - apply Inv_fresh.
    - apply Inv_resetVars. assumption.
    - apply Inv_resetRand. assumption.
    - apply Inv_run. apply Inv_prepare; assumption.
    - apply Inv_prepare; assumption.
  Qed.

  (* the state handed to Execute: reused, with the chosen resets *)
  Definition reused (rv rr : bool) (g : state) : state :=
    opt_apply rv m_resetVars (opt_apply rr (m_resetRand e) g).

  Lemma reused_untouched rv rr g f :
    ~ In f (map fst resetVars_binds ++ ["arrays.locals"; "arrays"; "globals"; "randSeed"; "random"]) ->
    reused rv rr g f = g f.
  Proof.
    intros Hn. unfold reused, opt_apply, m_resetVars, m_resetRand.
    assert (N1 : ~ In f (map fst resetVars_binds)) by (intros X; apply Hn; apply in_or_app; left; exact X).
    assert (N2 : f <> "arrays.locals" /\ f <> "arrays" /\ f <> "globals" /\ f <> "randSeed" /\ f <> "random").
    { repeat split; intros ->; apply Hn; apply in_or_app; right; simpl; tauto. }
    destruct N2 as [Na [Nb [Nc [Nd Ne]]]].
    destruct rv, rr; try reflexivity.
    - rewrite set_all_other by exact N1. rewrite !upd_neq by assumption.
      apply set_all_other. simpl. intros [X|[X|[]]]; congruence.
    - rewrite set_all_other by exact N1. rewrite !upd_neq by assumption. reflexivity.
    - apply set_all_other. simpl. intros [X|[X|[]]]; congruence.
  Qed.

  (* program constants: untouched by the resets, equal by the invariant *)
  Lemma ia_const rv rr g : (forall f, In f const_fields -> g f = fresh f) ->
    forall f, In f const_fields -> reused rv rr g f = carry rv rr g fresh f.
  Proof.
    intros Hc f Hf.
    assert (Hx : forallb (fun f => negb (mem f (map fst resetVars_binds ++ ["arrays.locals"; "arrays"; "globals"; "randSeed"; "random"]))
                                   && negb (has_role VarState f) && negb (has_role RandState f)
                                   && negb (String.eqb f "arrays.locals")) const_fields = true)
      by (vm_compute; reflexivity).
    rewrite forallb_forall in Hx. specialize (Hx f Hf).
    apply andb_true_iff in Hx. destruct Hx as [Hx H4]. apply andb_true_iff in Hx. destruct Hx as [Hx H3].
    apply andb_true_iff in Hx. destruct Hx as [H1 H2].
    apply negb_true_iff in H1, H2, H3, H4. pose proof (mem_false _ _ H1) as Hn.
    rewrite (reused_untouched rv rr g f Hn). unfold carry. rewrite H2, H3, H4.
    destruct rv, rr; cbn [negb andb orb]; apply Hc; exact Hf.
  Qed.

  (* variables and random state: field by field along the concrete list *)
  Lemma ia_vars rv rr g :
    null_all (g "globals") = fresh "globals" -> clear_maps (g "arrays") = fresh "arrays" ->
    forall f, In f (var_fields ++ rand_fields) -> reused rv rr g f = carry rv rr g fresh f.
  Proof.
    intros Hgl Har. apply Forall_forall.
    set (l := (var_fields ++ rand_fields)%list). vm_compute in l. subst l. unfold reused, opt_apply.
    destruct rv, rr; repeat (apply Forall_cons; [first [reflexivity | exact Hgl | exact Har]|]); apply Forall_nil.
  Qed.

  Lemma Inv_null_all g : Inv g -> null_all (g "globals") = fresh "globals".
  Proof. intros HI. apply (fill_fresh v_null). apply HI. Qed.
  Lemma Inv_clear_maps g : Inv g -> clear_maps (g "arrays") = fresh "arrays".
  Proof. intros HI. apply (fill_fresh VNil). apply HI. Qed.

  Lemma initial_agreement_pointwise rv rr g : Inv g ->
    forall f, In f (const_fields ++ (var_fields ++ rand_fields)) -> reused rv rr g f = carry rv rr g fresh f.
  Proof.
    intros HI f Hf. destruct (in_app_or _ _ f Hf) as [H|H].
    - apply ia_const; [apply (inv_const g HI) | exact H].
    - apply ia_vars; [apply Inv_null_all; exact HI | apply Inv_clear_maps; exact HI | exact H].
  Qed.

  (* Before Execute, the reused interpreter and a new one (into which the not-reset variables / random state
     have been copied) agree on: the program constants, every variable, the random state. *)
  Lemma initial_agreement rv rr g : Inv g -> agree A0 (reused rv rr g) (carry rv rr g fresh).
  Proof. intros HI. exact (initial_agreement_pointwise rv rr g HI). Qed.

  Lemma Inv_reused rv rr g : Inv g -> Inv (reused rv rr g).
  Proof.
    intros H. unfold reused, opt_apply. destruct rv, rr; auto using Inv_resetVars, Inv_resetRand.
  Qed.

  Lemma once_ok_carry rv rr g : once_ok F (carry rv rr g fresh).
  Proof. left. destruct rv, rr; reflexivity. Qed.


  (* the analysis, run on the concrete tables: every observable field ends up in the agreement set *)
  Lemma flowB_covers en : exists B,
    flow setExecuteConfig_steps (rev (map fst (prologue_binds en)) ++ rev (map fst resetCore_binds) ++ A0) = Some B /\
    incl (obs_fields en) B.
  Proof.
    destruct en as [|ck cv dv]; apply flow_covers_b; vm_compute; reflexivity.
  Qed.

  (* MAIN LEMMA.  g: any state an Interpreter can be in.  The caller optionally calls ResetVars (rv) and
     ResetRand (rr), then Execute/ExecuteContext (en) with any Config c.  Compared with: the same call on a
     NEW interpreter into which the variables (if not rv) and the random state (if not rr) of g were copied.
     Then setExecuteConfig gives the same verdict on both, and if it accepts, the two interpreters enter
     executeAll agreeing on every observable field (everything but caches and scratch). *)
  Theorem reuse_vs_new : forall rv rr g en c, reachable g -> c_funcs c = F ->
    let r := m_prepare sv e en c (reused rv rr g) in
    let f := m_prepare sv e en c (carry rv rr g fresh) in
    snd r = snd f /\ (snd r = None -> agree (obs_fields en) (fst r) (fst f)).
  Proof.
    intros rv rr g en c Hr HF r f.
    destruct (flowB_covers en) as [B [HB Hincl]].
    pose proof (reachable_Inv g Hr) as HI.
    destruct (prepare_sound sv e c F sv_ni sv_nf en A0 B (reused rv rr g) (carry rv rr g fresh) HF HB
                (initial_agreement rv rr g HI) (inv_once _ (Inv_reused rv rr g HI)) (once_ok_carry rv rr g)) as [H1 H2].
    split; [exact H1 | intros Hn; eapply agree_incl; [exact Hincl | apply H2; exact Hn]].
  Qed.

  (* New + Execute = ExecProgram (newInterp + setExecuteConfig, no resetCore) *)
  Definition not_argc : list field := filter (fun f => negb (String.eqb f "argc")) model_fields.

  (* resetCore and the Execute prologue change nothing but argc in a new interpreter *)
  Lemma resetCore_on_fresh : agree not_argc (m_prologue EExec (m_resetCore fresh)) fresh.
  Proof.
    assert (Hb : Forall (fun kv => fst kv = "argc" \/ fresh (fst kv) = snd kv) (resetCore_binds ++ prologue_binds EExec)).
    { cbv [resetCore_binds prologue_binds app].
      repeat (apply Forall_cons; [first [right; reflexivity | left; reflexivity]|]). apply Forall_nil. }
    rewrite Forall_forall in Hb.
    assert (Hn : ~ In "argc" not_argc) by (apply mem_false; vm_compute; reflexivity).
    intros f Hf. unfold m_prologue, m_resetCore, set_all. rewrite <- fold_left_app. apply set_all_same.
    intros v Hin. destruct (Hb _ Hin) as [Ha|Hv]; [|exact Hv].
    simpl in Ha. subst f. contradiction.
  Qed.

  Theorem execprogram_eq_new_execute : forall c, c_funcs c = F ->
    let a := m_prepare sv e EExec c fresh in
    let b := m_setExecuteConfig sv e c fresh in
    snd a = snd b /\ (snd a = None -> agree (obs_fields EExec) (fst a) (fst b)).
  Proof.
    intros c HF a b.
    assert (HB : exists B, flow setExecuteConfig_steps not_argc = Some B /\ incl (obs_fields EExec) B).
    { apply flow_covers_b. vm_compute. reflexivity. }
    destruct HB as [B [HB Hincl]].
    assert (Ho1 : once_ok F (m_prologue EExec (m_resetCore fresh))) by (left; reflexivity).
    assert (Ho2 : once_ok F fresh) by (left; reflexivity).
    destruct (flow_sound sv e c F sv_ni sv_nf setExecuteConfig_steps not_argc B _ _
                (once_fn_ok_setcfg c HF) HB resetCore_on_fresh Ho1 Ho2) as [H1 H2].
    split; [exact H1 | intros Hn; eapply agree_incl; [exact Hincl | apply H2; exact Hn]].
  Qed.
End Reuse.

(* everything assumed about the two unmodelled transformers *)
Definition hyps (sv : setvars) (I : Type) (run : I -> state -> state) : Prop :=
  sv_noninterference sv /\
  (forall vars s f, ~ In f may_setVarByName -> fst (sv vars s) f = s f) /\
  (forall vars s h, same_len (s "globals") h -> same_len (fst (sv vars s) "globals") h) /\
  (forall vars s h, same_len (s "arrays") h -> same_len (fst (sv vars s) "arrays") h) /\
  (forall i s f, ~ In f run_mutable -> run i s f = s f) /\
  (forall i s h, same_len (s "globals") h -> same_len (run i s "globals") h) /\
  (forall i s h, same_len (s "arrays") h -> same_len (run i s "arrays") h).

(* "a reused Interpreter, prepared for its next run, agrees with a new one on the fields L" *)
Definition reuse_statement (L : entry -> list field) : Prop :=
  forall (sv : setvars) (e : envt) (pc : progconst) (F : val) (I : Type) (run : I -> state -> state),
    hyps sv I run ->
    forall rv rr g en c, reachable sv e pc F I run g -> c_funcs c = F ->
      let r := m_prepare sv e en c (reused e rv rr g) in
      let f := m_prepare sv e en c (carry rv rr g (fresh e pc)) in
      snd r = snd f /\ (snd r = None -> agree (L en) (fst r) (fst f)).

(* the full statement of the design: all observable fields *)
Definition reuse_eq_fresh_full : Prop := reuse_statement obs_fields.

Theorem reuse_eq_fresh : reuse_eq_fresh_full.
Proof.
  intros sv e pc F I run [H1 [H2 [H3 [H4 [H5 [H6 H7]]]]]] rv rr g en c Hr HF.
  exact (reuse_vs_new sv e pc F I run H1 H2 H3 H4 H5 H6 H7 rv rr g en c Hr HF).
Qed.

Lemma reachable_invariant_hyps :
  forall sv e pc F I run, hyps sv I run -> forall g, reachable sv e pc F I run g -> Inv e pc F g.
Proof.
  intros sv e pc F I run [H1 [H2 [H3 [H4 [H5 [H6 H7]]]]]] g Hr.
  exact (reachable_Inv sv e pc F I run H2 H3 H4 H5 H6 H7 g Hr).
Qed.

(* after ResetVars and ResetRand the comparison is with an untouched new interpreter *)
Lemma carry_full g s : carry true true g s = s.
Proof. reflexivity. Qed.

Corollary reuse_eq_fresh_after_resets :
  forall sv e pc F I run, hyps sv I run ->
  forall g en c, reachable sv e pc F I run g -> c_funcs c = F ->
    let r := m_prepare sv e en c (m_resetVars (m_resetRand e g)) in
    let f := m_prepare sv e en c (m_newInterp e pc) in
    snd r = snd f /\ (snd r = None -> agree (obs_fields en) (fst r) (fst f)).
Proof.
  intros sv e pc F I run Hh g en c Hr HF.
  pose proof (reuse_eq_fresh sv e pc F I run Hh true true g en c Hr HF) as H.
  rewrite carry_full in H. exact H.
Qed.

(* whatever is computed from the prepared state by looking only at the agreed fields (the rest of the run:
   output, exit status, error) is the same on both interpreters *)
Corollary same_outcome :
  forall sv e pc F I run, hyps sv I run ->
  forall (O : Type) (outcome : state -> O) rv rr g en c,
    (forall s1 s2, agree (obs_fields en) s1 s2 -> outcome s1 = outcome s2) ->
    reachable sv e pc F I run g -> c_funcs c = F ->
    snd (m_prepare sv e en c (reused e rv rr g)) = None ->
    outcome (fst (m_prepare sv e en c (reused e rv rr g))) =
    outcome (fst (m_prepare sv e en c (carry rv rr g (fresh e pc)))).
Proof.
  intros sv e pc F I run Hh O outcome rv rr g en c Hout Hr HF Hn.
  apply Hout. apply (reuse_eq_fresh sv e pc F I run Hh rv rr g en c Hr HF). exact Hn.
Qed.

(* non-vacuity: a concrete instance of the hypotheses *)
Definition sv_id : setvars := fun _ s => (s, None).
(* a run that reads a CSV header and ends with a record assignment outside the main loop *)
Definition run_header (_ : unit) (s : state) : state :=
  upd "reparseCSV" (VB true) (upd "fieldNames" (VL [VS [97]; VS [98]]) s).
Definition config0 : config :=
  mkConfig false false 0 0 0 false 0 0 None [] [] false [] false [] None false false false VNil VNil VNil (VL []) 0.

Lemma hyps_example : hyps sv_id unit run_header.
Proof.
  unfold hyps. split; [|split; [|split; [|split; [|split; [|split]]]]].
  - intros vars A s1 s2 _ Ha. split; [reflexivity | exact Ha].
  - reflexivity.
  - intros vars s h Hh. exact Hh.
  - intros vars s h Hh. exact Hh.
  - intros i s f Hn. unfold run_header.
    assert (H1 : In "fieldNames" run_mutable) by (apply mem_In; vm_compute; reflexivity).
    assert (H2 : In "reparseCSV" run_mutable) by (apply mem_In; vm_compute; reflexivity).
    rewrite !upd_neq; [reflexivity | |]; intros ->; contradiction.
  - intros i s h Hh. unfold run_header. rewrite !upd_neq by discriminate. exact Hh.
  - intros i s h Hh. unfold run_header. rewrite !upd_neq by discriminate. exact Hh.
Qed.

(* the history that used to refute the statement (F-C14-1, F-C14-2, repaired): after a run that read a CSV
   header and left reparseCSV set, the reused interpreter prepared for its next run has neither *)
Lemma header_run_is_reset :
  let g := run_header tt (fst (m_prepare sv_id env0 EExec config0 (fresh env0 pc0))) in
  g "fieldNames" = VL [VS [97]; VS [98]] /\ g "reparseCSV" = VB true /\
  fst (m_prepare sv_id env0 EExec config0 g) "fieldNames" = VNil /\
  fst (m_prepare sv_id env0 EExec config0 g) "reparseCSV" = VB false /\
  predict_diff sv_id env0 pc0 EExec config0 false false g = PDiff [].
Proof. vm_compute. repeat split; reflexivity. Qed.
