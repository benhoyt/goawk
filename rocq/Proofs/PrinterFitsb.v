(* C20 — a decision procedure for C04's [fits] (sound: fitsb = true -> fits), so that the harness can
   check on every tree the real parser builds that it is a writing that respects the table, i.e. that
   the hypothesis of C20_print_parse describes the image of the parser (on the fragment fits covers). *)
From Verif Require Import Lib.Base Model.ExprAst Model.ExprParser
  Proofs.ExprParserMono Proofs.ExprParserRel Proofs.PrecSpec Proofs.ExprParserPrinted.
Local Open Scope nat_scope.

Definition not_regex_startb (e : expr) : bool :=
  match first_tok e with TRegex _ | TDiv | TDivAssign => false | _ => true end.

Definition binop_eqb (a b : binop) : bool :=
  match a, b with
  | BAdd, BAdd | BSub, BSub | BMul, BMul | BDiv, BDiv | BMod, BMod | BPow, BPow | BEq, BEq | BNe, BNe | BLt, BLt
  | BLe, BLe | BGt, BGt | BGe, BGe | BMatch, BMatch | BNotMatch, BNotMatch | BAnd, BAnd | BOr, BOr | BConcat, BConcat => true
  | _, _ => false
  end.

Definition aug_okb (op : binop) : bool :=
  match assign_op (aug_tok op) with Some (AsgAug o) => binop_eqb o op | _ => false end.

Fixpoint fitsb (pc : bool) (k : nat) (e : expr) : bool :=
  let all := fix all (es : list expr) : bool := match es with [] => true | x :: r => fitsb false 0 x && all r end in
  match e with
  | ENum _ | EStr _ | ERegex _ | EVar _ => true
  | EStrRegex _ => false
  | EGroup x => fitsb false 0 x
  | EField i => fitsb false 13 i
  | EIndex _ idx => negb (match idx with [] => true | _ => false end) && all idx
  | EUserCall _ args => all args
  | EIn [x] _ => (k <=? 5) && fitsb pc 5 x && ok pc x TIn
  | EIn ((_ :: _ :: _) as idx) _ => all idx
  | EUnary _ v => fitsb false 11 v
  | EBinary op l r =>
      match op with
      | BOr => (k <=? 3) && fitsb pc 3 l && ok pc l TOr && fitsb pc 4 r
      | BAnd => (k <=? 4) && fitsb pc 4 l && ok pc l TAnd && fitsb pc 5 r
      | BMatch | BNotMatch =>
          (k <=? 6) && fitsb pc 7 l && ok pc l TMatch &&
          match r with EStrRegex _ => true | _ => fitsb pc 7 r && not_regex_startb r end
      | BEq | BNe | BLt | BLe | BGt | BGe =>
          (k <=? 7) && negb (pc && binop_eqb op BGt) && fitsb pc 8 l && ok pc l (hd_tok (binop_tok op)) && fitsb pc 8 r
      | BConcat =>
          (k <=? 8) && fitsb pc 8 l && fitsb pc 9 r &&
          concat_start (first_tok r) && (tok_cont pc (first_tok r) <=? 9) && ok pc l (first_tok r)
      | BAdd | BSub => (k <=? 9) && fitsb pc 9 l && ok pc l TAdd && fitsb pc 10 r
      | BMul | BDiv | BMod => (k <=? 10) && fitsb pc 10 l && ok pc l TMul && fitsb pc 11 r
      | BPow => (k <=? 11) && fitsb pc 12 l && ok pc l TPow && fitsb pc 11 r
      end
  | ECond c t f => (k <=? 2) && fitsb pc 3 c && ok pc c TQuestion && fitsb pc 0 t && fitsb pc 0 f
  | EAssign l r => (k =? 0) && is_lvalue l && fitsb pc 1 l && ok pc l TAssign && fitsb pc 0 r
  | EAugAssign op l r => (k =? 0) && is_lvalue l && fitsb pc 1 l && ok pc l TAssign && fitsb pc 0 r && aug_okb op
  | EIncr _ true x =>
      match x with
      | EVar _ => true
      | EIndex _ _ => fitsb false 13 x
      | EField i => fitsb false 13 i
      | _ => false
      end
  | EIncr _ false x =>
      match x with
      | EVar _ => k <=? 12
      | EIndex _ _ => (k <=? 12) && fitsb false 13 x
      | EField i => fitsb false 13 i && ok false i TIncr
      | _ => false
      end
  | _ => false
  end.

Lemma binop_eqb_eq a b : binop_eqb a b = true -> a = b.
Proof. destruct a, b; first [reflexivity | discriminate]. Qed.

Lemma aug_okb_ok op : aug_okb op = true -> assign_op (aug_tok op) = Some (AsgAug op).
Proof. unfold aug_okb. destruct (assign_op (aug_tok op)) as [[|o]|]; try discriminate. intros H. apply binop_eqb_eq in H. congruence. Qed.

Lemma not_regex_startb_ok e : not_regex_startb e = true -> not_regex_start e.
Proof. unfold not_regex_startb, not_regex_start. destruct (first_tok e); try discriminate; intros; exact I. Qed.

Ltac split_andb :=
  repeat match goal with
  | H : _ && _ = true |- _ => apply andb_prop in H; destruct H
  end.

Lemma all_fitb_ok es :
  Forall (fun e => forall pc k, fitsb pc k e = true -> fits pc k e) es ->
  (fix all (es : list expr) : bool := match es with [] => true | x :: r => fitsb false 0 x && all r end) es = true ->
  all_fit (fits false 0) es.
Proof.
  induction 1 as [|x r Hx _ IH]; intros H; cbn [all_fit]; [exact I|].
  apply andb_prop in H as [H1 H2]. split; [apply Hx; exact H1 | apply IH; exact H2].
Qed.

Theorem fitsb_sound : forall e pc k, fitsb pc k e = true -> fits pc k e.
Proof.
  induction e using expr_ind'; intros pc k Hb; cbn [fitsb] in Hb; cbn [fits]; try exact I; try discriminate.
  9: { (* incr *)
    destruct pre.
    + destruct e; try discriminate; try exact I.
      * apply (IHe false 13). cbn [fitsb]. exact Hb.
      * apply (IHe false 13). exact Hb.
    + destruct e; try discriminate.
      * split_andb. split; [apply (IHe false 13); cbn [fitsb]; assumption | assumption].
      * apply Nat.leb_le; exact Hb.
      * split_andb. split; [apply Nat.leb_le; assumption | apply (IHe false 13); assumption]. }
  5: { (* binary *)
    destruct op; split_andb;
      try (repeat split; [apply Nat.leb_le; assumption | apply IHe1; assumption | assumption | apply IHe2; assumption]).
    (* comparisons: in the print tower the operator is not > *)
    1-6: repeat split; [apply Nat.leb_le; assumption | intros -> | apply IHe1; assumption | assumption | apply IHe2; assumption];
         first [discriminate | match goal with Hn : negb _ = true |- _ => discriminate Hn end].
    (* ~ and !~ *)
    1-2: repeat split; [apply Nat.leb_le; assumption | apply IHe1; assumption | assumption |];
         destruct e2; try exact I; split_andb; (split; [apply IHe2; assumption | apply not_regex_startb_ok; assumption]).
    (* concatenation *)
    repeat split; [apply Nat.leb_le; assumption | apply IHe1; assumption | apply IHe2; assumption | assumption
                  | apply Nat.leb_le; assumption | assumption]. }
  3: (* in *) destruct idx as [|x [|y r]]; try discriminate; [pose proof (Forall_inv H) as Hx | apply all_fitb_ok; assumption].
  2: (* index *) split_andb; (split; [destruct idx; discriminate | apply all_fitb_ok; assumption]).
  all: split_andb; repeat split; auto using all_fitb_ok, aug_okb_ok; first [apply Nat.leb_le | apply Nat.eqb_eq]; assumption.
Qed.
