(* C19: whatever Go's map iteration order is, the list of functions the resolver
   walks is an arrangement of the defined functions without repetition; hence the
   outcome of resolving is one of the finitely many outcomes of [resolve_order]
   over the permutations of the function list (what the model runner enumerates). *)
From Verif Require Import Lib.Base Model.Resolver Model.Determinism Proofs.Resolver Proofs.ResolverSound
  Proofs.ResolverExact Proofs.ResolverTopo Proofs.ResolverBound Proofs.ResolverLoop.
From Coq Require Import Permutation.
Open Scope Z_scope.

Lemma In_insert_all {A} (x : A) l l1 l2 : l = l1 ++ l2 -> In (l1 ++ x :: l2) (insert_all x l).
Proof.
  revert l. induction l1 as [|y l1 IH]; intros l ->; cbn [app].
  - destruct l2; cbn [insert_all]; left; reflexivity.
  - cbn [insert_all]. right. apply in_map. apply IH. reflexivity.
Qed.

Lemma perms_complete {A} (l : list A) : forall l', Permutation l l' -> In l' (perms l).
Proof.
  induction l as [|x r IH]; intros l' Hp; cbn [perms].
  - apply Permutation_nil in Hp. subst. left; reflexivity.
  - assert (Hx : In x l') by (eapply Permutation_in; [exact Hp | left; reflexivity]).
    apply in_split in Hx. destruct Hx as [l1 [l2 ->]].
    apply Permutation_cons_app_inv in Hp.
    apply in_flat_map. exists (l1 ++ l2). split; [apply IH; exact Hp | apply In_insert_all; reflexivity].
Qed.

Lemma insert_all_perm {A} (x : A) l l' : In l' (insert_all x l) -> Permutation (x :: l) l'.
Proof.
  revert l'. induction l as [|y r IH]; intros l' H; cbn [insert_all] in H.
  - destruct H as [<-|[]]. apply Permutation_refl.
  - destruct H as [<-|H]; [apply Permutation_refl|].
    apply in_map_iff in H. destruct H as [m [<- Hm]].
    eapply Permutation_trans; [apply perm_swap | apply perm_skip; apply IH; exact Hm].
Qed.

Lemma perms_sound {A} (l : list A) : forall l', In l' (perms l) -> Permutation l l'.
Proof.
  induction l as [|x r IH]; intros l' H; cbn [perms] in H.
  - destruct H as [<-|[]]. apply Permutation_refl.
  - apply in_flat_map in H. destruct H as [m [Hm H]].
    eapply Permutation_trans; [apply perm_skip; apply IH; exact Hm | apply insert_all_perm; exact H].
Qed.

Section TopoNoDup.
Variable pi : oracle.
Variable g : graph.

Definition sp_inv (ts : tstate) : Prop :=
  NoDup (t_sorted ts) /\ (forall x, In x (t_sorted ts) <-> In x (t_perm ts)).

(* the invariant is kept, and no node that is being visited is finished meanwhile *)
Definition sp_step (ts ts' : tstate) : Prop :=
  sp_inv ts -> sp_inv ts' /\ (forall x, In x (t_temp ts) -> ~ In x (t_perm ts) -> ~ In x (t_perm ts')).

Lemma visit_sp fuel : forall n ts ts', visit fuel pi g n ts = Some ts' -> sp_step ts ts'.
Proof.
  apply visit_ind.
  - intros ts Hj. split; [exact Hj | auto].
  - intros vfuel m a a' b Ev Haa' Ha'b Ha.
    destruct (Haa' Ha) as [Ha' Hkeep]. destruct (Ha'b Ha') as [Hb Hkeep'].
    destruct (visit_vrel pi g vfuel m a a' Ev) as [Htemp _].
    split; [exact Hb|]. intros x Hx Hnp. apply Hkeep'; [rewrite Htemp; exact Hx | apply Hkeep; assumption].
  - intros n ts ts2 Ep Et H Hj. destruct (H Hj) as [[Hnd Hiff] Hkeep]. cbn [enter t_temp t_perm] in Hkeep.
    assert (Hn2 : ~ In n (t_perm ts2)) by (apply Hkeep; [left; reflexivity | exact Ep]).
    split; [split|]; cbn [leave t_sorted t_perm t_temp].
    + apply NoDup_snoc; [exact Hnd|]. intros Hc. apply Hn2. apply Hiff. exact Hc.
    + intros x. rewrite in_app_iff. cbn [In]. rewrite Hiff. tauto.
    + intros x Hx Hnp [<-|Hc]; [contradiction|]. revert Hc. apply Hkeep; [right; exact Hx | exact Hnp].
Qed.

Lemma topo_loop_sp fuel vfuel : forall ts ts',
  topo_loop fuel vfuel pi g ts = Some ts' -> sp_inv ts -> sp_inv ts'.
Proof.
  induction fuel as [|fuel IH]; intros ts ts' H Hj.
  - cbn [topo_loop] in H. destruct (t_unmarked ts); [injection H as <-; exact Hj | discriminate].
  - rewrite topo_loop_S in H. destruct (t_unmarked ts) as [|u us]; [injection H as <-; exact Hj|].
    destruct (visit vfuel pi g _ (tick ts)) as [ts2|] eqn:Ev; [|discriminate].
    eapply IH; [exact H|]. eapply visit_sp; [exact Ev | exact Hj].
Qed.

Lemma topo_sort_nodup sorted ctr : topo_sort pi g = Some (sorted, ctr) -> NoDup sorted.
Proof.
  unfold topo_sort. destruct g as [|e r] eqn:Eg; [intros H; injection H as <- _; constructor|].
  rewrite <- Eg.
  destruct (topo_loop _ _ pi g _) as [ts|] eqn:E; [|discriminate].
  intros H. injection H as <- _.
  apply topo_loop_sp in E; [apply E|]. split; [constructor|]. intros x; split; intros [].
Qed.

End TopoNoDup.

Lemma ordered_funcs_nodup pi P order :
  perm_oracle pi -> NoDup (fnames P) -> ordered_funcs pi P = Some order -> NoDup order.
Proof.
  intros Hpi Hnd H. unfold ordered_funcs in H.
  destruct (topo_sort pi (call_graph P)) as [[sorted ctr]|] eqn:Et; [|discriminate]. injection H as <-.
  apply topo_sort_nodup in Et.
  assert (Hf : NoDup (pi ctr (fnames P))).
  { eapply Permutation_NoDup; [apply Permutation_sym; apply Hpi | exact Hnd]. }
  apply NoDup_app_disj; [exact Et | apply NoDup_filter; exact Hf|].
  intros y Hy Hy'. apply filter_In in Hy'. destruct Hy' as [_ Hy']. apply negb_true_iff in Hy'.
  apply mem_not_In in Hy'. contradiction.
Qed.

(* only the defined functions in the order matter *)
Definition real (P : program) (order : list name) : list name :=
  filter (fun fn => negb (is_empty fn) && is_func P fn) order.

Lemma is_func_find P fn : is_func P fn = false -> find_func P fn = None.
Proof.
  intros H. destruct (find_func P fn) as [[i fd]|] eqn:E; [|reflexivity].
  assert (Ht : is_func P fn = true) by (apply find_func_is_func; eauto). congruence.
Qed.

Lemma walk_funcs_real P order : forall s, walk_funcs P order s = walk_funcs P (real P order) s.
Proof.
  induction order as [|fn order IH]; intros s; [reflexivity|].
  unfold real. cbn [walk_funcs filter]. fold (real P order).
  destruct (is_empty fn) eqn:Ee; cbn [negb andb]; [apply IH|].
  destruct (is_func P fn) eqn:Ef.
  - cbn [walk_funcs]. rewrite Ee. destruct (find_func P fn) as [[i fd]|]; [|apply IH].
    destruct (run_steps P fn (flat_events (f_body fd)) s); try reflexivity. apply IH.
  - rewrite (is_func_find P fn Ef). apply IH.
Qed.

Lemma real_perm P order :
  NoDup (fnames P) -> names_ok P -> NoDup order -> covers P order -> Permutation (fnames P) (real P order).
Proof.
  intros Hnd Hne Hno Hcov. apply NoDup_Permutation; [exact Hnd | apply NoDup_filter; exact Hno|].
  intros x. unfold real. rewrite filter_In. split.
  - intros Hx. unfold fnames in Hx. apply in_map_iff in Hx. destruct Hx as [fd [<- Hfd]].
    split; [apply Hcov; exact Hfd|]. apply andb_true_iff. split.
    + apply negb_true_iff. apply is_empty_false. apply Hne. exact Hfd.
    + apply is_func_In. unfold fnames. apply in_map. exact Hfd.
  - intros [_ Hx]. apply andb_true_iff in Hx. apply is_func_In. apply Hx.
Qed.

(* ENUMERATION: whatever the map iteration order, the outcome is among the
   outcomes of [resolve_order] over the permutations of the function names *)
Theorem outcome_enumerated pi P :
  perm_oracle pi -> names_ok P -> In (resolve pi P) (order_outcomes (pass_fuel P) P).
Proof.
  intros Hpi Hne. rewrite resolve_is_cut. unfold resolve_cut, order_outcomes.
  destruct (first_dup [] (fnames P)) as [f|] eqn:Ed.
  - apply in_map_iff. exists (fnames P). split; [|apply perms_complete; apply Permutation_refl].
    unfold resolve_order. rewrite Ed. reflexivity.
  - pose proof (ordered_funcs_total pi P Hpi) as Ht.
    destruct (ordered_funcs pi P) as [order|] eqn:Eo; [|congruence].
    destruct (first_dup_none _ _ Ed) as [Hnd _].
    apply in_map_iff. exists (real P order). split; [symmetry; apply resolve_order_walk, walk_funcs_real|].
    apply perms_complete. apply real_perm; [exact Hnd | exact Hne | | eapply ordered_funcs_covers; eassumption].
    eapply ordered_funcs_nodup; eassumption.
Qed.
