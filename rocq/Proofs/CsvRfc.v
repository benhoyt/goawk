(* C08: on every input the reader returns the fields of the RFC 4180 specification [rfc_parse]
   (lexer and six-state machine of Model/Csv.v), for a single-byte separator and comment character:
   the splitter's loops are followed on the machine line by line.  (Multi-byte separators are
   covered only by the correspondence check: Coq spec = harness reference reader = implementation.) *)
From Verif Require Import Lib.Base Lib.Utf8 Model.Csv Proofs.CsvBase Proofs.CsvFuel
  Proofs.CsvAccount Proofs.CsvRoundtrip.
From Coq Require Import ZifyBool.

(* [rstep] and [rfc_run] of Model/Csv.v without the registers [r_raw] and [r_cr], which the
   fields do not depend on ([run3_ok]) *)
Definition reg3 : Type := rstate * bytes * list bytes.

Section Spec3.
Variable sepb comb : bytes.

Definition rstep3 (g : reg3) (t : tok) : reg3 * option (list bytes) :=
  let '(q, cur, fs) := g in
  let unq :=
    match t with
    | TSep => ((RField, [], fs ++ [cur]), None)
    | TNL _ => ((RLine, [], []), Some (fs ++ [cur]))
    | _ => ((RUnq, cur ++ lit sepb comb t, fs), None)
    end in
  match q with
  | RLine =>
      match t with
      | TNL _ => ((RLine, [], []), None)
      | TCom => ((RComment, [], []), None)
      | TQ => ((RQuo, [], []), None)
      | _ => unq
      end
  | RComment =>
      match t with
      | TNL _ => ((RLine, [], []), None)
      | _ => (g, None)
      end
  | RField =>
      match t with
      | TQ => ((RQuo, [], fs), None)
      | _ => unq
      end
  | RUnq => unq
  | RQuo =>
      match t with
      | TQ => ((RAfterQ, cur, fs), None)
      | TNL _ => ((RQuo, cur ++ [10], fs), None)
      | _ => ((RQuo, cur ++ lit sepb comb t, fs), None)
      end
  | RAfterQ =>
      match t with
      | TQ => ((RQuo, cur ++ [34], fs), None)
      | TSep => ((RField, [], fs ++ [cur]), None)
      | TNL _ => ((RLine, [], []), Some (fs ++ [cur]))
      | _ => ((RQuo, cur ++ [34] ++ lit sepb comb t, fs), None)
      end
  end.

Fixpoint run3 (g : reg3) (ts : list tok) : list (list bytes) :=
  match ts with
  | [] =>
      match g with
      | (RLine, _, _) | (RComment, _, _) => []
      | (_, cur, fs) => [fs ++ [cur]]
      end
  | t :: r =>
      let '(g', out) := rstep3 g t in
      match out with
      | Some x => x :: run3 g' r
      | None => run3 g' r
      end
  end.

Definition reg3_of (g : rreg) : reg3 := (r_q g, r_cur g, r_fs g).

Lemma rstep3_ok g t :
  reg3_of (fst (rstep sepb comb g t)) = fst (rstep3 (reg3_of g) t) /\
  option_map (fun r => fst (fst r)) (snd (rstep sepb comb g t)) = snd (rstep3 (reg3_of g) t).
Proof.
  destruct g as [q cur fs raw cr]. unfold reg3_of. cbn [r_q r_cur r_fs].
  destruct q, t; cbn; try destruct crlf; cbn; auto.
Qed.

Lemma run3_ok eofcr : forall ts g,
  map (fun r => fst (fst r)) (rfc_run sepb comb eofcr g ts) = run3 (reg3_of g) ts.
Proof.
  induction ts as [|t ts IH]; intros g.
  - destruct g as [q cur fs raw cr]. unfold reg3_of. cbn. destruct q; reflexivity.
  - cbn [rfc_run run3]. destruct (rstep3_ok g t) as [H1 H2].
    destruct (rstep sepb comb g t) as [g' out]. destruct (rstep3 (reg3_of g) t) as [g3 out3].
    cbn [fst snd] in *. subst g3 out3. destruct out as [x|]; cbn [option_map map]; rewrite IH; reflexivity.
Qed.

End Spec3.

Definition ev_fields (ev : event) : list bytes :=
  match ev with ERecord _ fs => fs | EHeader fs => fs end.

Definition comb_of (c : csv_cfg) : bytes := if c_comment c =? 0 then [] else encode_rune (c_comment c).

Section Ascii.
Variable c : csv_cfg.
Hypothesis Hsep : valid_sep (c_sep c).
Hypothesis Hs128 : c_sep c < 128.
Hypothesis Hcom : c_comment c = 0 \/ (valid_sep (c_comment c) /\ c_comment c < 128).
Hypothesis Hne : c_sep c <> c_comment c.

Notation sep := (c_sep c).
Notation com := (c_comment c).
Notation sepb := (sep_bytes c).
Notation comb := (comb_of c).

Lemma sepb_eq : sepb = [sep].
Proof. apply enc_ascii; assumption. Qed.

Lemma comb_eq : comb = if com =? 0 then [] else [com].
Proof.
  unfold comb_of. destruct (Z.eqb_spec com 0); [reflexivity|].
  destruct Hcom as [H | [H1 H2]]; [contradiction | apply enc_ascii; assumption].
Qed.

Lemma sep_facts : sep <> 10 /\ sep <> 13 /\ sep <> 34 /\ 0 <= sep.
Proof. pose proof Hsep as H. apply valid_sep_iff in H. lia. Qed.

Lemma com_facts : com <> 10 /\ com <> 13 /\ com <> 34 /\ 0 <= com < 128.
Proof.
  destruct Hcom as [-> | [H1 H2]]; [lia|]. apply valid_sep_iff in H1. lia.
Qed.

Notation L := (lex sepb comb 0).
Notation run := (run3 sepb comb).

(* the token of a byte that is neither LF nor the CR of a CR LF *)
Definition tokb (x : Z) : tok :=
  if x =? 34 then TQ
  else if x =? sep then TSep
  else if negb (com =? 0) && (x =? com) then TCom
  else TB x.

Lemma tokb_cases x :
  (x = 34 /\ tokb x = TQ) \/ (x = sep /\ tokb x = TSep) \/
  (x <> 34 /\ x <> sep /\ ((com <> 0 /\ x = com /\ tokb x = TCom) \/ tokb x = TB x)).
Proof.
  unfold tokb. destruct (Z.eqb_spec x 34); [left; auto|]. destruct (Z.eqb_spec x sep); [right; left; auto|].
  right. right. split; [assumption|]. split; [assumption|].
  destruct (Z.eqb_spec com 0); cbn [negb andb]; [right; reflexivity|].
  destruct (Z.eqb_spec x com); [left; auto | right; reflexivity].
Qed.

Lemma lit_tokb x : lit sepb comb (tokb x) = [x].
Proof.
  destruct (tokb_cases x) as [[-> ->] | [[-> ->] | (_ & _ & [(C0 & -> & ->) | ->])]];
    [reflexivity | exact sepb_eq | | reflexivity].
  cbn [lit]. rewrite comb_eq. destruct (Z.eqb_spec com 0); [contradiction | reflexivity].
Qed.

Lemma lex_byte x R : x <> 10 -> (x = 13 -> prefix_of [10] R = false) ->
  L (x :: R) = tokb x :: L R.
Proof.
  intros H10 H13. cbn [lex]. unfold tokb.
  destruct (Z.eqb_spec x 34) as [->|N34]; [reflexivity|].
  destruct (Z.eqb_spec x 10); [contradiction|].
  assert (Hcr : (x =? 13) && prefix_of [10] R = false)
    by (destruct (Z.eqb_spec x 13) as [E|]; [apply H13; exact E | reflexivity]).
  rewrite Hcr, sepb_eq. cbn [prefix_of zlen length]. rewrite (Z.eqb_sym sep x).
  destruct (Z.eqb_spec x sep); [reflexivity|]. cbn [andb].
  rewrite comb_eq. destruct (Z.eqb_spec com 0); cbn [negb andb prefix_of]; [reflexivity|].
  rewrite (Z.eqb_sym com x). destruct (Z.eqb_spec x com); reflexivity.
Qed.

Lemma lex_crlf R : L (13 :: 10 :: R) = TNL true :: L R.
Proof. reflexivity. Qed.

Lemma lex_plain : forall w R, nob 10 w -> (last_is 13 w = true -> prefix_of [10] R = false) ->
  L (w ++ R) = map tokb w ++ L R.
Proof.
  induction w as [|x w IH]; intros R Hw Hb; [reflexivity|].
  apply nob_cons in Hw as [Hx Hw]. cbn [app map]. rewrite lex_byte.
  - f_equal. apply IH; [exact Hw|]. intros E. apply Hb. cbn [last_is]. destruct w; [discriminate | exact E].
  - exact Hx.
  - intros ->. destruct w as [|y w]; [apply Hb; reflexivity|].
    apply nob_cons in Hw as [Hy _]. cbn [app prefix_of]. destruct (Z.eqb_spec 10 y); [congruence | reflexivity].
Qed.

Lemma rstep3_copy q x cur fs : (q = RUnq /\ x <> sep) \/ (q = RQuo /\ x <> 34) ->
  rstep3 sepb comb (q, cur, fs) (tokb x) = ((q, cur ++ [x], fs), None).
Proof.
  intros H. rewrite <- (lit_tokb x).
  destruct (tokb_cases x) as [[E T] | [[E T] | (_ & _ & [(_ & _ & T) | T])]]; rewrite T;
    destruct H as [[-> Hx] | [-> Hx]]; try contradiction; reflexivity.
Qed.

Lemma run_copy q : forall w cur fs ts, (q = RUnq /\ nob sep w) \/ (q = RQuo /\ nob 34 w) ->
  run (q, cur, fs) (map tokb w ++ ts) = run (q, cur ++ w, fs) ts.
Proof.
  induction w as [|x w IH]; intros cur fs ts H; [rewrite app_nil_r; reflexivity|].
  cbn [map app run3]. rewrite rstep3_copy, IH.
  - rewrite <- app_assoc. reflexivity.
  - destruct H as [[-> Hn] | [-> Hn]]; apply nob_cons in Hn as [_ Hn]; auto.
  - destruct H as [[-> Hn] | [-> Hn]]; apply nob_cons in Hn as [Hx _]; auto.
Qed.

Lemma run_comment_plain : forall w cur fs ts,
  run (RComment, cur, fs) (map tokb w ++ ts) = run (RComment, cur, fs) ts.
Proof.
  induction w as [|x w IH]; intros cur fs ts; [reflexivity|]. cbn [map app run3].
  destruct (tokb_cases x) as [[_ T] | [[_ T] | (_ & _ & [(_ & _ & T) | T])]]; rewrite T; apply IH.
Qed.

(* [line] is what readLine cut off in front of [data]: it ends in its only LF, or it is the
   unterminated last line *)
Definition isline (line data : bytes) : Prop :=
  (exists w, line = w ++ [10] /\ nob 10 w) \/ (nob 10 line /\ data = []).

Lemma isline_nil data : isline [] data -> data = [].
Proof. intros [(w & Ew & _) | [_ H]]; [destruct w; discriminate | exact H]. Qed.

Lemma isline_fl X : isline (fl1 X) (fl2 X).
Proof.
  unfold fl1, fl2, fl. destruct (cut_nl X) as [[l d]|] eqn:E; cbn [fst snd].
  - destruct (cut_nl_some_inv _ _ _ E) as (u & -> & Hu & _). left. eauto.
  - right. split; [apply cut_nl_none_inv; exact E | reflexivity].
Qed.

Lemma fl1_nil X : fl1 X = [] -> X = [].
Proof.
  intros H. destruct X as [|x X]; [reflexivity|]. exfalso.
  apply (fl1_nonempty (x :: X)); [discriminate | exact H].
Qed.

Lemma isline_cut w b rest data : isline (w ++ b :: rest) data -> b <> 10 -> nob 10 w /\ isline rest data.
Proof.
  intros [(u & E & Hu) | [H Hd]] Hb.
  - destruct (@exists_last _ (b :: rest) ltac:(discriminate)) as (v & y & Ev).
    rewrite Ev, app_assoc in E. apply app_inj_tail in E as [<- ->].
    apply nob_app in Hu as [Hw Hv]. split; [exact Hw|].
    destruct v as [|b' v]; injection Ev as Eb Ev; [congruence|]. subst rest.
    apply nob_cons in Hv as [_ Hv]. left. eauto.
  - apply nob_app in H as [Hw H]. apply nob_cons in H as [_ H]. split; [exact Hw | right; auto].
Qed.

Lemma nc_suffix u v : last_is 13 (u ++ v) = false -> last_is 13 v = false.
Proof. destruct v as [|x v]; [reflexivity|]. rewrite last_is_app by discriminate. auto. Qed.

Lemma read_line_true data : last_is 13 data = false -> read_line data true = Some (fl1 data, fl2 data, 0).
Proof.
  intros H. unfold read_line, fl1, fl2, fl. destruct (cut_nl data) as [[l d]|]; [reflexivity|].
  rewrite H. reflexivity.
Qed.

(* at EOF readLine drops one final CR of the last line: the specification sees the input
   without it *)
Definition sc (d : bytes) : bytes := if last_is 13 d then removelast d else d.

Lemma sc_nil : sc [] = [].
Proof. reflexivity. Qed.

(* the three ways a line ends *)
Lemma lex_line line data : isline line data ->
  exists u nl, line = u ++ nl /\ nob 10 u /\ len_newline line = zlen nl /\
    L (line ++ sc data) = map tokb u ++ L nl ++ L (sc data) /\
    (nl = [10] \/ nl = [13; 10] \/ (nl = [] /\ data = [])).
Proof.
  intros [(w & -> & Hw) | [H ->]].
  - destruct (last_is 13 w) eqn:E.
    + destruct (last_is_split _ _ E) as [u ->]. apply nob_app in Hw as [Hu _].
      exists u, [13; 10]. rewrite <- !app_assoc. cbn [app].
      split; [reflexivity|]. split; [exact Hu|]. split; [apply len_newline_crlf|]. split; [|auto].
      rewrite lex_plain by (auto; intros; reflexivity). rewrite lex_crlf. reflexivity.
    + exists w, [10]. rewrite <- !app_assoc. cbn [app].
      split; [reflexivity|]. split; [exact Hw|]. split; [apply len_newline_bare_lf; exact E|]. split; [|auto].
      rewrite lex_plain by (auto; congruence). reflexivity.
  - exists line, []. rewrite sc_nil, !app_nil_r.
    split; [reflexivity|]. split; [exact H|]. split; [apply len_newline_no_lf; exact H|]. split; [|auto].
    rewrite <- (app_nil_r line) at 1. rewrite lex_plain by (auto; intros; reflexivity). apply app_nil_r.
Qed.

Lemma sc_cut data l d : cut_nl data = Some (l, d) -> sc data = l ++ sc d.
Proof.
  intros H. destruct (cut_nl_some_inv _ _ _ H) as (u & -> & _ & ->). unfold sc.
  destruct d as [|x d].
  - rewrite app_nil_r. rewrite last_is_snoc. cbn. rewrite app_nil_r. reflexivity.
  - rewrite last_is_app by discriminate. destruct (last_is 13 (x :: d)); [|reflexivity].
    apply removelast_app. discriminate.
Qed.

Lemma read_line_sc data :
  read_line data true = match cut_nl data with
                        | Some (l, d) => Some (l, d, 0)
                        | None => Some (sc data, [], zlen data - zlen (sc data))
                        end.
Proof.
  unfold read_line, sc. destruct (cut_nl data) as [[l d]|]; [reflexivity|].
  destruct (last_is 13 data) eqn:E.
  - pose proof (zlen_removelast data (last_is_nonempty _ _ E)). do 2 f_equal. lia.
  - do 2 f_equal. lia.
Qed.

Lemma nob10_sc data : nob 10 data -> nob 10 (sc data).
Proof. intros H. unfold sc. destruct (last_is 13 data); [apply nob_removelast|]; exact H. Qed.

(* a line that is more than a line break starts with a byte that is none *)
Lemma lex_head x t data : isline (x :: t) data -> len_newline (x :: t) <> zlen (x :: t) ->
  exists ts, L ((x :: t) ++ sc data) = tokb x :: ts.
Proof.
  intros Hl Nnl.
  destruct (lex_line _ _ Hl) as (u & nl & E & _ & Hln & -> & _).
  destruct u as [|y u]; [cbn [app] in E; rewrite <- E in Hln; contradiction|].
  injection E as <- _. eexists. reflexivity.
Qed.

Lemma read_line_eof data : exists l d inc,
  read_line data true = Some (l, d, inc) /\ isline l d /\ sc data = l ++ sc d.
Proof.
  rewrite read_line_sc. destruct (cut_nl data) as [[l d]|] eqn:Cn.
  - exists l, d, 0. split; [reflexivity|]. split; [|apply sc_cut; exact Cn].
    destruct (cut_nl_some_inv _ _ _ Cn) as (w & -> & Hw & _). left. eauto.
  - exists (sc data), [], (zlen data - zlen (sc data)). split; [reflexivity|].
    split; [|rewrite sc_nil, app_nil_r; reflexivity].
    right. split; [apply nob10_sc, cut_nl_none_inv; exact Cn | reflexivity].
Qed.

Lemma sep_len_1 : sep_len c = 1.
Proof. rewrite (sep_len_zlen c Hsep), sepb_eq. reflexivity. Qed.

Lemma next_rune_sep1 l : next_rune l = sep -> exists t, l = sep :: t.
Proof. intros H. destruct (next_rune_sep c l Hsep H) as [t ->]. rewrite sepb_eq. exists t. reflexivity. Qed.

Lemma next_rune_com l : com <> 0 -> next_rune l = com -> exists t, l = com :: t.
Proof.
  intros H0 H. destruct Hcom as [E | [Hv H128]]; [contradiction|].
  destruct (valid_sep_rune com Hv) as [V1 V2].
  destruct (decode_prefix l com H V1 V2) as [t ->].
  rewrite (enc_ascii _ Hv H128). exists t. reflexivity.
Qed.

Lemma lex_plain_cons w b R : nob 10 w -> b <> 10 -> L (w ++ b :: R) = map tokb w ++ L (b :: R).
Proof.
  intros Hw Hb. apply lex_plain; [exact Hw|]. intros _. cbn [prefix_of].
  destruct (Z.eqb_spec 10 b); [congruence | reflexivity].
Qed.

Lemma lex_sep R : L (sep :: R) = TSep :: L R.
Proof.
  destruct sep_facts as (S10 & S13 & S34 & _). rewrite lex_byte by (assumption || contradiction).
  unfold tokb. destruct (Z.eqb_spec sep 34); [contradiction|]. rewrite Z.eqb_refl. reflexivity.
Qed.

Lemma lex_com R : com <> 0 -> L (com :: R) = TCom :: L R.
Proof.
  intros H0. destruct com_facts as (C10 & C13 & C34 & _). rewrite lex_byte by (assumption || contradiction).
  unfold tokb. destruct (Z.eqb_spec com 34); [contradiction|]. destruct (Z.eqb_spec com sep); [congruence|].
  destruct (Z.eqb_spec com 0); [contradiction|]. rewrite Z.eqb_refl. reflexivity.
Qed.

(* What the machine does on the shapes of line that the two parse loops tell apart.  (Its steps on
   a quote at the start of a field and on a quote after a closing quote hold by computation.) *)

Lemma run_field_unq_start fs ts : (forall ts', ts <> TQ :: ts') ->
  run (RField, [], fs) ts = run (RUnq, [], fs) ts.
Proof.
  intros H. destruct ts as [|t ts]; [reflexivity|]. destruct t; try reflexivity. exfalso. eapply H. reflexivity.
Qed.

Lemma starts_quote_prefix u v : starts_quote (u ++ v) = false -> u <> [] -> starts_quote u = false.
Proof. destruct u; [congruence | auto]. Qed.

Lemma run_field_plain w fs ts : nob sep w -> starts_quote w = false -> (forall ts', ts <> TQ :: ts') ->
  run (RField, [], fs) (map tokb w ++ ts) = run (RUnq, w, fs) ts.
Proof.
  intros Hs Hq Hts. destruct w as [|x w].
  - cbn [map app]. apply run_field_unq_start. exact Hts.
  - rewrite run_field_unq_start.
    + rewrite run_copy by auto. reflexivity.
    + cbn [map app]. intros ts' E. injection E as E _. unfold tokb in E. cbn in Hq.
      destruct (x =? 34); [discriminate|]. destruct (x =? sep); [discriminate|].
      destruct (negb (com =? 0) && (x =? com)); discriminate.
Qed.

Lemma run_field_sep w done R : nob 10 w -> nob sep w -> starts_quote w = false ->
  run (RField, [], done) (L (w ++ sep :: R)) = run (RField, [], done ++ [w]) (L R).
Proof.
  intros H10 Hs Hq. destruct sep_facts as (S10 & _). rewrite lex_plain_cons, lex_sep by assumption.
  rewrite run_field_plain by (assumption || discriminate). reflexivity.
Qed.

Lemma run_quoted_quote w cur done R : nob 10 w -> nob 34 w ->
  run (RQuo, cur, done) (L (w ++ 34 :: R)) = run (RAfterQ, cur ++ w, done) (L R).
Proof.
  intros H10 Hq. rewrite lex_plain_cons by (assumption || discriminate).
  change (L (34 :: R)) with (TQ :: L R). rewrite run_copy by auto. reflexivity.
Qed.

Lemma run_afterq_sep cur done R :
  run (RAfterQ, cur, done) (L (sep :: R)) = run (RField, [], done ++ [cur]) (L R).
Proof. rewrite lex_sep. reflexivity. Qed.

(* a byte that is neither quote nor separator is copied, also just after a quote *)
Lemma run_afterq_bare x cur done ts : x <> 34 -> x <> sep ->
  run (RAfterQ, cur, done) (tokb x :: ts) = run (RQuo, cur ++ [34], done) (tokb x :: ts).
Proof.
  intros X34 Xs.
  destruct (tokb_cases x) as [[E _] | [[E _] | (_ & _ & [(_ & _ & T) | T])]]; try contradiction;
    rewrite T; cbn [run3 rstep3]; rewrite <- !app_assoc; reflexivity.
Qed.

Definition RL0 : reg3 := (RLine, [], []).

(* a quoted field takes a whole line, its CR LF folded to LF *)
Lemma run_quoted_line line data cur done : isline line data -> nob 34 line ->
  run (RQuo, cur, done) (L (line ++ sc data)) =
  run (RQuo, if len_newline line =? 2 then cur ++ ztake (zlen line - 2) line ++ [10] else cur ++ line, done)
      (L (sc data)).
Proof.
  intros Hl Hq.
  destruct (lex_line line data Hl) as (u & nl & -> & Hu & -> & -> & Hnl).
  apply nob_app in Hq as [Hq _]. rewrite run_copy by auto.
  destruct Hnl as [-> | [-> | [-> _]]].
  - rewrite (app_assoc cur u [10]). reflexivity.
  - rewrite zlen_app, Z.add_simpl_r, ztake_zlen_app, (app_assoc cur u [10]). reflexivity.
  - rewrite app_nil_r. reflexivity.
Qed.

Lemma run_comment_line t d : com <> 0 -> isline (com :: t) d ->
  run RL0 (L ((com :: t) ++ sc d)) = run RL0 (L (sc d)).
Proof.
  intros C0 Hl. destruct com_facts as (C10 & _).
  destruct (isline_cut [] com t d Hl C10) as [_ Hl'].
  destruct (lex_line t d Hl') as (u & nl & _ & _ & _ & E & Hnl).
  cbn [app]. rewrite lex_com, E by exact C0. cbn [run3 rstep3 RL0]. rewrite run_comment_plain.
  destruct Hnl as [-> | [-> | [-> ->]]]; reflexivity.
Qed.

Lemma run_blank_line l R : l <> [] -> len_newline l = zlen l -> run RL0 (L (l ++ R)) = run RL0 (L R).
Proof.
  intros Hl H. destruct (len_newline_all _ H) as [-> | [-> | ->]]; [contradiction | reflexivity|].
  cbn [app]. rewrite lex_crlf. reflexivity.
Qed.

(* What a parse loop returns when it is entered at the start of [line] with the machine in state
   [g]: the record the machine completes next, the machine being left at the start of a line
   with [dataF] to come.  At EOF the loops never ask for more data. *)
Definition sim (g : reg3) (line data : bytes) (adv : Z) (r : parse_res) : Prop :=
  isline line data ->
  match r with
  | PDone adv' fields _ =>
      exists dataF, suffix_of dataF data /\ adv' + zlen dataF = adv + zlen line + zlen data /\
        run g (L (line ++ sc data)) = fields :: run RL0 (L (sc dataF))
  | PNeed => False
  | PFuel => True
  end.

Lemma sim_continue g g' line line' data data' adv adv1 r :
  (isline line data ->
     isline line' data' /\ suffix_of data' data /\
     adv1 + zlen line' + zlen data' = adv + zlen line + zlen data /\
     run g (L (line ++ sc data)) = run g' (L (line' ++ sc data'))) ->
  sim g' line' data' adv1 r -> sim g line data adv r.
Proof.
  intros Hc H Hl. destruct (Hc Hl) as (Hl' & Hs' & Ha' & Hrun). specialize (H Hl').
  destruct r as [|adv' fields cr'|]; [exact H | | exact I].
  destruct H as (dF & Hs & Ha & Hr). exists dF.
  split; [exact (suffix_trans _ _ _ Hs Hs')|]. split; [lia|]. rewrite Hrun. exact Hr.
Qed.

(* the loop goes on behind a delimiter [b] *)
Lemma sim_step g g' w b rest data adv adv1 r : b <> 10 -> adv1 = adv + zlen (w ++ [b]) ->
  (nob 10 w -> forall R, run g (L (w ++ b :: R)) = run g' (L R)) ->
  sim g' rest data adv1 r -> sim g (w ++ b :: rest) data adv r.
Proof.
  intros Hb -> Hrun. apply sim_continue. intros Hl. destruct (isline_cut _ _ _ _ Hl Hb) as [Hw Hl'].
  split; [exact Hl'|]. split; [apply suffix_refl|]. split; [zl; lia|].
  rewrite <- app_assoc. cbn [app]. apply Hrun. exact Hw.
Qed.

Lemma sim_afterq_bare cur done line data adv r :
  next_rune line <> 34 -> next_rune line <> sep -> len_newline line <> zlen line ->
  sim (RQuo, cur ++ [34], done) line data adv r -> sim (RAfterQ, cur, done) line data adv r.
Proof.
  intros N34 Ns Nnl. apply sim_continue. intros Hl.
  split; [exact Hl|]. split; [apply suffix_refl|]. split; [reflexivity|].
  destruct line as [|x t]; [cbn in Nnl; lia|].
  destruct (lex_head x t data Hl Nnl) as [ts ->].
  apply run_afterq_bare; intros ->.
  - apply N34. apply next_rune_ascii. lia.
  - apply Ns. apply next_rune_ascii. exact Hs128.
Qed.

Lemma sim_next_line cur done line data l d inc adv r : nob 34 line ->
  read_line data true = Some (l, d, inc) -> isline l d -> sc data = l ++ sc d ->
  sim (RQuo, if len_newline line =? 2 then cur ++ ztake (zlen line - 2) line ++ [10] else cur ++ line, done)
      l d (adv + zlen line + inc) r ->
  sim (RQuo, cur, done) line data adv r.
Proof.
  intros Hq Rl Hl' Hsc. apply sim_continue. intros Hl. apply read_line_acct in Rl as (Ra & Rs & _).
  split; [exact Hl'|]. split; [exact Rs|]. split; [lia|].
  rewrite <- Hsc. apply run_quoted_line; assumption.
Qed.

Lemma sim_field_end line data adv done cr : nob sep line -> starts_quote line = false ->
  sim (RField, [], done) line data adv
    (PDone (adv + zlen line) (done ++ [ztake (zlen line - len_newline line) line]) cr).
Proof.
  intros Hs Q Hl. exists data. split; [apply suffix_refl|]. split; [reflexivity|].
  destruct (lex_line line data Hl) as (u & nl & -> & Hu & -> & -> & Hnl).
  apply nob_app in Hs as [Hs _]. rewrite zlen_app, Z.add_simpl_r, ztake_zlen_app.
  assert (Qu : starts_quote u = false) by (destruct u; [reflexivity | exact Q]).
  destruct Hnl as [-> | [-> | [-> ->]]];
    rewrite run_field_plain by (assumption || discriminate); reflexivity.
Qed.

Lemma sim_afterq_end cur done line data adv cr : len_newline line = zlen line ->
  sim (RAfterQ, cur, done) line data adv (PDone (adv + zlen line) (done ++ [cur]) cr).
Proof.
  intros Enl Hl. exists data. split; [apply suffix_refl|]. split; [reflexivity|].
  destruct (len_newline_all _ Enl) as [-> | [-> | ->]].
  - apply isline_nil in Hl as ->. reflexivity.
  - reflexivity.
  - cbn [app]. rewrite lex_crlf. reflexivity.
Qed.

Lemma parse_sim : forall f,
  (forall line data adv done cr,
     sim (RField, [], done) line data adv (parse_field c true f line data adv done cr)) /\
  (forall line data adv cur done cr,
     sim (RQuo, cur, done) line data adv (parse_quoted c true f line data adv cur done cr)).
Proof.
  destruct sep_facts as (S10 & _).
  induction f as [|f [IHf IHq]]; split; intros; try (intros _; exact I).
  - rewrite parse_field_S. destruct (starts_quote line) eqn:Q.
    + destruct (starts_quote_inv _ Q) as [t ->]. rewrite zdrop_1_cons.
      apply sim_step with (g' := (RQuo, [], done)) (w := []) (adv1 := adv + 1);
        [discriminate | reflexivity | intros _ R; reflexivity | apply IHq].
    + rewrite sepb_eq, cut_sub_byte, sep_len_1. destruct (cut_byte sep line) as [[field rest]|] eqn:E.
      * apply cut_byte_some_inv in E as [-> Hns].
        apply sim_step with (g' := (RField, [], done ++ [field])) (adv1 := adv + zlen field + 1);
          [exact S10 | zl; lia | | apply IHf].
        intros H10 R. apply run_field_sep; [exact H10 | exact Hns|].
        destruct field; [reflexivity | exact Q].
      * apply sim_field_end; [apply cut_byte_none_inv; exact E | exact Q].
  - rewrite parse_quoted_S. destruct (cut_byte 34 line) as [[pre line1]|] eqn:E.
    + apply cut_byte_some_inv in E as [-> Hnq]. cbv zeta.
      apply sim_step with (g' := (RAfterQ, cur ++ pre, done)) (adv1 := adv + zlen pre + 1);
        [discriminate | zl; lia | intros H10 R; apply run_quoted_quote; assumption |].
      destruct (Z.eqb_spec (next_rune line1) 34) as [R34|N34].
      { destruct (next_rune_34 _ R34) as [t ->]. rewrite zdrop_1_cons.
        apply sim_step with (g' := (RQuo, (cur ++ pre) ++ [34], done)) (w := []) (adv1 := adv + zlen pre + 1 + 1);
          [discriminate | reflexivity | intros _ R; reflexivity | apply IHq]. }
      destruct (Z.eqb_spec (next_rune line1) sep) as [Rs|Ns].
      { destruct (next_rune_sep1 _ Rs) as [t ->]. rewrite sep_len_1, zdrop_1_cons.
        apply sim_step with (g' := (RField, [], done ++ [cur ++ pre])) (w := []) (adv1 := adv + zlen pre + 1 + 1);
          [exact S10 | reflexivity | intros _ R; apply run_afterq_sep | apply IHf]. }
      destruct (Z.eqb_spec (len_newline line1) (zlen line1)) as [Enl|Nnl];
        [apply sim_afterq_end; exact Enl | apply sim_afterq_bare; [exact N34 | exact Ns | exact Nnl | apply IHq]].
    + apply cut_byte_none_inv in E. destruct line as [|x line].
      * intros Hl. apply isline_nil in Hl as ->.
        exists []. split; [apply suffix_refl|]. split; [zl; lia | reflexivity].
      * cbv zeta. destruct (read_line_eof data) as (l & d & inc & Rl & Hl' & Hsc). rewrite Rl.
        apply (sim_next_line _ _ _ _ l d inc _ _ E Rl Hl' Hsc). apply IHq.
Qed.

Lemma skip_sim : forall f data adv skip,
  match skip_lines c true f data adv skip with
  | SkLine line data' adv' skip' =>
      isline line data' /\ run RL0 (L (sc data)) = run (RField, [], []) (L (line ++ sc data'))
  | SkNeed => run RL0 (L (sc data)) = []
  | SkFuel => True
  end.
Proof.
  induction f as [|f IH]; intros data adv skip; [exact I|].
  rewrite skip_lines_S. destruct (read_line_eof data) as (l & d & inc & -> & Hl & ->). cbv zeta.
  destruct (Z.eqb_spec (zlen l) 0) as [Z0|Z0].
  { apply zlen_0_nil in Z0. subst l. apply isline_nil in Hl as ->. reflexivity. }
  destruct (negb (com =? 0) && (next_rune l =? com)) eqn:Cm.
  { apply andb_true_iff in Cm as [Cm0 Cm1]. apply negb_true_iff in Cm0. apply Z.eqb_neq in Cm0. apply Z.eqb_eq in Cm1.
    destruct (next_rune_com _ Cm0 Cm1) as [t ->]. rewrite run_comment_line by assumption. apply IH. }
  destruct (Z.eqb_spec (zlen l) (len_newline l)) as [Bl|Bl].
  { rewrite run_blank_line; [apply IH | intros ->; apply Z0; reflexivity | symmetry; exact Bl]. }
  split; [exact Hl|].
  destruct l as [|x t]; [exfalso; apply Z0; reflexivity|].
  destruct (lex_head x t d Hl ltac:(congruence)) as [ts ->].
  destruct (tokb_cases x) as [[_ T] | [[_ T] | (_ & _ & [(C0 & -> & _) | T])]]; try (rewrite T; reflexivity).
  (* the line would have been taken for a comment *)
  destruct com_facts as (_ & _ & _ & Cr).
  rewrite (next_rune_ascii com t (proj2 Cr)), Z.eqb_refl in Cm.
  destruct (Z.eqb_spec com 0); [contradiction | discriminate].
Qed.

Lemma bdy_nobom s d : st_noBOM s = true -> bdy s d = d.
Proof. intros H. unfold bdy, isbom. rewrite H. reflexivity. Qed.

Lemma read_all_rfc : forall f s data, (length data < f)%nat ->
  map ev_fields (read_all f c s data) = run RL0 (L (sc (bdy s data))).
Proof.
  induction f as [|f IH]; intros s data Hf; [lia|].
  cbn [read_all]. rewrite scan_unfold. cbn [andb].
  pose proof (bdy_len s data) as [HBA HA].
  destruct (Z.eqb_spec (zlen (bdy s data)) 0) as [Z0|Z0].
  { apply zlen_0_nil in Z0. rewrite Z0. reflexivity. }
  pose proof (skip_sim (S (length (bdy s data))) (bdy s data) (a0 s data) (a0 s data)) as Hsk.
  destruct (skip_lines c true _ _ _ _) as [| |line d adv1 skip] eqn:Sk.
  - cbn [map]. symmetry. exact Hsk.
  - exfalso. eapply skip_enough; [|exact Sk]. lia.
  - destruct Hsk as (Hl & Hrun).
    pose proof (skip_lines_size _ _ _ _ _ _ _ _ _ _ Sk) as Hsz.
    pose proof (proj1 (parse_sim (S (length (bdy s data)))) line d adv1 [] false Hl) as Hp.
    destruct (parse_field c true _ _ _ _ _ _) as [|adv fields cr|] eqn:P.
    + contradiction.
    + destruct Hp as (dF & Hs & Ha & Hr).
      pose proof (row_acct c true Hsep _ _ _ _ _ _ _ _ _ _ _ Sk P) as [H1 H2].
      pose proof (skip_acct c true _ _ _ _ _ _ _ _ Sk) as (Ss & Sa & _).
      (* the next call sees what parseField left *)
      assert (Hdrop : zdrop adv data = dF).
      { apply zdrop_suffix_of; [|lia]. apply (suffix_trans _ d); [exact Hs|].
        apply (suffix_trans _ (bdy s data)); [exact Ss|]. eexists. apply bdy_split. }
      assert (Hnext : forall s', st_noBOM s' = true ->
                map ev_fields (read_all f c s' (zdrop adv data)) = run RL0 (L (sc dF))).
      { intros s' Hs'. rewrite Hdrop, IH; [rewrite bdy_nobom by exact Hs'; reflexivity|].
        unfold zlen in *. lia. }
      rewrite Hrun, Hr, scan_done_inside by lia.
      destruct ((st_row s =? 0) && c_header c); cbn [map ev_fields]; f_equal; apply Hnext; reflexivity.
    + exfalso. eapply (proj1 (parse_enough c true _)); [|exact P]. lia.
Qed.

End Ascii.

(* The reader's fields are those of the RFC 4180 specification. *)
Theorem reader_is_rfc c data :
  valid_sep (c_sep c) -> c_sep c < 128 ->
  (c_comment c = 0 \/ (valid_sep (c_comment c) /\ c_comment c < 128)) -> c_sep c <> c_comment c ->
  map ev_fields (read_file c data) = rfc_parse (c_sep c) (c_comment c) data.
Proof.
  intros Hv H128 Hc Hne. unfold read_file.
  rewrite (read_all_rfc c Hv H128 Hc Hne) by lia.
  unfold rfc_parse, rfc_records. rewrite run3_ok. reflexivity.
Qed.
