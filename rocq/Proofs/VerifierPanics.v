(* C02: the committed classification of every panic-raising / panic-handling site that the
   translator finds in the repository (Gen/Panics.v, regenerated on every check from packages
   lexer, internal/ast, parser, internal/resolver, internal/compiler, interp and the command).

   Sites with a syntactic justification are classified by RULE from the generated facts:
     - panic(p.errorf / ast.PosErrorf / &ast.PositionError / &compileError): control-flow panic,
       recovered by parser.ParseProgram resp. compiler.Compile (both recover() sites are in the table);
     - MustCompile of a string literal: a constant pattern, compiled at package initialisation
       (exercised by every run of the harness);
     - an explicit index x[k] / x[len(x)-k] with len(x) consulted earlier in the same function.
   Every other site needs an ENTRY below, keyed by package + function + kind and valid only for
   the exact number of such sites in that function: a new panic, MustCompile, unchecked type
   assertion, recover or explicit index anywhere in those packages changes the table and breaks
   [all_sites_classified] until it is classified here. *)
From Coq Require Import List String ZArith Bool.
From Verif Require Import Gen.Panics.
Import ListNotations.
Open Scope string_scope.

Inductive pclass : Type :=
| CControl                      (* (i) control-flow panic carrying *ast.PositionError / *compileError, recovered at the API boundary *)
| CBoundary                     (* the recover() of an API boundary *)
| CConstant                     (* constant pattern *)
| CLenChecked                   (* length consulted earlier in the function (syntactic fact of the table) *)
| CInvariant (thm : string)     (* (ii) reachable only if the named, separately established invariant fails *)
| CGuarded (why : string)       (* guarded by a check / contract of the callee, by reading *)
| CReachable (finding : string).  (* (iii) reachable: a finding *)

Definition kind_eqb (a b : site_kind) : bool :=
  match a, b with
  | SKPanic, SKPanic | SKMustCompile, SKMustCompile | SKAssert, SKAssert | SKRecover, SKRecover | SKIndex, SKIndex => true
  | _, _ => false
  end.

Definition rule_class (s : site) : option pclass :=
  match s_kind s, s_arg s with
  | SKPanic, AKPosError =>
      if String.eqb (s_pkg s) "parser" || String.eqb (s_pkg s) "internal/resolver" then Some CControl else None
  | SKPanic, AKCompileError => if String.eqb (s_pkg s) "internal/compiler" then Some CControl else None
  | SKMustCompile, AKLiteral => Some CConstant
  | SKIndex, AKLenChecked => Some CLenChecked
  | _, _ => None
  end.

(* package, function, kind, number of sites of that kind in the function that are NOT classified
   by rule, class per site in source order *)
Record entry : Type := { e_pkg : string; e_func : string; e_kind : site_kind; e_classes : list pclass }.

Definition resolver_typing := "C16_sound / C16_exact (Properties/C16.v): the type the resolver records for a name is the type of every use".
Definition parser_shape := "parser builds this node with exactly these children (parser.go primary/stmt: by reading; every node kind is compiled word-for-word in C01's correspondence)".
Definition closed_nodes := "exhaustive switch over the closed set of node types of internal/ast (by reading; C01 compile correspondence exercises every kind)".
Definition verifier := "C02_checked_code_never_stuck + C02_limits_sound (Properties/C02.v): the static pass run on the compiled code of every explored program".
Definition native_checked := "C17_valid_sig_no_panic_partial (Properties/C17.v): checkNativeFunc accepted the signature".
Definition regexp_contract := "regexp.FindIndex / FindStringIndex / FindAllStringIndex return nil or pairs (stdlib contract); nil is tested first".

Definition entries : list entry :=
  [ {| e_pkg := "lexer"; e_func := "*Lexer.scanRegex"; e_kind := SKPanic;
       e_classes := [CInvariant "API misuse guard: the parser calls ScanRegex only from the DIV / DIV_ASSIGN case of primary (by reading)"] |};
    {| e_pkg := "internal/ast"; e_func := "Walk"; e_kind := SKPanic; e_classes := [CInvariant closed_nodes] |};
    {| e_pkg := "parser"; e_func := "ParseProgram"; e_kind := SKRecover; e_classes := [CBoundary] |};
    {| e_pkg := "parser"; e_func := "ParseProgram"; e_kind := SKAssert;
       e_classes := [CInvariant "only *ast.PositionError and class-(ii) panics are raised below ParseProgram: the resolver no longer reflects on non-function or nil Funcs values (C17_never_panics, C16_no_panic); a class-(ii) panic needs a failed invariant and is re-raised here"] |};
    {| e_pkg := "internal/resolver"; e_func := "*mainVisitor.Visit"; e_kind := SKIndex;
       e_classes := [CInvariant parser_shape; CInvariant parser_shape] |};
    {| e_pkg := "internal/resolver"; e_func := "*mainVisitor.Visit"; e_kind := SKAssert; e_classes := [CInvariant parser_shape] |};
    {| e_pkg := "internal/compiler"; e_func := "Compile"; e_kind := SKRecover; e_classes := [CBoundary] |};
    {| e_pkg := "internal/compiler"; e_func := "Compile"; e_kind := SKAssert;
       e_classes := [CInvariant "only *compileError and class-(ii) panics are raised below Compile; the latter need a failed invariant"] |};
    {| e_pkg := "internal/compiler"; e_func := "*compiler.scalarInfo"; e_kind := SKPanic; e_classes := [CInvariant resolver_typing] |};
    {| e_pkg := "internal/compiler"; e_func := "*compiler.arrayInfo"; e_kind := SKPanic; e_classes := [CInvariant resolver_typing] |};
    {| e_pkg := "internal/compiler"; e_func := "*compiler.stmt"; e_kind := SKPanic; e_classes := [CInvariant closed_nodes] |};
    {| e_pkg := "internal/compiler"; e_func := "*compiler.patchBreaks"; e_kind := SKIndex;
       e_classes := [CInvariant "every patchBreaks follows the append to c.breaks of the same loop statement (compiler.stmt: by reading; C01 compiler model)"] |};
    {| e_pkg := "internal/compiler"; e_func := "*compiler.patchContinues"; e_kind := SKIndex;
       e_classes := [CInvariant "every patchContinues follows the append to c.continues of the same loop statement (by reading; C01 compiler model)"] |};
    {| e_pkg := "internal/compiler"; e_func := "*compiler.expr"; e_kind := SKIndex;
       e_classes := [CInvariant parser_shape; CInvariant parser_shape] |};
    {| e_pkg := "internal/compiler"; e_func := "*compiler.expr"; e_kind := SKAssert;
       e_classes := [CInvariant parser_shape; CInvariant resolver_typing] |};
    {| e_pkg := "internal/compiler"; e_func := "*compiler.expr"; e_kind := SKPanic;
       e_classes := [CInvariant closed_nodes; CInvariant closed_nodes] |};
    {| e_pkg := "internal/compiler"; e_func := "*compiler.regexIndex"; e_kind := SKMustCompile;
       e_classes := [CGuarded "parser.regexStr compiled the same AddRegexFlags(regex) with regexp.Compile and reported a parse error otherwise"] |};
    {| e_pkg := "internal/compiler"; e_func := "*compiler.binaryOp"; e_kind := SKPanic; e_classes := [CInvariant closed_nodes] |};
    {| e_pkg := "internal/compiler"; e_func := "*disassembler.localName"; e_kind := SKPanic; e_classes := [CInvariant verifier] |};
    {| e_pkg := "internal/compiler"; e_func := "*disassembler.localArrayName"; e_kind := SKPanic; e_classes := [CInvariant verifier] |};
    {| e_pkg := "interp"; e_func := "*interp.callNative"; e_kind := SKAssert; e_classes := [CInvariant native_checked] |};
    {| e_pkg := "interp"; e_func := "*interp.callNative"; e_kind := SKPanic; e_classes := [CInvariant native_checked] |};
    {| e_pkg := "interp"; e_func := "*interp.toNative"; e_kind := SKPanic;
       e_classes := [CInvariant native_checked; CInvariant native_checked] |};
    {| e_pkg := "interp"; e_func := "fromNative"; e_kind := SKPanic;
       e_classes := [CInvariant native_checked; CInvariant native_checked] |};
    {| e_pkg := "interp"; e_func := "*interp.sprintf"; e_kind := SKIndex;
       e_classes := [CInvariant "C09_sprintf_no_panic (Properties/C09.v): parseFmtTypes records one offset in stars for every 'p' it puts in types, sprintf takes stars[0] once per 'p'"] |};
    {| e_pkg := "interp"; e_func := "*interp.getSpecial"; e_kind := SKPanic; e_classes := [CInvariant verifier] |};
    {| e_pkg := "interp"; e_func := "*interp.setSpecial"; e_kind := SKMustCompile;
       e_classes := [CGuarded "utf8.ValidString(RS) is tested first (C02_rs_one_byte_never_panics): a valid empty or one-byte string quoted by QuoteMeta is a valid pattern";
                     CGuarded "len > 1 and exactly one rune: a valid multi-byte rune, which QuoteMeta leaves a valid pattern"] |};
    {| e_pkg := "interp"; e_func := "*interp.setSpecial"; e_kind := SKPanic; e_classes := [CInvariant verifier] |};
    {| e_pkg := "interp"; e_func := "*interp.arrayIndex"; e_kind := SKIndex; e_classes := [CInvariant verifier] |};
    {| e_pkg := "interp"; e_func := "*interp.localArray"; e_kind := SKIndex; e_classes := [CInvariant verifier] |};
    {| e_pkg := "interp"; e_func := "*interp.getOutputStream"; e_kind := SKPanic;
       e_classes := [CInvariant "the redirect operand of Print/Printf is one of GREATER, APPEND, PIPE (Decode.dec_redir accepts nothing else; run on every explored program)"] |};
    {| e_pkg := "interp"; e_func := "*interp.execShell"; e_kind := SKIndex;
       e_classes := [CGuarded "setExecuteConfig installs config.ShellCommand only when it is non-empty, else the non-empty default"] |};
    {| e_pkg := "interp"; e_func := "regexSplitter.scan"; e_kind := SKIndex;
       e_classes := [CGuarded regexp_contract; CGuarded regexp_contract; CGuarded regexp_contract;
                     CGuarded regexp_contract; CGuarded regexp_contract; CGuarded regexp_contract] |};
    {| e_pkg := "interp"; e_func := "*interp.splitOnFieldSepRegex"; e_kind := SKIndex;
       e_classes := [CGuarded regexp_contract; CGuarded regexp_contract] |};
    {| e_pkg := "interp"; e_func := "hasHexPrefix"; e_kind := SKIndex;
       e_classes := [CGuarded "callers test len(s) first (parseFloat, parseFloatPrefix; C05_prefix_scan_no_panic)"; CGuarded "same"; CGuarded "same"] |};
    {| e_pkg := "interp"; e_func := "hasNaNPrefix"; e_kind := SKIndex;
       e_classes := [CGuarded "callers test len(s) first (parseFloat, parseFloatPrefix; C05_prefix_scan_no_panic)"; CGuarded "same"; CGuarded "same";
                     CGuarded "same"; CGuarded "same"; CGuarded "same"] |};
    {| e_pkg := "interp"; e_func := "hasInfPrefix"; e_kind := SKIndex;
       e_classes := [CGuarded "caller tests i+3 <= len(s) first (parseFloatPrefix; C05_prefix_scan_no_panic)"; CGuarded "same"; CGuarded "same";
                     CGuarded "same"; CGuarded "same"; CGuarded "same"] |};
    {| e_pkg := "interp"; e_func := "*interp.execute"; e_kind := SKIndex;
       e_classes := [CInvariant verifier; CInvariant verifier; CInvariant verifier; CInvariant verifier;
                     CInvariant verifier; CInvariant verifier; CInvariant verifier; CInvariant verifier] |};
    {| e_pkg := "interp"; e_func := "*interp.callBuiltin"; e_kind := SKIndex;
       e_classes := [CGuarded regexp_contract; CGuarded regexp_contract; CGuarded regexp_contract;
                     CGuarded regexp_contract; CGuarded regexp_contract; CGuarded regexp_contract] |} ].

Definition same_group (p f : string) (k : site_kind) (s : site) : bool :=
  String.eqb (s_pkg s) p && String.eqb (s_func s) f && kind_eqb (s_kind s) k.

(* the sites of a function and kind that no rule classifies, in source order *)
Definition unruled (p f : string) (k : site_kind) : list site :=
  filter (fun s => same_group p f k s && match rule_class s with None => true | Some _ => false end) sites.

Fixpoint find_entry (p f : string) (k : site_kind) (es : list entry) : option entry :=
  match es with
  | [] => None
  | e :: t => if String.eqb (e_pkg e) p && String.eqb (e_func e) f && kind_eqb (e_kind e) k then Some e else find_entry p f k t
  end.

Fixpoint index_of (s : site) (l : list site) : option nat :=
  match l with
  | [] => None
  | x :: t => if Nat.eqb (s_ord x) (s_ord s) then Some O else option_map S (index_of s t)
  end.

Definition classify (s : site) : option pclass :=
  match rule_class s with
  | Some c => Some c
  | None =>
      match find_entry (s_pkg s) (s_func s) (s_kind s) entries with
      | None => None
      | Some e =>
          let group := unruled (s_pkg s) (s_func s) (s_kind s) in
          if Nat.eqb (List.length group) (List.length (e_classes e)) then
            match index_of s group with Some n => nth_error (e_classes e) n | None => None end
          else None
      end
  end.

(* no stale entry: every entry speaks about existing sites, exactly as many as it classifies *)
Definition entries_live : bool :=
  forallb (fun e => Nat.eqb (List.length (unruled (e_pkg e) (e_func e) (e_kind e))) (List.length (e_classes e)) &&
                    negb (Nat.eqb (List.length (e_classes e)) 0)) entries.

Definition reachable_sites : list (string * string) :=
  flat_map (fun s => match classify s with
                     | Some (CReachable f) => [(s_func s, f)]
                     | _ => []
                     end) sites.

(* what one pass over the table establishes of every site: it is classified, not as reachable,
   and as a control-flow panic only in a package below one of the two recover() sites *)
Definition site_ok (s : site) : bool :=
  match classify s with
  | None | Some (CReachable _) => false
  | Some CControl => String.eqb (s_pkg s) "parser" || String.eqb (s_pkg s) "internal/resolver" ||
                     String.eqb (s_pkg s) "internal/compiler"
  | Some _ => true
  end.

Lemma sites_ok : forall s, In s sites -> site_ok s = true.
Proof. apply forallb_forall. vm_compute. reflexivity. Qed.

Theorem all_sites_classified : forall s, In s sites -> classify s <> None.
Proof. intros s Hin E. pose proof (sites_ok s Hin) as H. unfold site_ok in H. rewrite E in H. discriminate H. Qed.

Lemma entries_are_live : entries_live = true.
Proof. vm_compute. reflexivity. Qed.

(* no site is reachable *)
Lemma reachable_sites_are : reachable_sites = [].
Proof.
  unfold reachable_sites. generalize sites_ok. generalize sites.
  induction l as [|s l IH]; intros H; [reflexivity|].
  cbn [flat_map]. rewrite IH by (intros x Hx; apply H; right; exact Hx).
  specialize (H s (or_introl eq_refl)). unfold site_ok in H.
  destruct (classify s) as [[]|]; try reflexivity; discriminate H.
Qed.

(* every recover() is an API boundary and every control-flow panic lives in a package below one *)
Lemma control_panics_below_boundary :
  forallb (fun s => match classify s with
                    | Some CControl => String.eqb (s_pkg s) "parser" || String.eqb (s_pkg s) "internal/resolver" ||
                                       String.eqb (s_pkg s) "internal/compiler"
                    | _ => true
                    end) sites = true /\
  map s_func (filter (fun s => kind_eqb (s_kind s) SKRecover) sites) = ["ParseProgram"; "Compile"].
Proof.
  split; [|vm_compute; reflexivity].
  apply forallb_forall. intros s Hin. pose proof (sites_ok s Hin) as H. unfold site_ok in H.
  destruct (classify s) as [[]|]; try reflexivity; exact H.
Qed.
