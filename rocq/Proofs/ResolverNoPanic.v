(* C16: the resolver model never reaches a Go panic other than its own
   PositionErrors (no index out of range on funcInfo.Params, no nil reflect
   type), for any program whatsoever. *)
From Verif Require Import Lib.Base Model.Resolver Proofs.Resolver Proofs.ResolverFlat.
Open Scope Z_scope.

Definition safe {A} (r : rres A) : Prop := r <> RPanic /\ r <> RFuel.

Lemma safe_ok {A} (a : A) : safe (ROk a).
Proof. split; discriminate. Qed.
Lemma safe_err {A} e : safe (@RErr A e).
Proof. split; discriminate. Qed.

Lemma safe_bind {A B} (r : rres A) (K : A -> rres B) : safe r -> (forall a, safe (K a)) -> safe (rbind2 r K).
Proof.
  destruct r; cbn [rbind2]; intros H HK;
    [apply HK | apply safe_err | destruct H as [H _]; congruence | destruct H as [_ H]; congruence].
Qed.

Lemma In_insert_name x y l : In x (insert_name y l) <-> x = y \/ In x l.
Proof.
  induction l as [|z l IH]; cbn [insert_name].
  - cbn. intuition.
  - destruct (name_leb y z); cbn [In]; [intuition|]. rewrite IH. intuition.
Qed.

Lemma In_sort_names x l : In x (sort_names l) <-> In x l.
Proof.
  unfold sort_names. induction l as [|y l IH]; cbn [fold_right]; [reflexivity|].
  rewrite In_insert_name, IH. cbn [In]. intuition.
Qed.

Lemma find_native_In ns f : In f (map n_name ns) -> find_native ns f <> None.
Proof.
  induction ns as [|n ns IH]; intros H; cbn [find_native map] in *; [destruct H|].
  destruct (neqb (n_name n) f) eqn:E; [discriminate|].
  destruct H as [H|H]; [apply neqb_neq in E; contradiction | apply IH; exact H].
Qed.

(* funcInfo marks as native only names that are keys of ParserConfig.Funcs: the
   look-up of the Go function at a call head finds an entry *)
Lemma func_info_native P f fi :
  func_info P f = Some fi -> fi_native fi = true -> find_native (p_natives P) f <> None.
Proof.
  unfold func_info. intros H Hn. destruct (find_func P f) as [[i fd]|].
  - injection H as <-. cbn in Hn. discriminate.
  - destruct (index_of f (sort_names (map n_name (p_natives P))) 0) eqn:E; [|discriminate].
    apply find_native_In. apply In_sort_names. eapply index_of_In. exact E.
Qed.

Section NoPanic.
Variable P : program.
Variable cur : name.

Lemma record_var_safe s c v t : safe (record_var P s c v t).
Proof. apply record_var_no_panic. Qed.

Lemma arg_ok_safe s f i :
  arg_ok P f i = true ->
  safe (visit_step P cur s (SArgExpr f i)) /\ forall v, safe (visit_step P cur s (SArgVar f i v)).
Proof.
  unfold arg_ok. cbn [visit_step]. destruct (func_info P f) as [fi|]; [|discriminate].
  destruct (fi_native fi); cbn [orb]; [intros _; split; [apply safe_ok | intros v; apply record_var_safe]|].
  destruct (nth_error (fi_params fi) i) as [p|]; [intros _|discriminate]. split.
  - destruct (get_or_unknown (st_vars s) (f, p)); (apply safe_ok || apply safe_err).
  - intros v. cbv zeta. destruct (_ && _); [apply record_var_safe|]. destruct (_ && _); [apply record_var_safe|].
    destruct (_ && _ && _); [apply safe_err | apply record_var_safe].
Qed.

Definition np_event (e : event) : Prop := forall s, safe (run_steps P cur (flat_event e) s).

Lemma np_events es : Forall np_event es -> forall s, safe (run_steps P cur (flat_events es) s).
Proof.
  unfold flat_events. induction es as [|e es IH]; intros Hall s; cbn [flat_map]; [apply safe_ok|].
  inversion Hall as [|x y H1 H2]; subst. rewrite run_steps_app.
  apply safe_bind; [apply H1 | apply IH; exact H2].
Qed.

Lemma np_args f :
  forall l i, (forall j, (i <= j < i + length l)%nat -> arg_ok P f j = true) ->
  Forall (arg_all np_event) l ->
  forall s, safe (run_steps P cur (flat_args f i l) s).
Proof.
  induction l as [|a r IH]; intros i Hb Hall s; cbn [flat_args]; [apply safe_ok|].
  inversion Hall as [|x y H1 H2]; subst. cbn [length] in Hb.
  destruct (arg_ok_safe s f i (Hb i ltac:(lia))) as [He Hv].
  assert (Hb' : forall j, (S i <= j < S i + length r)%nat -> arg_ok P f j = true) by (intros j Hj; apply Hb; lia).
  destruct a as [v|es]; cbn [flat_args].
  - apply (safe_bind (visit_step P cur s (SArgVar f i v)) (run_steps P cur (flat_args f (S i) r)));
      [apply Hv | apply IH; assumption].
  - apply (safe_bind (visit_step P cur s (SArgExpr f i)) (run_steps P cur (flat_events es ++ flat_args f (S i) r)));
      [exact He|].
    intros s1. rewrite run_steps_app. apply safe_bind; [apply np_events; exact H1 | apply IH; assumption].
Qed.

Lemma np_all e : np_event e.
Proof.
  induction e as [v t|f args IH] using event_ind'; intros s.
  - apply (safe_bind (visit_step P cur s (SUse v t)) (run_steps P cur [])); [apply record_var_safe | intros s1; apply safe_ok].
  - rewrite flat_event_call. cbn [run_steps].
    destruct (visit_head_cases P cur s f (zlen args)) as [[Hv Ha]|[e [Hv _]]]; rewrite Hv; [|apply safe_err].
    apply np_args; [|exact IH]. intros j Hj. apply Ha. unfold zlen. lia.
Qed.

Lemma run_body_safe es s : safe (run_steps P cur (flat_events es) s).
Proof. apply np_events. apply Forall_forall. intros e _. apply np_all. Qed.

End NoPanic.

(* [safe] as an instance of [good] of Proofs/Resolver.v *)
Notation safely := (good (fun _ => True) (fun _ _ => True) (fun _ => True) False False).

Lemma safely_safe s r : safely s r <-> safe r.
Proof.
  destruct r; cbn [good]; split; intros H; auto using safe_ok, safe_err; try contradiction;
    destruct H; congruence.
Qed.

Lemma body_safe P cur es s : safely s (run_steps P cur (flat_events es) s).
Proof. apply safely_safe, run_body_safe. Qed.

Lemma pass_loop_safe P order k s u : safe (pass_loop P order k s u).
Proof. apply (safely_safe s). apply pass_loop_good; auto using body_safe. Qed.

Lemma passes_safe P order loop : (forall s u, safe (loop s u)) -> safe (passes P order loop).
Proof.
  intros Hl. apply (safely_safe (start_state P)). apply passes_good; auto using body_safe.
  - intros v s _ _. apply safely_safe, record_var_safe.
  - intros s3 s4 _ _ _ _. apply safely_safe, Hl.
Qed.

(* NO PANIC: for every program and every processing order *)
Theorem resolve_order_safe cut order P : safe (resolve_order cut order P).
Proof.
  rewrite resolve_order_eq. unfold finish. destruct (first_dup [] (fnames P)); [apply safe_err|].
  apply safe_bind; [apply passes_safe; intros s u; apply pass_loop_safe | intros s; apply safe_ok].
Qed.

Theorem resolve_cut_no_panic cut pi P : resolve_cut cut pi P <> RPanic.
Proof.
  unfold resolve_cut. destruct (first_dup [] (fnames P)); [discriminate|].
  destruct (ordered_funcs pi P); [apply resolve_order_safe | discriminate].
Qed.
