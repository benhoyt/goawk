(* C03: the statements about scan_all (totality, positions) and showSourceLine. *)
From Verif Require Import Lib.Base Lib.Utf8 Model.Lexer Proofs.LexerPos Proofs.LexerScan Proofs.LexerTokens.
From Coq Require Import ZifyBool.
Open Scope Z_scope.

(* a token that is not ILLEGAL is reported at the line/column of the offset where it starts;
   an ILLEGAL token is reported at the line/column of some offset 0..len of the source *)
Definition token_claim (src : bytes) (t : token) : Prop :=
  (tkind t <> T_ILLEGAL -> tpos t = pos_of_offset src (tstart t) /\ 0 <= tstart t <= zlen src) /\
  (tkind t = T_ILLEGAL -> exists k, 0 <= k <= zlen src /\ tpos t = pos_of_offset src k).

Lemma new_lexer_norm src c s :
  src = c :: s -> okr (fun l => NormInv src l) (new_lexer src).
Proof.
  intros ->. unfold new_lexer, next. cbn [offset ch npos lpos hadSpace lastTok].
  assert (Hlen : zlen (c :: s) >= 1) by (rewrite zlen_cons; pose proof (zlen_nonneg s); lia).
  replace (0 >=? zlen (c :: s)) with false by lia.
  assert (Hi : index (c :: s) 0 = Ok c).
  { unfold index. replace ((0 <=? 0) && (0 <? zlen (c :: s))) with true by lia. reflexivity. }
  rewrite Hi. cbn [of_res lbind]. apply okr_ret.
  split.
  - split; cbn [offset ch]; [lia|]. symmetry. apply getch_index. exact Hi.
  - unfold Norm. cbn [offset lpos npos ch]. splits; [lia|reflexivity|].
    rewrite (pos_of_offset_step _ 0 c Hi). reflexivity.
Qed.

Theorem scan_all_spec src ds :
  okr (fun os => all_ok src os /\ ends_final os) (scan_all src ds).
Proof.
  destruct src as [|c s] eqn:Esrc.
  - (* the empty source: one EOF token at 1:1 *)
    set (r := scan_all [] ds). vm_compute in r. subst r.
    apply okr_ret. split.
    + constructor; [|constructor]. cbn. split.
      * intros _. cbn [tpos tstart]. split; [reflexivity|]. change (zlen (@nil Z)) with 0. lia.
      * intros H; discriminate H.
    + eexists [], _. splits; [reflexivity|reflexivity|constructor].
  - rewrite <- Esrc. unfold scan_all.
    eapply okr_bind; [apply (new_lexer_norm src c s Esrc)|].
    intros l Hn.
    apply (scan_loop_spec src _ ds l Hn (lex_fuel_enough src l Hn)).
Qed.

(* totality: the model lexer never panics, never runs out of fuel, and stops at EOF or ILLEGAL *)
Theorem lexer_total src ds : exists os, scan_all src ds = LOk os /\ ends_final os.
Proof.
  destruct (scan_all_spec src ds) as (os & E & _ & H). eauto.
Qed.

(* every reported position is the true one *)
Theorem lexer_positions src ds os :
  scan_all src ds = LOk os -> forall o, In o os -> token_claim src (otok o).
Proof.
  intros E o Hin. destruct (scan_all_spec src ds) as (os' & E' & Hall & _).
  rewrite E in E'. injection E' as <-.
  unfold all_ok in Hall. rewrite Forall_forall in Hall. exact (Hall o Hin).
Qed.

(* ---- consequences for the CLI's source-line display ---------------------------------------- *)
From Verif Require Import Proofs.LexerShow.

Theorem reported_positions_showable src ds os :
  scan_all src ds = LOk os ->
  forall o, In o os ->
  valid_pos src (tpos (otok o)) /\ exists r, show_source_line src (tpos (otok o)) = Ok r.
Proof.
  intros E o Hin.
  destruct (lexer_positions src ds os E o Hin) as (H1 & H2).
  assert (Hk : exists k, 0 <= k <= zlen src /\ tpos (otok o) = pos_of_offset src k).
  { destruct (Z.eq_dec (tkind (otok o)) T_ILLEGAL) as [Ek|Ek].
    - apply H2; exact Ek.
    - destruct (H1 Ek) as (Hp & Hr). eauto. }
  destruct Hk as (k & Hk & ->).
  destruct (show_source_line_ok src k Hk) as (line & Hs & Hv). split; [exact Hv|eauto].
Qed.
