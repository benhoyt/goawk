(* The bufio.Scanner model: the fuel of the token loop is never exhausted; for a stable split
   function the delivered tokens are a function of the concatenated input alone (chunk
   independence); a well-behaved one never makes Scan fail; a consuming one loses no byte. *)
From Verif Require Import Lib.Base Model.Scanner.

Lemma zlen_length_le {A} (a b : list A) : (length a <= length b)%nat <-> zlen a <= zlen b.
Proof. unfold zlen; lia. Qed.

Lemma nilb_true {A} (l : list A) : nilb l = true <-> l = [].
Proof. destruct l; cbn; split; congruence. Qed.

Lemma nilb_false {A} (l : list A) : nilb l = false <-> l <> [].
Proof. destruct l; cbn; split; congruence. Qed.

Lemma zlen_eqb_0 {A} (d : list A) : (zlen d =? 0) = nilb d.
Proof.
  destruct d; [reflexivity|]. rewrite zlen_cons. pose proof (zlen_nonneg d).
  cbn [nilb]. apply Z.eqb_neq. lia.
Qed.

Section ScannerProofs.
  Variables St Tok : Type.
  Variable split : splitfn St Tok.

  Notation drain := (drain St Tok split).
  Notation drainF := (drainF St Tok split).
  Notation finish := (finish St Tok split).
  Notation scan_from := (scan_from St Tok split).
  Notation scan := (scan St Tok split).
  Notation reference := (reference St Tok split).
  Notation tcons := (tcons St Tok).
  Notation tapp := (tapp Tok).
  Notation sres := (sres St Tok).

  Definition drain_step (rec : St -> bytes -> list Tok * dstop St) (e : bool) (st : St) (buf : bytes)
    : list Tok * dstop St :=
    if negb e && nilb buf then ([], DMore st buf) else
    match split st buf e with
    | SPanic => ([], DStop SplitPanic)
    | SOk adv tok st' =>
      if adv <? 0 then ([], DStop ErrNegativeAdvance)
      else if zlen buf <? adv then ([], DStop ErrAdvanceTooFar)
      else match tok with
           | None => ([], DMore st' (zdrop adv buf))
           | Some t => if adv =? 0 then ([t], DStop Stall) else tcons t (rec st' (zdrop adv buf))
           end
    end.

  Lemma drain_S f e st buf : drain (S f) e st buf = drain_step (drain f e) e st buf.
  Proof. reflexivity. Qed.

  (* the step ends the loop without looking at [rec] *)
  Local Ltac step_ends := right; eexists; split; [|intros r; reflexivity]; discriminate.

  Lemma drain_step_cases e st buf :
    (exists t st' b', (length b' < length buf)%nat /\
       forall r, drain_step r e st buf = tcons t (r st' b')) \/
    (exists p, snd p <> DStop OutOfFuel /\ forall r, drain_step r e st buf = p).
  Proof.
    unfold drain_step.
    destruct (negb e && nilb buf); [step_ends|].
    destruct (split st buf e) as [adv tok st'|]; [|step_ends].
    destruct (adv <? 0) eqn:Hneg; [step_ends|].
    destruct (zlen buf <? adv) eqn:Hfar; [step_ends|].
    destruct tok as [t|]; [|step_ends].
    destruct (adv =? 0) eqn:Hz; [step_ends|].
    left. exists t, st', (zdrop adv buf). split; [|reflexivity].
    apply length_zdrop_lt; lia.
  Qed.

  Lemma drain_step_ext r1 r2 e st buf :
    (forall st' b', (length b' < length buf)%nat -> r1 st' b' = r2 st' b') ->
    drain_step r1 e st buf = drain_step r2 e st buf.
  Proof.
    intros H. destruct (drain_step_cases e st buf) as [(t & st' & b' & Hlt & E)|(p & _ & E)].
    - rewrite (E r1), (E r2), (H st' b' Hlt). reflexivity.
    - rewrite (E r1), (E r2). reflexivity.
  Qed.

  Lemma drain_fuel_irrel : forall f1 f2 e st buf,
    (length buf < f1)%nat -> (length buf < f2)%nat -> drain f1 e st buf = drain f2 e st buf.
  Proof.
    induction f1 as [|f1 IH]; intros f2 e st buf H1 H2; [lia|].
    destruct f2 as [|f2]; [lia|]. rewrite !drain_S.
    apply drain_step_ext. intros st' b' Hlt. apply IH; lia.
  Qed.

  Lemma drainF_unfold e st buf : drainF e st buf = drain_step (drainF e) e st buf.
  Proof.
    unfold Scanner.drainF at 1. rewrite drain_S.
    apply drain_step_ext. intros st' b' Hlt. unfold Scanner.drainF. apply drain_fuel_irrel; lia.
  Qed.

  Lemma drainF_no_fuel : forall e st buf, snd (drainF e st buf) <> DStop OutOfFuel.
  Proof.
    intros e st buf. revert st. induction buf as [buf IH] using list_len_ind. intros st.
    rewrite drainF_unfold.
    destruct (drain_step_cases e st buf) as [(t & st' & b' & Hlt & E)|(p & Hp & E)]; rewrite E.
    - exact (IH b' Hlt st').
    - exact Hp.
  Qed.

  (* [wb_empty] costs nothing: before EOF Scan never calls the split function on empty data *)
  Record wb : Prop := {
    wb_ok : forall st d e, exists adv tok st',
        split st d e = SOk adv tok st' /\ 0 <= adv <= zlen d /\ (tok <> None -> 0 < adv);
    wb_empty : forall st, split st [] false = SOk 0 None st
  }.

  Definition dapp (ts : list Tok) (p : list Tok * dstop St) : list Tok * dstop St :=
    (ts ++ fst p, snd p).

  Lemma dapp_nil p : dapp [] p = p.
  Proof. destruct p; reflexivity. Qed.

  Lemma tcons_dapp t ts p : tcons t (dapp ts p) = dapp (t :: ts) p.
  Proof. reflexivity. Qed.

  Lemma drainF_wb : wb -> forall e st buf,
    drainF e st buf =
      match split st buf e with
      | SPanic => ([], DStop SplitPanic)
      | SOk adv None st' => ([], DMore st' (zdrop adv buf))
      | SOk adv (Some t) st' => tcons t (drainF e st' (zdrop adv buf))
      end.
  Proof.
    intros W e st buf. rewrite drainF_unfold. unfold drain_step.
    destruct (negb e && nilb buf) eqn:Hc.
    - apply andb_true_iff in Hc as [He Hb]. apply nilb_true in Hb. subst buf.
      destruct e; [discriminate|]. rewrite (wb_empty W). reflexivity.
    - destruct (wb_ok W st buf e) as (adv & tok & st' & Hs & Hb & Hp). rewrite Hs.
      destruct (Z.ltb_spec adv 0); [lia|]. destruct (Z.ltb_spec (zlen buf) adv); [lia|].
      destruct tok as [t|]; [|reflexivity].
      destruct (Z.eqb_spec adv 0) as [->|_]; [|reflexivity].
      assert (0 < 0) by (apply Hp; discriminate). lia.
  Qed.

  Lemma drainF_wb_ind : wb -> forall e (P : St -> bytes -> list Tok * dstop St -> Prop),
    (forall st buf adv st', split st buf e = SOk adv None st' -> 0 <= adv <= zlen buf ->
       P st buf ([], DMore st' (zdrop adv buf))) ->
    (forall st buf adv t st' r, split st buf e = SOk adv (Some t) st' -> 0 < adv <= zlen buf ->
       P st' (zdrop adv buf) r -> P st buf (tcons t r)) ->
    forall st buf, P st buf (drainF e st buf).
  Proof.
    intros W e P Hnone Hsome st buf. revert st.
    induction buf as [buf IH] using list_len_ind. intros st.
    rewrite (drainF_wb W).
    destruct (wb_ok W st buf e) as (adv & tok & st' & Hs & Hb & Hp). rewrite Hs.
    destruct tok as [t|].
    - assert (0 < adv) by (apply Hp; discriminate).
      apply (Hsome st buf adv t st' _ Hs); [lia|]. apply IH. apply length_zdrop_lt; lia.
    - exact (Hnone st buf adv st' Hs Hb).
  Qed.

  Lemma drainF_wb_more : wb -> forall e st buf, exists ts st' b', drainF e st buf = (ts, DMore st' b').
  Proof.
    intros W e. apply (drainF_wb_ind W e (fun _ _ r => exists ts st' b', r = (ts, DMore st' b'))).
    - intros st buf adv st' _ _. exists [], st', (zdrop adv buf). reflexivity.
    - intros st buf adv t st' r _ _ (ts & s2 & b2 & ->). exists (t :: ts), s2, b2. reflexivity.
  Qed.

  Lemma reference_done : wb -> forall st0 data, snd (reference st0 data) = Done.
  Proof.
    intros W st0 data. unfold Scanner.reference, Scanner.finish.
    destruct (drainF_wb_more W true st0 data) as (ts & st' & b' & E). rewrite E. reflexivity.
  Qed.

  Definition shift (k : Z) (r : sres) : sres :=
    match r with SOk a t s => SOk (k + a) t s | SPanic => SPanic end.

  (* in state st the bytes p are passed over without any effect (when the whole remaining
     input is presented, atEOF = true) *)
  Definition skips (st : St) (p : bytes) : Prop :=
    forall x, split st (p ++ x) true = shift (zlen p) (split st x true).

  (* [st_tok]: a token decided before EOF is the token decided when the complete remaining
     input is presented at EOF, whatever that input is - except that the latter may swallow k
     more bytes, which the next call would have skipped anyway.
     [st_more]: a nil-token return before EOF (need more data / skip) commits to nothing: the
     answer on the complete input is the answer from the state and position it left. *)
  Record stable : Prop := {
    st_wb : wb;
    st_tok : forall st d adv t st', split st d false = SOk adv (Some t) st' ->
      forall d', exists k, 0 <= k /\
        split st (d ++ d') true = SOk (adv + k) (Some t) st' /\
        skips st' (ztake k (zdrop adv (d ++ d')));
    st_more : forall st d adv st', split st d false = SOk adv None st' ->
      forall d', split st (d ++ d') true = shift adv (split st' (zdrop adv d ++ d') true)
  }.

  Lemma shift_0 r : shift 0 r = r.
  Proof. destruct r; reflexivity. Qed.

  Lemma shift_shift a b r : shift a (shift b r) = shift (a + b) r.
  Proof. destruct r; [|reflexivity]. cbn [shift]. f_equal. lia. Qed.

  Lemma skips_nil st : skips st [].
  Proof. intros x. cbn [app]. rewrite zlen_nil, shift_0. reflexivity. Qed.

  Lemma stable_exact : wb ->
    (forall st d adv t st', split st d false = SOk adv (Some t) st' ->
       forall d', split st (d ++ d') true = SOk adv (Some t) st') ->
    (forall st d adv st', split st d false = SOk adv None st' ->
       forall d', split st (d ++ d') true = shift adv (split st' (zdrop adv d ++ d') true)) ->
    stable.
  Proof.
    intros W Ht Hm. split; [exact W| |exact Hm].
    intros st d adv t st' Hs d'. exists 0. split; [lia|]. split.
    - rewrite Z.add_0_r. apply Ht. exact Hs.
    - replace (ztake 0 (zdrop adv (d ++ d'))) with (@nil Z) by reflexivity. apply skips_nil.
  Qed.

  Record simple : Prop := {
    sm_wb : wb;
    sm_tok : forall st d adv t st', split st d false = SOk adv (Some t) st' ->
      forall d', split st (d ++ d') true = SOk adv (Some t) st';
    sm_more : forall st d adv st', split st d false = SOk adv None st' -> adv = 0 /\ st' = st
  }.

  Lemma stable_simple : simple -> stable.
  Proof.
    intros H. apply stable_exact; [exact (sm_wb H)|exact (sm_tok H)|].
    intros st d adv st' Hs d'. destruct (sm_more H _ _ _ _ Hs) as [-> ->].
    rewrite shift_0. reflexivity.
  Qed.

  Lemma drainF_shift : wb -> forall e st st1 x k, 0 <= k ->
    split st x e = shift k (split st1 (zdrop k x) e) -> drainF e st x = drainF e st1 (zdrop k x).
  Proof.
    intros W e st st1 x k Hk Hs. rewrite (drainF_wb W e st x), (drainF_wb W e st1 (zdrop k x)), Hs.
    destruct (wb_ok W st1 (zdrop k x) e) as (a & tok & st2 & E & Hb & _). rewrite E.
    cbn [shift]. rewrite zdrop_zdrop by lia. reflexivity.
  Qed.

  Lemma skips_drain : wb -> forall st p, skips st p ->
    forall y, drainF true st (p ++ y) = drainF true st y.
  Proof.
    intros W st p Hs y. rewrite (drainF_shift W true st st (p ++ y) (zlen p) (zlen_nonneg p)).
    - rewrite zdrop_zlen_app. reflexivity.
    - rewrite zdrop_zlen_app. apply Hs.
  Qed.

  (* what was decided on a prefix of the data is what the complete data decides at EOF *)
  Lemma drain_extend : stable -> forall st b ts st' b', drainF false st b = (ts, DMore st' b') ->
    forall d, drainF true st (b ++ d) = dapp ts (drainF true st' (b' ++ d)).
  Proof.
    intros S. pose proof (st_wb S) as W. intros st b.
    apply (drainF_wb_ind W false (fun st b r => forall ts st' b', r = (ts, DMore st' b') ->
             forall d, drainF true st (b ++ d) = dapp ts (drainF true st' (b' ++ d)))); clear st b.
    - intros st b adv st1 Hs Hb ts st' b' Hd d. injection Hd as <- <- <-. rewrite dapp_nil.
      rewrite <- (zdrop_app_le adv b d) by lia. apply (drainF_shift W true); [lia|].
      rewrite zdrop_app_le by lia. exact (st_more S _ _ _ _ Hs d).
    - intros st b adv t st1 [ts1 r1] Hs Hb IH ts st' b' Hd d.
      cbn [Scanner.tcons fst snd] in Hd. injection Hd as <- ->.
      destruct (st_tok S _ _ _ _ _ Hs d) as (k & Hk & Hsk & Hskip).
      rewrite (drainF_wb W true st (b ++ d)), Hsk.
      rewrite zdrop_zdrop by lia.
      pose proof (skips_drain W _ _ Hskip (zdrop k (zdrop adv (b ++ d)))) as Hsd.
      rewrite ztake_zdrop in Hsd. rewrite <- Hsd.
      rewrite zdrop_app_le by lia.
      rewrite (IH ts1 st' b' eq_refl d). reflexivity.
  Qed.

  (* the reader never returns more than 100 empty reads in a row (otherwise Scan gives up with
     io.ErrNoProgress, which is the reader's fault) *)
  Fixpoint reader_ok (last_eof : bool) (e : nat) (chunks : list bytes) : Prop :=
    match chunks with
    | [] => True
    | c :: cs =>
      if nilb c then
        if last_eof && nilb cs then True
        else (e < max_empty_reads)%nat /\ reader_ok last_eof (S e) cs
      else reader_ok last_eof O cs
    end.

  (* induction along the reads of a well-behaved run: [P st d r] relates the scanner's state and
     the input still to come (buffered or unread) to what is delivered from there *)
  Lemma scan_from_ind : wb -> forall (P : St -> bytes -> list Tok * stop -> Prop),
    (forall st d, P st d (finish Done st d)) ->
    (forall st b ts st' b' d r, drainF false st b = (ts, DMore st' b') ->
       P st' (b' ++ d) r -> P st (b ++ d) (tapp ts r)) ->
    forall last_eof chunks st b e, reader_ok last_eof e chunks ->
    P st (b ++ concat chunks) (scan_from last_eof st b e chunks).
  Proof.
    intros W P Hfin Hstep last_eof.
    induction chunks as [|c cs IH]; intros st b e Hr; cbn [Scanner.scan_from concat].
    - rewrite app_nil_r. apply Hfin.
    - cbn [reader_ok] in Hr. destruct (last_eof && nilb cs) eqn:Hl.
      + apply andb_true_iff in Hl as [_ Hn]. apply nilb_true in Hn. subst cs.
        cbn [concat]. rewrite app_nil_r.
        destruct (nilb c) eqn:Hc; [apply nilb_true in Hc; subst c; rewrite app_nil_r|]; apply Hfin.
      + destruct (nilb c) eqn:Hc.
        * apply nilb_true in Hc. subst c. cbn [app]. destruct Hr as [He Hr].
          destruct (Nat.leb_spec max_empty_reads e); [lia|].
          apply IH. exact Hr.
        * destruct (drainF_wb_more W false st (b ++ c)) as (ts & st' & b' & Hd).
          rewrite Hd, app_assoc. apply (Hstep _ _ _ _ _ _ _ Hd). apply IH. exact Hr.
  Qed.

  (* chunk independence from any point of a run: buffered data b, e empty reads so far *)
  Lemma scan_from_reference : stable -> forall last_eof chunks st b e,
    reader_ok last_eof e chunks ->
    scan_from last_eof st b e chunks = finish Done st (b ++ concat chunks).
  Proof.
    intros S. apply (scan_from_ind (st_wb S) (fun st d r => r = finish Done st d)).
    - reflexivity.
    - intros st b ts st' b' d r Hd ->. unfold Scanner.finish.
      rewrite (drain_extend S st b ts st' b' Hd d). reflexivity.
  Qed.

  Theorem scan_reference : stable -> forall last_eof st0 chunks,
    reader_ok last_eof O chunks ->
    scan last_eof st0 chunks = reference st0 (concat chunks).
  Proof.
    intros S last_eof st0 chunks Hr. exact (scan_from_reference S last_eof chunks st0 [] O Hr).
  Qed.

  Theorem chunk_independence : stable -> forall last_eof st0 chunks,
    reader_ok last_eof O chunks ->
    scan last_eof st0 chunks = scan false st0 [concat chunks].
  Proof.
    intros S last_eof st0 chunks Hr.
    rewrite (scan_reference S last_eof st0 chunks Hr).
    rewrite (scan_reference S false st0 [concat chunks]).
    - cbn [concat]. rewrite app_nil_r. reflexivity.
    - cbn [reader_ok]. destruct (nilb (concat chunks)); cbn; [|exact I].
      split; [unfold max_empty_reads; lia|exact I].
  Qed.

  Lemma scan_from_done : wb -> forall last_eof chunks st b e,
    reader_ok last_eof e chunks -> snd (scan_from last_eof st b e chunks) = Done.
  Proof.
    intros W. apply (scan_from_ind W (fun _ _ r => snd r = Done)).
    - exact (reference_done W).
    - intros st b ts st' b' d r _ H. exact H.
  Qed.

  (* [w t]: the bytes token t stands for.  Losslessness needs no stability. *)
  Record consuming (w : Tok -> bytes) : Prop := {
    co_wb : wb;
    co_tok : forall st d e adv t st', split st d e = SOk adv (Some t) st' -> ztake adv d = w t;
    co_more : forall st d e adv st', split st d e = SOk adv None st' -> adv = 0 /\ (e = true -> d = [])
  }.

  Lemma drain_consumes w : consuming w -> forall e st buf ts st' b',
    drainF e st buf = (ts, DMore st' b') ->
    buf = concat (map w ts) ++ b' /\ (e = true -> b' = []).
  Proof.
    intros C e st buf.
    apply (drainF_wb_ind (co_wb w C) e (fun _ buf r => forall ts st' b', r = (ts, DMore st' b') ->
             buf = concat (map w ts) ++ b' /\ (e = true -> b' = []))); clear st buf.
    - intros st buf adv st1 Hs _ ts st' b' Hd. injection Hd as <- <- <-.
      destruct (co_more w C _ _ _ _ _ Hs) as [-> He]. rewrite zdrop_0.
      split; [reflexivity|exact He].
    - intros st buf adv t st1 [ts1 r1] Hs _ IH ts st' b' Hd.
      cbn [Scanner.tcons fst snd] in Hd. injection Hd as <- ->.
      destruct (IH ts1 st' b' eq_refl) as [H1 H2]. split; [|exact H2].
      cbn [map concat]. rewrite <- (co_tok w C _ _ _ _ _ _ Hs). rewrite <- app_assoc, <- H1.
      symmetry. apply ztake_zdrop.
  Qed.

  Theorem scan_lossless w : consuming w -> forall last_eof chunks st b e,
    reader_ok last_eof e chunks ->
    let r := scan_from last_eof st b e chunks in
    snd r = Done /\ concat (map w (fst r)) = b ++ concat chunks.
  Proof.
    intros C. pose proof (co_wb w C) as W. cbn zeta.
    apply (scan_from_ind W (fun _ d r => snd r = Done /\ concat (map w (fst r)) = d)).
    - intros st d. split; [exact (reference_done W st d)|]. unfold Scanner.finish.
      destruct (drainF_wb_more W true st d) as (ts & st' & b' & E). rewrite E. cbn [fst].
      destruct (drain_consumes w C true st d ts st' b' E) as [H1 H2].
      rewrite (H2 eq_refl), app_nil_r in H1. symmetry. exact H1.
    - intros st b ts st' b' d r Hd [H1 H2]. unfold Scanner.tapp. cbn [fst snd]. split; [exact H1|].
      destruct (drain_consumes w C false st b ts st' b' Hd) as [H3 _].
      rewrite map_app, concat_app, H2, H3, <- app_assoc. reflexivity.
  Qed.

End ScannerProofs.

(* the tokens observed through a function g *)
Section ScanMap.
  Variables St Tok1 Tok2 : Type.
  Variable g : Tok1 -> Tok2.
  Variable split1 : splitfn St Tok1.
  Variable split2 : splitfn St Tok2.

  Definition map_sres (r : sres St Tok1) : sres St Tok2 :=
    match r with SOk a t s => SOk a (option_map g t) s | SPanic => SPanic end.

  Hypothesis split_map : forall st d e, split2 st d e = map_sres (split1 st d e).

  Definition map_dr (p : list Tok1 * dstop St) : list Tok2 * dstop St := (map g (fst p), snd p).
  Definition map_r (p : list Tok1 * stop) : list Tok2 * stop := (map g (fst p), snd p).

  Lemma drain_step_map rec e st buf :
    drain_step St Tok2 split2 (fun st' b' => map_dr (rec st' b')) e st buf
    = map_dr (drain_step St Tok1 split1 rec e st buf).
  Proof.
    unfold drain_step. rewrite split_map.
    destruct (negb e && nilb buf); [reflexivity|].
    destruct (split1 st buf e) as [adv tok st'|]; [|reflexivity]. cbn [map_sres].
    destruct (adv <? 0); [reflexivity|]. destruct (zlen buf <? adv); [reflexivity|].
    destruct tok as [t|]; [|reflexivity]. cbn [option_map].
    destruct (adv =? 0); reflexivity.
  Qed.

  Lemma drainF_map e st buf :
    drainF St Tok2 split2 e st buf = map_dr (drainF St Tok1 split1 e st buf).
  Proof.
    revert st. induction buf as [buf IH] using list_len_ind. intros st.
    rewrite (drainF_unfold St Tok2), (drainF_unfold St Tok1), <- drain_step_map.
    apply drain_step_ext. intros st' b' Hlt. exact (IH b' Hlt st').
  Qed.

  Lemma finish_map o st buf :
    finish St Tok2 split2 o st buf = map_r (finish St Tok1 split1 o st buf).
  Proof. unfold finish. rewrite drainF_map. reflexivity. Qed.

  Lemma scan_from_map last_eof : forall chunks st buf e,
    scan_from St Tok2 split2 last_eof st buf e chunks
    = map_r (scan_from St Tok1 split1 last_eof st buf e chunks).
  Proof.
    induction chunks as [|c cs IH]; intros st buf e; cbn [scan_from].
    - apply finish_map.
    - destruct (nilb c).
      + destruct (last_eof && nilb cs); [apply finish_map|].
        destruct (Nat.leb max_empty_reads e); [apply finish_map|]. apply IH.
      + destruct (last_eof && nilb cs); [apply finish_map|].
        rewrite drainF_map.
        destruct (drainF St Tok1 split1 false st (buf ++ c)) as [ts r].
        unfold map_dr. cbn [fst snd]. destruct r as [st' buf'|s].
        * rewrite IH. unfold map_r, tapp. cbn [fst snd]. rewrite map_app. reflexivity.
        * reflexivity.
  Qed.

  Lemma scan_map last_eof st0 chunks :
    scan St Tok2 split2 last_eof st0 chunks = map_r (scan St Tok1 split1 last_eof st0 chunks).
  Proof. apply scan_from_map. Qed.

  Lemma map_shift k r : map_sres (shift St Tok1 k r) = shift St Tok2 k (map_sres r).
  Proof. destruct r; reflexivity. Qed.

  Lemma split_map_inv st d e adv tok st' : split2 st d e = SOk adv tok st' ->
    exists tok1, split1 st d e = SOk adv tok1 st' /\ tok = option_map g tok1.
  Proof.
    rewrite split_map. destruct (split1 st d e) as [a t s|]; [|discriminate].
    cbn [map_sres]. intros H. injection H as <- <- <-. exists t. split; reflexivity.
  Qed.

  Lemma wb_map : wb St Tok1 split1 <-> wb St Tok2 split2.
  Proof.
    split; intros W; split.
    - intros st d e. destruct (wb_ok _ _ _ W st d e) as (adv & tok & st' & Hs & Hb & Hp).
      rewrite split_map, Hs. cbn [map_sres]. eexists _, _, _. split; [reflexivity|]. split; [exact Hb|].
      intros Ht. apply Hp. destruct tok; [discriminate|]. exfalso; apply Ht; reflexivity.
    - intros st. rewrite split_map, (wb_empty _ _ _ W). reflexivity.
    - intros st d e. destruct (wb_ok _ _ _ W st d e) as (adv & tok & st' & Hs & Hb & Hp).
      destruct (split_map_inv _ _ _ _ _ _ Hs) as (t1 & E1 & ->).
      eexists _, _, _. split; [exact E1|]. split; [exact Hb|].
      intros Hn. apply Hp. destruct t1; [discriminate|congruence].
    - intros st. destruct (split_map_inv _ _ _ _ _ _ (wb_empty _ _ _ W st)) as ([t|] & E1 & Ht).
      + discriminate.
      + exact E1.
  Qed.

  Lemma skips_map st p : skips St Tok1 split1 st p -> skips St Tok2 split2 st p.
  Proof. intros H x. rewrite !split_map, H, map_shift. reflexivity. Qed.

  Lemma stable_map : stable St Tok1 split1 -> stable St Tok2 split2.
  Proof.
    intros S. split; [exact (proj1 wb_map (st_wb _ _ _ S))| |].
    - intros st d adv t st' Hs d'.
      destruct (split_map_inv _ _ _ _ _ _ Hs) as ([t1|] & E1 & Ht); [|discriminate].
      injection Ht as ->.
      destruct (st_tok _ _ _ S _ _ _ _ _ E1 d') as (k & Hk & H1 & H2).
      exists k. split; [exact Hk|]. split; [rewrite split_map, H1; reflexivity|exact (skips_map _ _ H2)].
    - intros st d adv st' Hs d'.
      destruct (split_map_inv _ _ _ _ _ _ Hs) as ([t1|] & E1 & Ht); [discriminate|].
      rewrite !split_map, (st_more _ _ _ S _ _ _ _ E1 d'), map_shift. reflexivity.
  Qed.
End ScanMap.

(* in state n the split function is the stateless [sp_at n]; a delivered token moves to [next n] *)
Section Indexed.
  Variables St Tok : Type.
  Variable sp_at : St -> splitfn unit Tok.
  Variable next : St -> St.
  Variable sp : splitfn St Tok.
  Hypothesis sp_eq : forall n d e,
    sp n d e = match sp_at n tt d e with
               | SOk adv tok _ => SOk adv tok (match tok with Some _ => next n | None => n end)
               | SPanic => SPanic
               end.

  Lemma simple_indexed : (forall n, simple unit Tok (sp_at n)) -> simple St Tok sp.
  Proof.
    intros H. split; [split| |].
    - intros n d e. rewrite sp_eq.
      destruct (wb_ok _ _ _ (sm_wb _ _ _ (H n)) tt d e) as (adv & tok & st' & Hs & Hb & Hp).
      rewrite Hs. eexists _, _, _. split; [reflexivity|]. split; [exact Hb|exact Hp].
    - intros n. rewrite sp_eq, (wb_empty _ _ _ (sm_wb _ _ _ (H n)) tt). reflexivity.
    - intros n d adv t st' Hs d'. rewrite sp_eq in Hs. rewrite sp_eq.
      destruct (sp_at n tt d false) as [a tok []|] eqn:E; [|discriminate].
      injection Hs as Ha Ht Hst. subst a tok st'.
      rewrite (sm_tok _ _ _ (H n) _ _ _ _ _ E d'). reflexivity.
    - intros n d adv st' Hs. rewrite sp_eq in Hs.
      destruct (sp_at n tt d false) as [a tok []|] eqn:E; [|discriminate].
      injection Hs as Ha Ht Hst. subst a tok st'.
      destruct (sm_more _ _ _ (H n) _ _ _ _ E) as [-> _]. split; reflexivity.
  Qed.
End Indexed.
