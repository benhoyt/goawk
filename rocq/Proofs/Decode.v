(* C02: the decoder of Model/Decode.v inverts the encoder on the opcode and operand words,
   and its opcode table covers exactly the opcodes of the repository. *)
From Coq Require Import String ZifyBool.
From Verif Require Import Lib.Base Model.Ast Model.Instr Model.Compiler Model.Encode Model.Decode Gen.Opcodes.

Open Scope Z_scope.
Open Scope list_scope.

Fixpoint zmem (x : Z) (l : list Z) : bool :=
  match l with [] => false | y :: t => (x =? y) || zmem x t end.
Fixpoint znodup (l : list Z) : bool :=
  match l with [] => true | x :: t => negb (zmem x t) && znodup t end.

(* every opcode name of internal/compiler/opcodes.go except the EndOpcode sentinel has an
   entry; entries are distinct and none is the "unknown name" number -1 *)
Definition op_tab_ok : bool :=
  forallb (fun n => zmem (opn n) op_numbers) (removelast opcode_names) &&
  (Nat.eqb (length op_tab) (length (removelast opcode_names))) &&
  znodup op_numbers && forallb (fun k => 0 <=? k) op_numbers &&
  forallb (fun kv => 0 <=? fst kv) redir_tab && forallb (fun kv => 0 <=? fst kv) aug_tab &&
  forallb (fun kv => 0 <=? fst kv) builtin_tab &&
  znodup (map fst redir_tab) && znodup (map fst aug_tab) && znodup (map fst builtin_tab) &&
  (Nat.eqb (length builtin_tab) (length builtinop_names)) && (Nat.eqb (length aug_tab) (length augop_names)).

Lemma op_tab_complete : op_tab_ok = true.
Proof. vm_compute. reflexivity. Qed.

Lemma dec_pairs_enc : forall (arrs : list (scope * Z)) r,
  dec_pairs (length arrs) (flat_map (fun a => [scope_num (fst a); snd a]) arrs ++ r) = Some (arrs, r).
Proof.
  induction arrs as [|[sc i] arrs IH]; intros r; cbn [length dec_pairs flat_map app fst snd].
  - reflexivity.
  - rewrite IH. destruct sc; reflexivity.
Qed.

Lemma dec_instr_enc i rest : encodable i = true -> dec_instr (enc_raw_instr i ++ rest) = Some (i, rest).
Proof.
  intros He.
  destruct i; cbn [encodable] in He;
    try match goal with s : bytes |- _ => destruct s as [|k [|? ?]]; try discriminate He end;
    try (destruct sc; try discriminate He);
    try (destruct vsc; destruct asc);
    try match goal with a : arith |- _ => destruct a end;
    try match goal with c : cmp |- _ => destruct c end;
    try match goal with b : builtin |- _ => destruct b end;
    try match goal with b : bool |- _ => destruct b end;
    try match goal with r : redir |- _ => destruct r end;
    try reflexivity.
  (* CallUser *)
  unfold enc_raw_instr. cbn [enc_instr fst]. rewrite <- app_assoc.
  change (dec_instr (opn "CallUser" :: fi :: zlen arrs ::
                       flat_map (fun a => [scope_num (fst a); snd a]) arrs ++ rest) = Some (ICallUser fi arrs, rest)).
  unfold dec_instr. change (zassoc op_tab (opn "CallUser")) with (Some KCallUser).
  cbv beta iota. unfold zlen. destruct (Z.of_nat (length arrs) <? 0) eqn:E; [lia|].
  rewrite Nat2Z.id, dec_pairs_enc. reflexivity.
Qed.

Lemma enc_raw_instr_nonempty i : encodable i = true -> enc_raw_instr i <> [].
Proof. intros He E. pose proof (dec_instr_enc i [] He) as H. rewrite E in H. discriminate H. Qed.

Lemma dec_go_enc : forall c fuel, (length (enc_raw c) <= fuel)%nat -> forallb encodable c = true ->
  dec_go fuel (enc_raw c) = Some c.
Proof.
  induction c as [|i c IH]; intros fuel Hl He.
  - destruct fuel; reflexivity.
  - cbn [forallb] in He. apply andb_true_iff in He as [Hi Hc].
    unfold enc_raw in *. cbn [flat_map] in *.
    pose proof (dec_instr_enc i (flat_map enc_raw_instr c) Hi) as Hd.
    pose proof (enc_raw_instr_nonempty i Hi) as Hn.
    destruct (enc_raw_instr i) as [|w ws]; [contradiction|].
    rewrite app_length in Hl. cbn [length app] in *.
    destruct fuel as [|fuel]; [lia|].
    cbn [dec_go]. rewrite Hd, IH; [reflexivity|lia|exact Hc].
Qed.

Theorem decode_enc_raw c : forallb encodable c = true -> decode (enc_raw c) = Some c.
Proof. intros He. unfold decode. apply dec_go_enc; [lia|exact He]. Qed.

(* the words Model/Encode.v emits are the plain encoding of the code with every constant
   replaced by its table index *)

Definition abs_instr (p : pools) (i : instr) : instr :=
  match i with
  | INum b => INum (fst (num_index p b))
  | IStr s => IStr [fst (str_index p s)]
  | IFieldByNameStr s => IFieldByNameStr [fst (str_index p s)]
  | IRegex s => IRegex [fst (regex_index p s)]
  | _ => i
  end.

Fixpoint abs_code (p : pools) (c : code) : code :=
  match c with
  | [] => []
  | i :: c' => abs_instr p i :: abs_code (snd (enc_instr p i)) c'
  end.

Lemma enc_instr_abs p i : fst (enc_instr p i) = enc_raw_instr (abs_instr p i).
Proof.
  destruct i; try reflexivity; cbn [enc_instr abs_instr enc_raw_instr const_idx].
  - destruct (num_index p bits); reflexivity.
  - destruct (str_index p s); reflexivity.
  - destruct (str_index p s); reflexivity.
  - destruct (regex_index p r); reflexivity.
Qed.

Lemma enc_code_abs : forall c p, fst (enc_code p c) = enc_raw (abs_code p c).
Proof.
  induction c as [|i c IH]; intros p; cbn [enc_code abs_code]; [reflexivity|].
  pose proof (enc_instr_abs p i) as Hi.
  destruct (enc_instr p i) as [w p1] eqn:Ei. cbn [fst snd] in *.
  specialize (IH p1). destruct (enc_code p1 c) as [ws p2]. cbn [fst] in *.
  unfold enc_raw in *. cbn [flat_map]. rewrite Hi, IH. reflexivity.
Qed.

(* scopes that have an opcode *)
Definition scopes_encodable (i : instr) : bool :=
  match i with
  | IArray sc _ | IIn sc _ | IAssignArray sc _ | IIncrArray sc _ _ | IAugArray sc _ _ =>
      match sc with SSpecial => false | _ => true end
  | _ => true
  end.

Lemma abs_encodable p i : scopes_encodable i = true -> encodable (abs_instr p i) = true.
Proof. destruct i; cbn; auto. Qed.

Lemma abs_code_encodable : forall c p, forallb scopes_encodable c = true -> forallb encodable (abs_code p c) = true.
Proof.
  induction c as [|i c IH]; intros p H; cbn [abs_code forallb] in *; [reflexivity|].
  apply andb_true_iff in H as [Hi Hc]. rewrite abs_encodable by exact Hi. cbn [andb]. apply IH. exact Hc.
Qed.

Theorem decode_enc_code p c :
  forallb scopes_encodable c = true -> decode (fst (enc_code p c)) = Some (abs_code p c).
Proof. intros H. rewrite enc_code_abs. apply decode_enc_raw. apply abs_code_encodable. exact H. Qed.
