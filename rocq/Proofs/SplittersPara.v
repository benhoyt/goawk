(* RS = "": on input without CR the records are the blank-line separated paragraphs. *)
From Verif Require Import Lib.Base Model.Scanner Model.Splitters
  Proofs.Scanner Proofs.Splitters Proofs.SplittersBlank.

(* strings.Split(l, sep) for a one-byte sep: always at least one piece *)
Fixpoint pieces (sep : Z) (l : bytes) : list bytes :=
  match l with
  | [] => [[]]
  | c :: l' =>
    if c =? sep then [] :: pieces sep l'
    else match pieces sep l' with
         | p :: ps => (c :: p) :: ps
         | [] => [[c]]
         end
  end.

Definition glue (cur : option bytes) (l : bytes) : bytes :=
  match cur with Some p => p ++ 10 :: l | None => l end.

(* maximal runs of non-empty lines, the lines of a run joined by "\n" *)
Fixpoint paras (cur : option bytes) (ls : list bytes) : list bytes :=
  match ls with
  | [] => match cur with Some p => [p] | None => [] end
  | l :: ls' =>
    if nilb l then match cur with Some p => p :: paras None ls' | None => paras None ls' end
    else paras (Some (glue cur l)) ls'
  end.

Definition paragraphs (data : bytes) : list bytes := paras None (pieces 10 data).

Lemma pieces_nonnil sep l : pieces sep l <> [].
Proof.
  destruct l as [|c l]; [discriminate|]. cbn [pieces].
  destruct (c =? sep); [discriminate|]. destruct (pieces sep l); discriminate.
Qed.

Lemma pieces_line sep a : ~ In sep a -> forall y, pieces sep (a ++ sep :: y) = a :: pieces sep y.
Proof.
  induction a as [|c a IH]; intros Hn y.
  - cbn [app pieces]. rewrite Z.eqb_refl. reflexivity.
  - cbn [app pieces]. destruct (c =? sep) eqn:E.
    + apply Z.eqb_eq in E. exfalso. apply Hn. left. exact E.
    + rewrite IH by (intro H; apply Hn; right; exact H). reflexivity.
Qed.

Lemma pieces_last sep a : ~ In sep a -> pieces sep a = [a].
Proof.
  induction a as [|c a IH]; intros Hn; [reflexivity|].
  cbn [pieces]. destruct (c =? sep) eqn:E.
  - apply Z.eqb_eq in E. exfalso. apply Hn. left. exact E.
  - rewrite IH by (intro H; apply Hn; right; exact H). reflexivity.
Qed.

(* no "\n\n" *)
Definition nb (l : bytes) : Prop := forall u v, l <> u ++ 10 :: 10 :: v.

Lemma nb_cons c l : nb l -> (c <> 10 \/ forall t, l <> 10 :: t) -> nb (c :: l).
Proof.
  intros Hl Hc u v E. destruct u as [|x u]; cbn [app] in E.
  - injection E as -> ->. destruct Hc as [Hc|Hc]; [congruence|exact (Hc v eq_refl)].
  - injection E as _ E. exact (Hl u v E).
Qed.

Lemma nb_suffix a l : nb (a ++ l) -> nb l.
Proof. intros H u v E. apply (H (a ++ u) v). rewrite E, app_assoc. reflexivity. Qed.

Lemma nb_short l : (length l < 2)%nat -> nb l.
Proof.
  intros H u v E. rewrite E in H. rewrite app_length in H. cbn [length] in H. lia.
Qed.

Lemma find_blank_some_nocr l : ~ In 13 l -> forall i en i', find_blank l i = Some (en, i') ->
  exists b l2, l = b ++ 10 :: 10 :: l2 /\ en = i + zlen b /\ i' = en + 2 + skip_nl l2 /\ nb (b ++ [10]).
Proof.
  induction l as [|c l IH]; intros Hcr i en i' H; [discriminate|]. rewrite find_blank_cons in H.
  destruct (blank_len (c :: l) =? 0) eqn:E.
  - apply Z.eqb_eq, blank_len_0 in E.
    destruct (IH (fun Hi => Hcr (or_intror Hi)) _ _ _ H) as (b & l2 & -> & -> & -> & Hnb).
    exists (c :: b), l2. split; [reflexivity|]. rewrite zlen_cons. split; [lia|]. split; [lia|].
    cbn [app]. apply nb_cons; [exact Hnb|].
    destruct E as [E|E]; [left; exact E|right]. intros t Et. destruct b as [|x b].
    + exact (E _ eq_refl).
    + injection Et as -> _. exact (E _ eq_refl).
  - apply Z.eqb_neq in E. destruct (blank_len_nocr _ Hcr E) as (l2 & El). rewrite El in H.
    change (blank_len (10 :: 10 :: l2)) with 2 in H. change (zdrop 2 (10 :: 10 :: l2)) with l2 in H.
    injection H as <- <-. exists [], l2. split; [exact El|]. rewrite zlen_nil. split; [lia|]. split; [lia|].
    apply nb_short. cbn. lia.
Qed.

Lemma find_blank_none_nocr l : forall i, find_blank l i = None -> nb l.
Proof.
  induction l as [|c l IH]; intros i H; [apply nb_short; cbn; lia|]. rewrite find_blank_cons in H.
  destruct (blank_len (c :: l) =? 0) eqn:E; [|discriminate].
  apply Z.eqb_eq, blank_len_0 in E. apply nb_cons; [exact (IH _ H)|exact E].
Qed.

Lemma glue_assoc cur a b : glue (Some (glue cur a)) b = glue cur (a ++ 10 :: b).
Proof. destruct cur; cbn [glue]; [rewrite <- app_assoc|]; reflexivity. Qed.

Definition starts10 (l : bytes) : Prop := exists t, l = 10 :: t.

Lemma paras_block b : b <> [] -> ~ starts10 b -> nb (b ++ [10]) ->
  forall cur y, paras cur (pieces 10 (b ++ 10 :: 10 :: y)) = glue cur b :: paras None (pieces 10 y).
Proof.
  pattern b. apply (sep_ind 10); clear b.
  - congruence.
  - intros a b' Hn IH _ Hs Hnb cur y.
    assert (Ha : a <> []) by (intros ->; apply Hs; exists b'; reflexivity).
    assert (Hb' : b' <> []).
    { intros ->. apply (Hnb a []). rewrite <- app_assoc. reflexivity. }
    assert (Hs' : ~ starts10 b').
    { intros (t & ->). apply (Hnb a (t ++ [10])). rewrite <- app_assoc. reflexivity. }
    assert (Hnb' : nb (b' ++ [10])).
    { apply (nb_suffix (a ++ [10])). rewrite <- !app_assoc in *. exact Hnb. }
    rewrite <- app_assoc. cbn [app]. rewrite pieces_line by exact Hn. cbn [paras].
    rewrite (proj2 (nilb_false a) Ha).
    rewrite (IH Hb' Hs' Hnb'), glue_assoc. reflexivity.
  - intros b Hn Hb _ _ _ cur y. rewrite pieces_line by exact Hn. cbn [paras].
    rewrite (proj2 (nilb_false b) Hb).
    cbn [paras pieces]. rewrite Z.eqb_refl. cbn [paras nilb]. reflexivity.
Qed.

Lemma paras_last d : d <> [] -> ~ starts10 d -> nb d ->
  forall cur, paras cur (pieces 10 d) = [glue cur (strip_last 10 d)].
Proof.
  pattern d. apply (sep_ind 10); clear d.
  - congruence.
  - intros a d' Hn IH _ Hs Hnb cur.
    assert (Ha : a <> []) by (intros ->; apply Hs; exists d'; reflexivity).
    rewrite pieces_line by exact Hn. cbn [paras].
    rewrite (proj2 (nilb_false a) Ha).
    destruct d' as [|x d'].
    + cbn [pieces paras nilb]. rewrite strip_last_snoc, Z.eqb_refl. reflexivity.
    + assert (Hs' : ~ starts10 (x :: d')).
      { intros (t & E). injection E as -> ->. apply (Hnb a t). reflexivity. }
      rewrite IH; [|discriminate|exact Hs'|].
      * rewrite glue_assoc. change (10 :: x :: d') with ([10] ++ x :: d').
        rewrite app_assoc, strip_last_app by discriminate. rewrite <- app_assoc. reflexivity.
      * apply (nb_suffix (a ++ [10])). rewrite <- app_assoc. exact Hnb.
  - intros d Hn Hd _ _ _ cur. rewrite pieces_last by exact Hn. cbn [paras].
    rewrite (proj2 (nilb_false d) Hd).
    rewrite strip_last_notin by exact Hn. reflexivity.
Qed.

Lemma paragraphs_nl x : paragraphs (10 :: x) = paragraphs x.
Proof. unfold paragraphs. cbn [pieces]. rewrite Z.eqb_refl. reflexivity. Qed.

Theorem blank_records_paragraphs data : ~ In 13 data ->
  map fst (fst (blank_drain data)) = paragraphs data.
Proof.
  induction data as [data IH] using list_len_ind. intros Hcr.
  destruct data as [|c x]; [rewrite blank_drain_nil; reflexivity|].
  assert (Hcr' : ~ In 13 x) by (intro; apply Hcr; right; assumption).
  assert (Hc13 : c <> 13) by (intros ->; apply Hcr; left; reflexivity).
  destruct (Z.eq_dec c 10) as [->|Hc10].
  - rewrite blank_drain_nl by reflexivity. rewrite paragraphs_nl.
    apply IH; [cbn [length]; lia|exact Hcr'].
  - assert (Hnl : is_nl c = false).
    { unfold is_nl. apply orb_false_iff. split; apply Z.eqb_neq; assumption. }
    rewrite blank_drain_head by exact Hnl.
    assert (Hst : ~ starts10 (c :: x)) by (intros (t & E); injection E as -> _; congruence).
    destruct (find_blank (c :: x) 0) as [[en i']|] eqn:Hf; cbn [tcons fst snd map].
    + destruct (find_blank_some_nocr _ Hcr _ _ _ Hf) as (b & l2 & E & -> & -> & Hnb).
      rewrite E in *. clear E.
      assert (Hb : b <> []) by (intros ->; apply Hst; eexists; reflexivity).
      assert (Hsb : ~ starts10 b) by (intros (t & ->); apply Hst; eexists; reflexivity).
      rewrite Z.add_0_l. rewrite ztake_zlen_app.
      rewrite strip_last_notin by (intro Hi; apply Hcr; apply in_or_app; left; exact Hi).
      unfold paragraphs at 1. rewrite (paras_block b Hb Hsb Hnb None l2).
      cbn [glue]. f_equal.
      pose proof (skip_nl_bounds l2).
      replace (zlen b + 2 + skip_nl l2) with (zlen b + (1 + (1 + skip_nl l2))) by lia.
      rewrite zdrop_app_zlen by lia. rewrite !zdrop_succ_cons by lia.
      rewrite blank_drain_skip. apply IH.
      * rewrite app_length. cbn [length]. lia.
      * intro Hi. apply Hcr. apply in_or_app. right. right. right. exact Hi.
    + pose proof (find_blank_none_nocr _ _ Hf) as Hnb.
      rewrite (strip_last_notin 13) by (intro Hi; apply Hcr; exact (in_strip_last _ _ _ Hi)).
      unfold paragraphs. rewrite (paras_last (c :: x)); try assumption; [reflexivity|discriminate].
Qed.

(* goawk, RS = "", input without CR, the whole input at EOF: the records are the paragraphs *)
Theorem paragraph_spec find data : ~ In 13 data ->
  map fst (fst (reference unit record (goawk_split [] find) tt data)) = paragraphs data.
Proof. exact (blank_records_paragraphs data). Qed.
