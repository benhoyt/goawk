(* C02: addressing, annotation, frame and stack lemmas for the verifier soundness proof. *)
From Coq Require Import ZifyBool.
From Verif Require Import Lib.Base Model.Ast Model.Instr Model.Compiler Model.Prims Model.VM
  Model.Verifier Proofs.CodeAt Gen.Consts.

Lemma fetch_code_at C : forall ip i, fetch C ip = Some i -> code_at C ip [i].
Proof.
  induction C as [|j C IH]; intros ip i H; cbn [fetch] in H; [discriminate|].
  destruct (ip =? 0) eqn:E0.
  - injection H as <-. exists [], C. split; [reflexivity|cbn [csize]; lia].
  - destruct (ip <? isize j) eqn:E1; [discriminate|].
    destruct (IH _ _ H) as (pre & post & -> & Hp).
    exists (j :: pre), post. split; [reflexivity|cbn [csize]; lia].
Qed.

Lemma fetch_range C ip i : fetch C ip = Some i -> 0 <= ip < csize C.
Proof.
  intros H. apply fetch_code_at in H. split; [eapply code_at_nonneg|eapply code_at_lt]; exact H.
Qed.

Lemma fetch_boundaries C : forall base ip i,
  fetch C ip = Some i -> In (base + ip, i) (boundaries C base).
Proof.
  induction C as [|j C IH]; intros base ip i H; cbn [fetch] in H; [discriminate|].
  cbn [boundaries]. destruct (ip =? 0) eqn:E0.
  - injection H as <-. left. f_equal. lia.
  - destruct (ip <? isize j) eqn:E1; [discriminate|]. right.
    replace (base + ip) with (base + isize j + (ip - isize j)) by lia. apply IH. exact H.
Qed.

Lemma is_target_cases C ip :
  is_target C ip = true -> ip = csize C \/ exists i, fetch C ip = Some i.
Proof.
  unfold is_target. intros H. destruct (ip =? csize C) eqn:E; [left; lia|].
  right. destruct (fetch C ip) as [i|]; [eauto|discriminate].
Qed.

Lemma is_target_start C : is_target C 0 = true.
Proof.
  unfold is_target. destruct C as [|i C]; [reflexivity|].
  cbn [fetch]. rewrite Z.eqb_refl. apply orb_true_r.
Qed.

Lemma look_is_true a ip d : look_is a ip d = true -> look a ip = Some d.
Proof. unfold look_is. destruct (look a ip) as [d'|]; [|discriminate]. intros H. f_equal. lia. Qed.

Lemma tgt_true C a ip d : tgt C a ip d = true -> is_target C ip = true /\ look a ip = Some d.
Proof.
  unfold tgt. intros H. apply andb_true_iff in H as [H1 H2]. split; [exact H1|apply look_is_true; exact H2].
Qed.

Section CheckAnn.
  Variables (FT : ftable) (chk : vctx -> Z -> code -> bool) (cx : vctx) (a : ann) (C : code) (d0 dend : Z).
  Hypothesis Hchk : check_ann FT chk cx a C d0 dend = true.

  Lemma check_ann_start : tgt C a 0 d0 = true.
  Proof.
    unfold check_ann in Hchk. apply andb_true_iff in Hchk as [H _]. apply andb_true_iff in H as [H _].
    unfold tgt. rewrite is_target_start. exact H.
  Qed.

  Lemma check_ann_local ip i d :
    fetch C ip = Some i -> look a ip = Some d -> local_ok FT chk cx a C ip i d = true.
  Proof.
    intros Hf Hl. unfold check_ann in Hchk. apply andb_true_iff in Hchk as [H _]. apply andb_true_iff in H as [_ H].
    rewrite forallb_forall in H. specialize (H _ (fetch_boundaries C 0 ip i Hf)).
    cbn [fst snd] in H. rewrite Z.add_0_l, Hl in H. exact H.
  Qed.

  Lemma check_ann_end d : look a (csize C) = Some d -> d = dend.
  Proof.
    intros Hl. unfold check_ann in Hchk. apply andb_true_iff in Hchk as [_ H]. rewrite Hl in H. lia.
  Qed.
End CheckAnn.

Arguments check_ann_start {FT chk cx a C d0 dend}.
Arguments check_ann_local {FT chk cx a C d0 dend}.
Arguments check_ann_end {FT chk cx a C d0 dend}.

(* the flow class of an instruction determines the instruction, up to its operands *)
Lemma flow_of_control cx i :
  match flow_of cx i with
  | FNext _ _ => is_control i = false
  | FJump po off fall =>
      (i = IJump off /\ po = 0 /\ fall = false) \/ (i = IJumpFalse off /\ po = 1 /\ fall = true) \/
      (i = IJumpTrue off /\ po = 1 /\ fall = true) \/ (exists c, i = IJumpCmp c off /\ po = 2 /\ fall = true)
  | FStop po => (po = 0 /\ (i = INext \/ i = INextfile \/ i = IExit)) \/ (po = 1 /\ i = IExitStatus)
  | FRet po => (i = IReturn /\ po = 1) \/ (i = IReturnNull /\ po = 0)
  | FBrk => i = IBreakForIn
  | FForIn off => exists vsc vi asc ai, i = IForIn vsc vi asc ai off /\ var_ok cx vsc vi = true
  | FCall fi => exists arrs, i = ICallUser fi arrs
  | FBad => True
  end.
Proof.
  destruct i; cbn [flow_of is_control]; unfold fnext_if;
    try match goal with |- context [if ?b then _ else _] => destruct b eqn:E; [|exact I] end;
    try reflexivity; try (apply andb_true_iff in E as [E _]); eauto 10.
Qed.

Lemma nth_z_Some {A} (l : list A) i x : nth_z l i = Some x -> 0 <= i /\ nth_error l (Z.to_nat i) = Some x.
Proof. unfold nth_z. destruct (i <? 0) eqn:E; [discriminate|]. intros H. split; [lia|exact H]. Qed.

Section Base.
  Variables value St err : Type.
  Variable P : prims value St err.

  Notation mstate := (mstate value St).

  Lemma set_nth_ok : forall (l : list value) n v, (n < length l)%nat ->
    exists l', set_nth l n v = Some l' /\ length l' = length l.
  Proof.
    induction l as [|x l IH]; intros n v H; cbn [length] in H; [lia|].
    destruct n as [|n]; cbn [set_nth].
    - eexists. split; [reflexivity|reflexivity].
    - destruct (IH n v ltac:(lia)) as (l' & E & L). rewrite E. eexists. split; [reflexivity|]. cbn [length]. lia.
  Qed.

  Lemma frame_get_ok (m : mstate) i : 0 <= i < zlen (frame m) -> exists v, frame_get m i = Some v.
  Proof.
    unfold frame_get, zlen. intros H. destruct (i <? 0) eqn:E; [lia|].
    destruct (nth_error (frame m) (Z.to_nat i)) as [v|] eqn:En; [eauto|].
    apply nth_error_None in En. lia.
  Qed.

  Lemma frame_set_ok (m : mstate) i v : 0 <= i < zlen (frame m) ->
    exists m', frame_set m i v = Some m' /\ zlen (frame m') = zlen (frame m) /\ depth m' = depth m.
  Proof.
    unfold frame_set, zlen. intros H. destruct (i <? 0) eqn:E; [lia|].
    destruct (set_nth_ok (frame m) (Z.to_nat i) v ltac:(lia)) as (l' & El & L).
    rewrite El. eexists. split; [reflexivity|]. cbn [frame depth]. rewrite L. split; reflexivity.
  Qed.

  Lemma pop_n_ok : forall n (stk acc : list value), Z.of_nat n <= zlen stk ->
    exists vs t, pop_n n stk acc = Some (vs, t) /\ zlen t = zlen stk - Z.of_nat n /\
                 zlen vs = zlen acc + Z.of_nat n.
  Proof.
    unfold zlen. induction n as [|n IH]; intros stk acc H; cbn [pop_n].
    - exists acc, stk. split; [reflexivity|]. lia.
    - destruct stk as [|v stk]; cbn [length] in *; [lia|].
      destruct (IH stk (v :: acc) ltac:(lia)) as (vs & t & E & L1 & L2).
      exists vs, t. split; [exact E|]. cbn [length] in L2. lia.
  Qed.

  Lemma pop_n_z n (stk : list value) : 0 <= n -> n <= zlen stk ->
    exists vs t, pop_n (Z.to_nat n) stk [] = Some (vs, t) /\ zlen t = zlen stk - n /\ zlen vs = n.
  Proof.
    intros H0 H. destruct (pop_n_ok (Z.to_nat n) stk [] ltac:(lia)) as (vs & t & E & L1 & L2).
    exists vs, t. split; [exact E|]. unfold zlen in *. cbn [length] in L2. lia.
  Qed.

  Definition wres_ok (fl dp : Z) (w : wres value St err) : Prop :=
    match w with
    | WOk m' => zlen (frame m') = fl /\ depth m' = dp
    | WErr _ m' => depth m' = dp
    | WStuck => False
    end.

  Lemma var_write_ok cx dp (m : mstate) sc i v :
    var_ok cx sc i = true -> zlen (frame m) = cx_nlocals cx -> depth m = dp ->
    wres_ok (cx_nlocals cx) dp (var_write P m sc i v).
  Proof.
    intros Hv Hm <-. destruct sc; cbn [var_write var_ok] in *.
    - unfold local_ok_idx in Hv.
      destruct (frame_set_ok m i v ltac:(lia)) as (m' & E & L & D). rewrite E. cbn [wres_ok]. split; lia.
    - destruct (p_set_special P (ms m) i v) as [s [u|e]]; cbn [wres_ok with_ms frame depth]; auto.
    - cbn [wres_ok with_ms frame depth]. auto.
  Qed.

  (* what the verifier assumes about the CallBuiltin primitive: it takes and leaves the
     numbers of values that interp/vm.go callBuiltin takes and leaves *)
  Record prims_shape : Prop := {
    sh_arity : forall b, p_builtin_arity P b = builtin_arity b;
    sh_nres : forall b s vs s' rs, p_builtin P b s vs = (s', EOk rs) -> length rs = builtin_nres b
  }.

  Definition sres_ok (n fl dp : Z) (r : sres value St err) : Prop :=
    match r with
    | SOk stk' m' => zlen stk' = n /\ zlen (frame m') = fl /\ depth m' = dp
    | SErr _ _ => True
    | SStuck => False
    end.

  Lemma lift_w_ok n fl dp stk w : zlen stk = n -> wres_ok fl dp w -> sres_ok n fl dp (lift_w stk w).
  Proof. intros Hn Hw. destruct w; cbn [lift_w sres_ok wres_ok] in *; intuition. Qed.

  Lemma lift_unit_ok n fl dp stk (m : mstate) r : zlen stk = n -> zlen (frame m) = fl -> depth m = dp ->
    sres_ok n fl dp (lift_unit stk m r).
  Proof. intros Hn Hf Hd. destruct r as [s [u|e]]; cbn [lift_unit sres_ok with_ms frame depth]; auto. Qed.

  Lemma lift_val_ok n fl dp stk (m : mstate) r : 1 + zlen stk = n -> zlen (frame m) = fl -> depth m = dp ->
    sres_ok n fl dp (lift_val stk m r).
  Proof.
    intros Hn Hf Hd. destruct r as [s [u|e]]; cbn [lift_val sres_ok with_ms frame depth]; auto.
    rewrite zlen_cons. auto.
  Qed.

  Lemma do_getline_ok (m : mstate) r stk : redir_pops r <= zlen stk ->
    exists t res, do_getline P m r stk = Some (t, res) /\ zlen t = zlen stk - redir_pops r.
  Proof.
    intros H. destruct r; cbn [do_getline redir_pops] in *;
      try (destruct stk as [|v stk]; [rewrite zlen_nil in H; lia|]; rewrite zlen_cons;
           eexists _, _; split; [reflexivity|lia]).
    eexists _, _. split; [reflexivity|lia].
  Qed.

End Base.

Arguments wres_ok {value St err}.
Arguments sres_ok {value St err}.
Arguments prims_shape {value St err}.
