(* C09: basic lemmas shared by the Printf proofs: repetition / padding,
   ASCII strings, digit strings. *)
From Verif Require Import Lib.Base Lib.Dyadic Lib.Utf8 Model.Printf Proofs.PrintfSpec Proofs.Utf8Facts.

Lemma rep_nonpos n c : n <= 0 -> rep n c = [].
Proof. intros H. unfold rep. replace (Z.to_nat n) with 0%nat by lia. reflexivity. Qed.

Lemma rep_succ n c : 0 <= n -> rep (n + 1) c = c :: rep n c.
Proof. intros H. unfold rep. replace (Z.to_nat (n + 1)) with (S (Z.to_nat n)) by lia. reflexivity. Qed.

Lemma rep_snoc n c : rep n c ++ [c] = c :: rep n c.
Proof. symmetry. apply repeat_cons. Qed.

Lemma zlen_rep n c : zlen (rep n c) = Z.max 0 n.
Proof. unfold zlen, rep. rewrite repeat_length. lia. Qed.

Lemma padding_rep n c : padding n c = rep n c.
Proof.
  unfold padding, rep. destruct n as [|p|p]; cbn [Z.iter Z.to_nat]; try reflexivity.
  rewrite Pos2Nat.inj_iter. induction (Pos.to_nat p) as [|k IH]; cbn [nat_rect repeat]; [reflexivity|].
  rewrite IH. reflexivity.
Qed.

Definition ascii (s : bytes) : bool := forallb (fun b => b <? 128) s.

Lemma ascii_app a b : ascii (a ++ b) = ascii a && ascii b.
Proof. apply forallb_app. Qed.

Lemma ascii_rep n c : c < 128 -> ascii (rep n c) = true.
Proof.
  intros H. unfold ascii, rep. induction (Z.to_nat n) as [|k IH]; cbn [repeat forallb]; [reflexivity|].
  rewrite IH. apply andb_true_iff; split; [apply Z.ltb_lt; exact H | reflexivity].
Qed.

(* the state built by doPrintf pads with spaces when the 0 flag is absent *)
Definition space_pad (f : fmts) : Prop := fzero f && negb (fminus f) = false.

Lemma pad_norm f b : space_pad f -> (widP f = false -> wid f = 0) -> 0 <= wid f ->
  pad f b = if fminus f then b ++ rep (wid f - rune_count b) 32 else rep (wid f - rune_count b) 32 ++ b.
Proof.
  intros Hs Hw H0. unfold pad, write_padding, pad_char. rewrite Hs. rewrite padding_rep.
  assert (0 <= rune_count b) by (unfold rune_count; apply zlen_nonneg).
  destruct (widP f) eqn:EP; cbn [negb orb].
  - destruct (wid f =? 0) eqn:E0.
    + apply Z.eqb_eq in E0. rewrite E0. rewrite rep_nonpos by lia.
      destruct (fminus f); [rewrite app_nil_r|]; reflexivity.
    + destruct (fminus f); reflexivity.
  - rewrite (Hw eq_refl). rewrite rep_nonpos by lia. destruct (fminus f); [rewrite app_nil_r|]; reflexivity.
Qed.

Lemma digit_char_dchar upper d : digit_char upper d = dchar upper d.
Proof. unfold digit_char, dchar. destruct (d <? 10); [reflexivity|]. destruct upper; lia. Qed.

Lemma go_digits_to_digits fuel : forall base u upper acc, 0 <= u -> 0 < base ->
  go_digits fuel base u upper acc = to_digits_fuel fuel base u upper acc.
Proof.
  induction fuel as [|k IH]; intros base u upper acc Hu Hb; cbn [go_digits to_digits_fuel]; [reflexivity|].
  rewrite !digit_char_dchar. destruct (u <? base) eqn:E.
  - apply Z.ltb_lt in E. rewrite Z.mod_small by lia. reflexivity.
  - apply IH; [apply Z.div_pos; lia | exact Hb].
Qed.

Lemma digits_of_to_digits base u upper : 0 <= u -> 0 < base ->
  digits_of base u upper = to_digits base u upper.
Proof. intros. unfold digits_of, to_digits. apply go_digits_to_digits; assumption. Qed.

Lemma dchar_ascii upper d : 0 <= d < 16 -> dchar upper d < 128.
Proof. intros H. unfold dchar. destruct (d <? 10) eqn:E; [apply Z.ltb_lt in E; lia|]. destruct upper; lia. Qed.

Lemma to_digits_fuel_ascii fuel : forall base u upper acc, 0 <= u -> 2 <= base <= 16 ->
  ascii acc = true -> ascii (to_digits_fuel fuel base u upper acc) = true.
Proof.
  induction fuel as [|k IH]; intros base u upper acc Hu Hb Ha; cbn [to_digits_fuel]; [exact Ha|].
  assert (Ha' : ascii (dchar upper (u mod base) :: acc) = true).
  { cbn [ascii forallb]. apply andb_true_iff; split; [|exact Ha]. apply Z.ltb_lt, dchar_ascii.
    pose proof (Z.mod_pos_bound u base ltac:(lia)). lia. }
  destruct (u <? base); [exact Ha'|]. apply IH; [apply Z.div_pos; lia | exact Hb | exact Ha'].
Qed.

Lemma to_digits_ascii base u upper : 0 <= u -> 2 <= base <= 16 -> ascii (to_digits base u upper) = true.
Proof. intros. unfold to_digits. apply to_digits_fuel_ascii; [assumption | assumption | reflexivity]. Qed.

Lemma to_digits_fuel_len fuel : forall base u upper acc, zlen acc <= zlen (to_digits_fuel fuel base u upper acc).
Proof.
  induction fuel as [|k IH]; intros; cbn [to_digits_fuel]; [lia|].
  destruct (u <? base); [rewrite zlen_cons; lia|]. etransitivity; [|apply IH]. rewrite zlen_cons. lia.
Qed.

Lemma to_digits_nonempty base u upper : 1 <= zlen (to_digits base u upper).
Proof.
  unfold to_digits. cbn [to_digits_fuel]. destruct (u <? base); [|etransitivity; [|apply to_digits_fuel_len]];
    rewrite zlen_cons, zlen_nil; lia.
Qed.

(* the digit string denotes u (this is what pins [to_digits] down) *)
Lemma dig_val_dchar upper d : 0 <= d < 16 -> dig_val (dchar upper d) = d.
Proof.
  intros H. unfold dig_val, dchar. destruct (d <? 10) eqn:E.
  - apply Z.ltb_lt in E. replace (48 + d <? 58) with true by lia. lia.
  - apply Z.ltb_ge in E. destruct upper.
    + replace (65 + (d - 10) <? 58) with false by lia.
      replace (65 + (d - 10) <? 91) with true by lia. lia.
    + replace (97 + (d - 10) <? 58) with false by lia.
      replace (97 + (d - 10) <? 91) with false by lia. lia.
Qed.

Lemma digits_value_app base a b :
  digits_value base (a ++ b) = fold_left (fun x c => x * base + dig_val c) b (digits_value base a).
Proof. unfold digits_value. apply fold_left_app. Qed.

Lemma fold_digits_shift base (l : bytes) : forall x,
  fold_left (fun a c => a * base + dig_val c) l x = x * base ^ zlen l + digits_value base l.
Proof.
  induction l as [|c t IH]; intros x.
  - unfold digits_value, zlen. cbn [fold_left length Z.of_nat]. rewrite Z.pow_0_r. lia.
  - cbn [fold_left]. rewrite IH. unfold digits_value at 2. cbn [fold_left]. rewrite (IH (0 * base + dig_val c)).
    rewrite zlen_cons. rewrite Z.pow_add_r by (pose proof (zlen_nonneg t); lia). lia.
Qed.

Lemma to_digits_fuel_value fuel : forall base u upper acc, 0 <= u -> 2 <= base <= 16 ->
  u < 2 ^ Z.of_nat fuel ->
  digits_value base (to_digits_fuel fuel base u upper acc)
  = u * base ^ zlen acc + digits_value base acc.
Proof.
  induction fuel as [|k IH]; intros base u upper acc Hu Hb Hf.
  - cbn in Hf. assert (u = 0) by lia. subst. cbn [to_digits_fuel]. lia.
  - cbn [to_digits_fuel]. pose proof (Z.mod_pos_bound u base ltac:(lia)) as Hm.
    destruct (u <? base) eqn:E.
    + apply Z.ltb_lt in E. rewrite Z.mod_small by lia.
      unfold digits_value at 1. cbn [fold_left]. rewrite fold_digits_shift.
      rewrite dig_val_dchar by lia. lia.
    + apply Z.ltb_ge in E. rewrite IH; [| apply Z.div_pos; lia | exact Hb |].
      * rewrite zlen_cons. unfold digits_value at 1. cbn [fold_left]. rewrite fold_digits_shift.
        rewrite dig_val_dchar by lia. rewrite Z.pow_add_r by (pose proof (zlen_nonneg acc); lia).
        pose proof (Z.div_mod u base ltac:(lia)). nia.
      * rewrite Nat2Z.inj_succ, Z.pow_succ_r in Hf by lia.
        apply Z.div_lt_upper_bound; [lia|]. nia.
Qed.

Theorem to_digits_value base u upper : 0 <= u -> 2 <= base <= 16 ->
  digits_value base (to_digits base u upper) = u.
Proof.
  intros Hu Hb. unfold to_digits. rewrite to_digits_fuel_value; try assumption.
  - rewrite zlen_nil. unfold digits_value. cbn. lia.
  - destruct (Z.eq_dec u 0) as [->|Hn]; [cbn; lia|].
    rewrite Nat2Z.inj_succ, Z2Nat.id by (apply Z.log2_nonneg).
    apply Z.log2_spec. lia.
Qed.

(* a pattern match on a literal byte reduces once enough bits of the scrutinee [c] are known:
   every byte but the literal is then decided by computation, and for the literal itself a
   hypothesis says that [c] is not it *)
Ltac lit_case c :=
  destruct c as [|p|p]; try reflexivity;
  destruct p as [p|p|]; try reflexivity;
  destruct p as [p|p|]; try reflexivity;
  destruct p as [p|p|]; try reflexivity;
  destruct p as [p|p|]; try reflexivity;
  destruct p as [p|p|]; try reflexivity;
  destruct p as [p|p|]; try reflexivity;
  try (destruct p as [p|p|]; try reflexivity);
  try congruence.

(* a pattern match on the byte '0' as a test *)
Lemma match48 {A} (l : bytes) (x y : A) :
  (match l with 48 :: _ => x | _ => y end) = match l with c :: _ => if c =? 48 then x else y | [] => y end.
Proof. destruct l as [|c t]; [reflexivity|]. lit_case c. Qed.
