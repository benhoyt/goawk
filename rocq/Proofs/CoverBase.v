(* C18: statement trees as nodes with nested statement lists, erasure of counter statements, the
   unfolding equations of the annotation, and how a relation on block-table segments is carried
   from one statement list to the whole program. *)
From Verif Require Import Lib.Base Model.Cover.

(* facts about lists in general *)
Lemma zlen_app_le {A} (l new : list A) : zlen l <= zlen (l ++ new).
Proof. rewrite zlen_app. pose proof (zlen_nonneg new). lia. Qed.

Lemma nth_error_snoc_z {A} (l : list A) x : nth_error (l ++ [x]) (Z.to_nat (zlen l + 1 - 1)) = Some x.
Proof.
  replace (zlen l + 1 - 1) with (zlen l) by lia. unfold zlen. rewrite Nat2Z.id.
  rewrite nth_error_app2, Nat.sub_diag by lia. reflexivity.
Qed.

Lemma nth_error_z_le {A} (l : list A) j x : 1 <= j -> nth_error l (Z.to_nat (j - 1)) = Some x -> j <= zlen l.
Proof.
  intros Hj Hx. assert ((Z.to_nat (j - 1) < length l)%nat) by (apply nth_error_Some; congruence).
  unfold zlen. lia.
Qed.

Section Base.
Context {E : Type}.

Definition bodies (s : cstmt E) : list (list (cstmt E)) :=
  match s with
  | SIf _ _ _ _ body els => [body; els]
  | SFor _ _ _ _ _ _ body | SForIn _ _ _ _ body | SWhile _ _ _ _ body
  | SDoWhile _ _ _ body | SBlock _ _ body => [body]
  | _ => []
  end.

(* the same statement around other nested lists *)
Definition with_bodies (s : cstmt E) (ls : list (list (cstmt E))) : cstmt E :=
  match s, ls with
  | SIf c st bs en _ _, [body; els] => SIf c st bs en body els
  | SFor pre c post st bs en _, [body] => SFor pre c post st bs en body
  | SForIn h st bs en _, [body] => SForIn h st bs en body
  | SWhile c st bs en _, [body] => SWhile c st bs en body
  | SDoWhile c st en _, [body] => SDoWhile c st en body
  | SBlock st en _, [body] => SBlock st en body
  | _, _ => s
  end.

Fixpoint cstmt_bodies_ind (P : cstmt E -> Prop)
    (step : forall s, Forall (Forall P) (bodies s) -> P s) (s : cstmt E) : P s :=
  let go := fix go (l : list (cstmt E)) : Forall P l :=
    match l with
    | [] => Forall_nil P
    | x :: t => Forall_cons x (cstmt_bodies_ind P step x) (go t)
    end in
  step s
    match s return Forall (Forall P) (bodies s) with
    | SIf _ _ _ _ body els => Forall_cons _ (go body) (Forall_cons _ (go els) (Forall_nil _))
    | SFor _ _ _ _ _ _ body | SForIn _ _ _ _ body | SWhile _ _ _ _ body
    | SDoWhile _ _ _ body | SBlock _ _ body => Forall_cons _ (go body) (Forall_nil _)
    | _ => Forall_nil _
    end.

Definition is_cover (s : cstmt E) : bool := match s with SCover _ _ => true | _ => false end.
Definition plain (s : cstmt E) : Prop := is_cover s = false.

(* no counter statement anywhere: a tree as the parser produces it *)
Fixpoint nocov (s : cstmt E) : bool :=
  match s with
  | SCover _ _ => false
  | SIf _ _ _ _ body els => forallb nocov body && forallb nocov els
  | SFor _ _ _ _ _ _ body | SForIn _ _ _ _ body | SWhile _ _ _ _ body
  | SDoWhile _ _ _ body | SBlock _ _ body => forallb nocov body
  | SSimple _ _ _ _ => true
  end.

(* remove every counter statement *)
Section EraseLoop.
Variable f : cstmt E -> cstmt E.
Fixpoint erase_list (l : list (cstmt E)) : list (cstmt E) :=
  match l with
  | [] => []
  | SCover _ _ :: t => erase_list t
  | s :: t => f s :: erase_list t
  end.
End EraseLoop.
Fixpoint erase (s : cstmt E) : cstmt E :=
  match s with
  | SIf c st bs en body els => SIf c st bs en (erase_list erase body) (erase_list erase els)
  | SFor pre c post st bs en body => SFor pre c post st bs en (erase_list erase body)
  | SForIn h st bs en body => SForIn h st bs en (erase_list erase body)
  | SWhile c st bs en body => SWhile c st bs en (erase_list erase body)
  | SDoWhile c st en body => SDoWhile c st en (erase_list erase body)
  | SBlock st en body => SBlock st en (erase_list erase body)
  | s => s
  end.
Definition erase_stmts (l : list (cstmt E)) : list (cstmt E) := erase_list erase l.

(* number of statements in statement lists (nested bodies included; the init and step of a
   for statement are not in a statement list) *)
Fixpoint nstmts (s : cstmt E) : Z :=
  match s with
  | SIf _ _ _ _ body els =>
      1 + fold_right (fun x a => nstmts x + a) 0 body + fold_right (fun x a => nstmts x + a) 0 els
  | SFor _ _ _ _ _ _ body | SForIn _ _ _ _ body | SWhile _ _ _ _ body
  | SDoWhile _ _ _ body | SBlock _ _ body => 1 + fold_right (fun x a => nstmts x + a) 0 body
  | SSimple _ _ _ _ => 1
  | SCover _ _ => 0
  end.
Definition nstmts_list (l : list (cstmt E)) : Z := fold_right (fun x a => nstmts x + a) 0 l.

Lemma nstmts_list_app a b : nstmts_list (a ++ b) = nstmts_list a + nstmts_list b.
Proof. unfold nstmts_list. induction a as [|x a IH]; cbn [app fold_right]; lia. Qed.

Definition sum_num (bl : list block) : Z := fold_right (fun b a => b_num b + a) 0 bl.
Lemma sum_num_app a b : sum_num (a ++ b) = sum_num a + sum_num b.
Proof. unfold sum_num. induction a as [|x a IH]; cbn [app fold_right]; lia. Qed.
Lemma sum_num_snoc a b : sum_num (a ++ [b]) = sum_num a + b_num b.
Proof. rewrite sum_num_app. unfold sum_num. cbn [fold_right]. lia. Qed.

Lemma nocov_bodies (s : cstmt E) : nocov s = negb (is_cover s) && forallb (forallb nocov) (bodies s).
Proof. destruct s; cbn [nocov is_cover bodies forallb negb andb]; rewrite ?andb_true_r; reflexivity. Qed.

Lemma nocov_ind (Q : cstmt E -> Prop) :
  (forall s, plain s -> Forall (Forall Q) (bodies s) -> Q s) -> forall s, nocov s = true -> Q s.
Proof.
  intros step s. induction s as [s IH] using cstmt_bodies_ind.
  rewrite nocov_bodies. intros Hn. apply andb_prop in Hn as [Hc Hn].
  apply step; [apply negb_true_iff; exact Hc|].
  apply (Forall_forallb (forallb nocov)); [|exact Hn].
  eapply Forall_impl; [|exact IH]. intros l. apply Forall_forallb.
Qed.

Lemma erase_list_app f (a b : list (cstmt E)) : erase_list f (a ++ b) = erase_list f a ++ erase_list f b.
Proof.
  induction a as [|x a IH]; [reflexivity|].
  destruct x; cbn [app erase_list]; rewrite ?IH; reflexivity.
Qed.

Lemma erase_list_plain_cons (s : cstmt E) t : plain s -> erase_list erase (s :: t) = erase s :: erase_list erase t.
Proof. destruct s; cbn; intros H; try reflexivity; discriminate H. Qed.

Lemma erase_bodies (s : cstmt E) : erase s = with_bodies s (map erase_stmts (bodies s)).
Proof. destruct s; reflexivity. Qed.

Lemma erase_with_bodies (s : cstmt E) ls : length ls = length (bodies s) ->
  erase (with_bodies s ls) = with_bodies s (map erase_stmts ls).
Proof. destruct s; destruct ls as [|l1 [|l2 [|l3 ls]]]; intros H; try discriminate H; reflexivity. Qed.

Lemma with_bodies_same (s : cstmt E) : with_bodies s (bodies s) = s.
Proof. destruct s; reflexivity. Qed.

Lemma erase_stmts_fix (l : list (cstmt E)) : Forall (fun s => plain s /\ erase s = s) l -> erase_stmts l = l.
Proof.
  induction 1 as [|x l [Hc Hx] _ IH]; [reflexivity|].
  unfold erase_stmts. rewrite (erase_list_plain_cons x l Hc), Hx. f_equal. exact IH.
Qed.

Lemma erase_nocov (s : cstmt E) : nocov s = true -> plain s /\ erase s = s.
Proof.
  revert s. apply nocov_ind. intros s Hc IH. split; [exact Hc|].
  rewrite erase_bodies. transitivity (with_bodies s (bodies s)); [f_equal|apply with_bodies_same].
  induction IH as [|l ls Hl _ IHls]; [reflexivity|].
  cbn [map]. f_equal; [apply erase_stmts_fix; exact Hl|exact IHls].
Qed.

Lemma erase_stmts_nocov (l : list (cstmt E)) : forallb nocov l = true -> erase_stmts l = l.
Proof.
  intros H. apply erase_stmts_fix. apply (Forall_forallb nocov); [|exact H].
  apply Forall_forall. intros s _. apply erase_nocov.
Qed.

Variable files : ftable.
Variable mode : cmode.

Definition annf : Type := cstmt E -> list block -> cstmt E * list block * bool.
Notation track := (@track E files mode).
Notation ann_loop := (@ann_loop E files mode).
Notation ann_stmt := (@ann_stmt E files mode).
Notation ann_stmts := (@ann_stmts E files mode).

(* what trackStatement records for the slice first..last of length num *)
Definition blk_of (first last : cstmt E) (num : Z) (b : block) : Prop :=
  b_num b = num
  /\ b_path b = fst (file_line files (pline (start_of first)))
  /\ b_start b = mkpos (snd (file_line files (pline (start_of first)))) (pcol (start_of first))
  /\ b_end b = mkpos (snd (file_line files (pline (end_pos last)))) (pcol (end_pos last)).

Lemma track_eq bl (first last : cstmt E) num :
  exists b, track bl first last num = (SCover mode (zlen bl + 1), bl ++ [b]) /\ blk_of first last num b.
Proof.
  unfold Cover.track.
  destruct (file_line files (pline (start_of first))) as [path sl] eqn:H1.
  destruct (file_line files (pline (end_pos last))) as [p2 el] eqn:H2.
  exists (mkblock path (mkpos sl (pcol (start_of first))) (mkpos el (pcol (end_pos last))) num).
  split; [rewrite zlen_app; reflexivity|]. unfold blk_of. rewrite H1, H2. repeat split; reflexivity.
Qed.

(* [res] is only an output prefix *)
Lemma ann_loop_res (f : annf) ss : forall bl pend res,
  ann_loop f ss bl pend res =
  (res ++ fst (ann_loop f ss bl pend []), snd (ann_loop f ss bl pend [])).
Proof.
  induction ss as [|s t IH]; intros bl pend res; cbn [Cover.ann_loop].
  - destruct pend as [|p ps]; [cbn; rewrite app_nil_r; reflexivity|].
    destruct (track bl p (last_ne p ps) (zlen (p :: ps))) as [ctr bl']. reflexivity.
  - destruct (f s bl) as [[s' bl1] ends].
    destruct ends.
    + destruct (track bl1 _ s' _) as [ctr bl2].
      rewrite (IH bl2 [] (res ++ ctr :: pend ++ [s'])), (IH bl2 [] ([] ++ ctr :: pend ++ [s'])).
      cbn [fst snd app]. rewrite <- app_assoc. reflexivity.
    + apply IH.
Qed.

Definition nesting (s : cstmt E) : bool :=
  match s with SSimple _ _ _ _ | SCover _ _ => false | _ => true end.

(* unfolding equations with res = [] *)
Lemma ann_loop_nil (f : annf) bl : ann_loop f [] bl [] [] = ([], bl).
Proof. reflexivity. Qed.

Lemma ann_loop_flush (f : annf) bl p ps :
  ann_loop f [] bl (p :: ps) [] =
  (fst (track bl p (last_ne p ps) (zlen (p :: ps))) :: p :: ps,
   snd (track bl p (last_ne p ps) (zlen (p :: ps)))).
Proof.
  cbn [Cover.ann_loop]. destruct (track bl p (last_ne p ps) (zlen (p :: ps))); reflexivity.
Qed.

Lemma ann_loop_cons (f : annf) s t bl pend :
  ann_loop f (s :: t) bl pend [] =
  let '(s', bl1, ends) := f s bl in
  if ends then
    let tr := track bl1 (match pend with [] => s' | p :: _ => p end) s' (zlen (pend ++ [s'])) in
    (fst tr :: pend ++ [s'] ++ fst (ann_loop f t (snd tr) [] []), snd (ann_loop f t (snd tr) [] []))
  else ann_loop f t bl1 (pend ++ [s']) [].
Proof.
  cbn [Cover.ann_loop]. destruct (f s bl) as [[s' bl1] ends]. destruct ends; [|reflexivity].
  destruct (track bl1 _ s' _) as [ctr bl2]. cbn [fst snd].
  rewrite ann_loop_res. cbn [app]. rewrite <- app_assoc. reflexivity.
Qed.

Notation ann_lists := (@ann_lists E files mode).
Notation ann_body := (@ann_body E files mode).
Notation ann_actions := (@ann_actions E files mode).
Notation annotate := (@annotate E files mode).

Lemma ann_lists_cons l t bl :
  ann_lists (l :: t) bl =
  (fst (ann_stmts l bl) :: fst (ann_lists t (snd (ann_stmts l bl))), snd (ann_lists t (snd (ann_stmts l bl)))).
Proof.
  cbn [Cover.ann_lists]. destruct (ann_stmts l bl) as [l' bl1]. cbn [fst snd].
  destruct (ann_lists t bl1) as [t' bl2]. reflexivity.
Qed.

Lemma ann_lists_length ls : forall bl, length (fst (ann_lists ls bl)) = length ls.
Proof.
  induction ls as [|l t IH]; intros bl; [reflexivity|].
  rewrite ann_lists_cons. cbn [fst length]. rewrite IH. reflexivity.
Qed.

(* the type switch of annotateStmts annotates the nested lists in order and keeps the rest *)
Lemma ann_stmt_eq (s : cstmt E) bl :
  ann_stmt s bl = (with_bodies s (fst (ann_lists (bodies s) bl)), snd (ann_lists (bodies s) bl), nesting s).
Proof.
  destruct s; cbn [bodies]; rewrite ?ann_lists_cons; try reflexivity;
    cbn [Cover.ann_stmt Cover.ann_lists with_bodies fst snd nesting]; unfold Cover.ann_stmts;
    destruct (ann_loop (Cover.ann_stmt files mode) body bl [] []) as [body' bl1]; cbn [fst snd];
    try reflexivity.
  destruct (ann_loop (Cover.ann_stmt files mode) els bl1 [] []) as [els' bl2]. reflexivity.
Qed.

Lemma with_bodies_outer (s : cstmt E) ls :
  start_of (with_bodies s ls) = start_of s /\ end_pos (with_bodies s ls) = end_pos s
  /\ is_cover (with_bodies s ls) = is_cover s.
Proof. destruct s; destruct ls as [|l1 [|l2 [|l3 ls]]]; repeat split; reflexivity. Qed.

Lemma bodies_with_bodies (s : cstmt E) ls : length ls = length (bodies s) -> bodies (with_bodies s ls) = ls.
Proof. destruct s; destruct ls as [|l1 [|l2 [|l3 ls]]]; intros H; try discriminate H; reflexivity. Qed.

Lemma ann_body_some l bl : ann_body (Some l) bl = (Some (fst (ann_stmts l bl)), snd (ann_stmts l bl)).
Proof. cbn [Cover.ann_body]. destruct (ann_stmts l bl). reflexivity. Qed.

Lemma ann_actions_cons a t bl :
  ann_actions (a :: t) bl =
  (mkaction (a_pat a) (fst (ann_body (a_body a) bl)) :: fst (ann_actions t (snd (ann_body (a_body a) bl))),
   snd (ann_actions t (snd (ann_body (a_body a) bl)))).
Proof.
  cbn [Cover.ann_actions]. destruct (ann_body (a_body a) bl) as [b' bl1]. cbn [fst snd].
  destruct (ann_actions t bl1) as [t' bl2]. reflexivity.
Qed.

Lemma annotate_eq P :
  let r1 := ann_lists (p_begin P) [] in
  let r2 := ann_actions (p_actions P) (snd r1) in
  let r3 := ann_lists (p_end P) (snd r2) in
  let r4 := ann_lists (p_funcs P) (snd r3) in
  annotate P = (mkprogram (fst r1) (fst r2) (fst r3) (fst r4), snd r4).
Proof.
  unfold Cover.annotate.
  destruct (ann_lists (p_begin P) []) as [bg bl1]. cbn [fst snd].
  destruct (ann_actions (p_actions P) bl1) as [acts bl2]. cbn [fst snd].
  destruct (ann_lists (p_end P) bl2) as [en bl3]. cbn [fst snd].
  destruct (ann_lists (p_funcs P) bl3) as [fns bl4]. reflexivity.
Qed.

End Base.

(* ---- threading a relation on block-table segments through the annotation ----
   [R bl bl' T]: going from table [bl] to [bl'] accounts for the entries [T]; [F l] are the
   entries of an annotated statement list.  What holds for one call of annotateStmts on a [good]
   list then holds for a list of lists, for the actions and for the whole program. *)
Section Thread.
Context {E X : Type}.
Variable files : ftable.
Variable mode : cmode.
Variable R : list block -> list block -> list X -> Prop.
Variable F : list (cstmt E) -> list X.
Variable good : list (cstmt E) -> Prop.
Hypothesis R_nil : forall bl, R bl bl [].
Hypothesis R_app : forall bl bl1 bl2 a b, R bl bl1 a -> R bl1 bl2 b -> R bl bl2 (a ++ b).
Hypothesis R_stmts : forall l bl, good l ->
  R bl (snd (ann_stmts files mode l bl)) (F (fst (ann_stmts files mode l bl))).

Definition on_body {Y} (f : list (cstmt E) -> Y) (none : Y) (b : option (list (cstmt E))) : Y :=
  match b with None => none | Some l => f l end.
Definition on_prog (P : program E) : list X :=
  concat (map F (p_begin P)) ++ concat (map (fun a => on_body F [] (a_body a)) (p_actions P))
  ++ concat (map F (p_end P)) ++ concat (map F (p_funcs P)).
Definition all_bodies (P : program E) : Prop :=
  Forall good (p_begin P) /\ Forall (fun a => on_body good True (a_body a)) (p_actions P)
  /\ Forall good (p_end P) /\ Forall good (p_funcs P).

Lemma thread_lists ls : Forall good ls -> forall bl,
  R bl (snd (ann_lists files mode ls bl)) (concat (map F (fst (ann_lists files mode ls bl)))).
Proof.
  induction 1 as [|l t Hl _ IH]; intros bl; [apply R_nil|].
  rewrite ann_lists_cons. cbn [fst snd map concat].
  eapply R_app; [apply R_stmts; exact Hl|apply IH].
Qed.

Lemma thread_actions acts : Forall (fun a => on_body good True (a_body a)) acts -> forall bl,
  R bl (snd (ann_actions files mode acts bl))
    (concat (map (fun a => on_body F [] (a_body a)) (fst (ann_actions files mode acts bl)))).
Proof.
  induction 1 as [|a t Ha _ IH]; intros bl; [apply R_nil|].
  rewrite ann_actions_cons. cbn [fst snd map concat a_body].
  eapply R_app; [|apply IH].
  destruct (a_body a) as [l|]; [rewrite ann_body_some; apply R_stmts; exact Ha|apply R_nil].
Qed.

Theorem thread_prog P : all_bodies P ->
  R [] (snd (annotate files mode P)) (on_prog (fst (annotate files mode P))).
Proof.
  intros (H1 & H2 & H3 & H4). rewrite annotate_eq. cbn zeta. unfold on_prog. cbn [fst snd p_begin p_actions p_end p_funcs].
  eapply R_app; [apply thread_lists; exact H1|].
  eapply R_app; [apply thread_actions; exact H2|].
  eapply R_app; [apply thread_lists; exact H3|apply thread_lists; exact H4].
Qed.
End Thread.
