(* C13 proofs: a reused Interpreter.  Whatever a run did and however it
   ended, its closeAll leaves no stream registered; the next Execute
   (resetCore + setExecuteConfig = reset_core) starts with empty stream tables
   on the file system the earlier runs left -- it forgets nothing that is open. *)
From Verif Require Import Lib.Base Model.Streams Proofs.StreamsBase Proofs.StreamsSpec Proofs.StreamsFiles.

Theorem run_closes_everything E s ops : st_outs (fst (run E s ops)) = [] /\ st_ins (fst (run E s ops)) = [].
Proof. unfold run. destruct (exec E s ops) as [s1 r]. cbn [fst]. apply close_all_closes_everything. Qed.

(* the state an Execute starts from *)
Fixpoint starts (E : env) (s : state) (limit : option nat) (progs : list (list op)) : list state :=
  match progs with
  | [] => []
  | ops :: rest => s :: starts E (reset_core (fst (run E s ops)) limit) limit rest
  end.

(* every Execute of a reused Interpreter starts with no registered stream, and so does the first
   if the Interpreter is new; what resetCore forgets was already closed: the run before ended with
   no registered stream either *)
Theorem every_execute_starts_clean E limit progs : forall s,
  st_outs s = [] -> st_ins s = [] ->
  Forall (fun s0 => st_outs s0 = [] /\ st_ins s0 = []) (starts E s limit progs) /\
  Forall (fun sr => st_outs (fst sr) = [] /\ st_ins (fst sr) = []) (run_many E s limit progs).
Proof.
  induction progs as [|ops rest IH]; intros s Ho Hi; cbn [starts run_many].
  - split; constructor.
  - pose proof (run_closes_everything E s ops) as Hc. destruct (run E s ops) as [s' r] eqn:Er. cbn [fst] in *.
    destruct (IH (reset_core s' limit) eq_refl eq_refl) as (A & B). split; constructor; auto.
Qed.

(* and it starts on the files the earlier runs left *)
Theorem reset_core_keeps_files s limit : st_fs (reset_core s limit) = st_fs s.
Proof. reflexivity. Qed.
