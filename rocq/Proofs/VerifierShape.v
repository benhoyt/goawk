(* C02: the verifier sees an instruction only through its size and its flow class, so it does not
   look at constants.  Two code lists that differ only in the operands of Num / Str / Regex /
   FieldByNameStr get the same verdict; in particular the code decoded from the words of
   Model/Encode.v (constants = table indexes, Proofs/Decode.v) passes the check exactly when the
   code that was encoded passes it. *)
From Coq Require Import ZifyBool.
From Verif Require Import Lib.Base Model.Ast Model.Instr Model.Compiler Model.Encode Model.Verifier Model.Decode
  Proofs.CodeAt Proofs.Decode.

Section SizeAndFlow.
  Variable f : instr -> instr.
  Hypothesis isize_f : forall i, isize (f i) = isize i.
  Hypothesis flow_f : forall cx i, flow_of cx (f i) = flow_of cx i.

  Lemma csize_map C : csize (map f C) = csize C.
  Proof. induction C as [|i C IH]; cbn [map csize]; [reflexivity|]. rewrite isize_f, IH. reflexivity. Qed.

  Lemma fetch_map C : forall ip, fetch (map f C) ip = option_map f (fetch C ip).
  Proof.
    induction C as [|i C IH]; intros ip; cbn [map fetch]; [reflexivity|].
    rewrite isize_f. destruct (ip =? 0); [reflexivity|]. destruct (ip <? isize i); [reflexivity|]. apply IH.
  Qed.

  Lemma is_target_map C ip : is_target (map f C) ip = is_target C ip.
  Proof.
    unfold is_target. rewrite csize_map, fetch_map. destruct (fetch C ip); reflexivity.
  Qed.

  Lemma boundaries_map C : forall b,
    boundaries (map f C) b = map (fun p => (fst p, f (snd p))) (boundaries C b).
  Proof.
    induction C as [|i C IH]; intros b; cbn [map boundaries]; [reflexivity|].
    rewrite isize_f, IH. reflexivity.
  Qed.

  Lemma drop_words_map C : forall n, drop_words (map f C) n = option_map (map f) (drop_words C n).
  Proof.
    induction C as [|i C IH]; intros n; cbn [map drop_words].
    - destruct (n =? 0); reflexivity.
    - rewrite isize_f. destruct (n =? 0); [reflexivity|]. destruct (n <? isize i); [reflexivity|]. apply IH.
  Qed.

  Lemma take_words_map C : forall n, take_words (map f C) n = option_map (map f) (take_words C n).
  Proof.
    induction C as [|i C IH]; intros n; cbn [map take_words].
    - destruct (n =? 0); reflexivity.
    - rewrite isize_f. destruct (n =? 0); [reflexivity|]. destruct (n <? isize i); [reflexivity|].
      rewrite IH. destruct (take_words C (n - isize i)); reflexivity.
  Qed.

  Lemma sub_code_map C a n : sub_code (map f C) a n = option_map (map f) (sub_code C a n).
  Proof.
    unfold sub_code. rewrite drop_words_map. destruct (drop_words C a) as [d|]; cbn [option_map]; [|reflexivity].
    apply take_words_map.
  Qed.

  Lemma infer_go_map FT cx C : forall ip cur pend,
    infer_go FT cx (map f C) ip cur pend = infer_go FT cx C ip cur pend.
  Proof.
    induction C as [|i C IH]; intros ip cur pend; cbn [map infer_go]; [reflexivity|].
    rewrite isize_f, flow_f.
    destruct (match cur with Some d => Some d | None => look pend ip end); [|apply IH].
    destruct (flow_of cx i); try (f_equal; apply IH).
    destruct (nth_z FT fi); f_equal; apply IH.
  Qed.

  Lemma tgt_map C a ip d : tgt (map f C) a ip d = tgt C a ip d.
  Proof. unfold tgt. rewrite is_target_map. reflexivity. Qed.

  Section Inv.
    Variable FT : ftable.
    Variable chk : vctx -> Z -> code -> bool.
    Hypothesis Hchk : forall cx d body, chk cx d (map f body) = chk cx d body.

    Lemma local_ok_map cx a C ip i d :
      local_ok FT chk cx a (map f C) ip (f i) d = local_ok FT chk cx a C ip i d.
    Proof.
      unfold local_ok. rewrite flow_f, isize_f.
      destruct (flow_of cx i); rewrite ?tgt_map; try reflexivity.
      2: { destruct (nth_z FT fi); rewrite ?tgt_map; reflexivity. }
      rewrite sub_code_map. destruct (sub_code C (ip + isize i) off) as [body|]; cbn [option_map]; [|reflexivity].
      rewrite Hchk. reflexivity.
    Qed.

    Lemma check_ann_map cx a C d0 dend :
      check_ann FT chk cx a (map f C) d0 dend = check_ann FT chk cx a C d0 dend.
    Proof.
      unfold check_ann. rewrite csize_map, boundaries_map. f_equal. f_equal.
      rewrite forallb_map. apply forallb_ext. intros [ip i]. cbn [fst snd].
      destruct (look a ip); [apply local_ok_map|reflexivity].
    Qed.
  End Inv.

  Lemma check_seg_map : forall fuel FT cx d0 dend C,
    check_seg fuel FT cx d0 dend (map f C) = check_seg fuel FT cx d0 dend C.
  Proof.
    induction fuel as [|fuel IH]; intros FT cx d0 dend C; cbn [check_seg]; [reflexivity|].
    unfold infer. rewrite infer_go_map. apply check_ann_map.
    intros cx' d body. apply IH.
  Qed.

  Theorem check_code_map FT nl inf d0 dend C :
    check_code FT nl inf d0 dend (map f C) = check_code FT nl inf d0 dend C.
  Proof. unfold check_code. rewrite map_length. apply check_seg_map. Qed.
End SizeAndFlow.

Definition shape (i : instr) : instr :=
  match i with
  | INum _ => INum 0
  | IStr _ => IStr []
  | IFieldByNameStr _ => IFieldByNameStr []
  | IRegex _ => IRegex []
  | _ => i
  end.

Lemma isize_shape i : isize (shape i) = isize i.
Proof. destruct i; reflexivity. Qed.

Lemma flow_shape cx i : flow_of cx (shape i) = flow_of cx i.
Proof. destruct i; reflexivity. Qed.

Theorem check_code_same_shape FT nl inf d0 dend a b :
  map shape a = map shape b ->
  check_code FT nl inf d0 dend a = check_code FT nl inf d0 dend b.
Proof.
  intros H. pose proof (check_code_map shape isize_shape flow_shape FT nl inf d0 dend) as Hs.
  rewrite <- (Hs a), <- (Hs b), H. reflexivity.
Qed.

Lemma shape_abs p i : shape (abs_instr p i) = shape i.
Proof. destruct i; reflexivity. Qed.

Lemma shape_abs_code : forall c p, map shape (abs_code p c) = map shape c.
Proof.
  induction c as [|i c IH]; intros p; cbn [abs_code map]; [reflexivity|].
  rewrite shape_abs, IH. reflexivity.
Qed.

Theorem check_decoded_iff_encoded FT nl inf d0 dend p c :
  forallb scopes_encodable c = true ->
  exists c', decode (fst (enc_code p c)) = Some c' /\
             check_code FT nl inf d0 dend c' = check_code FT nl inf d0 dend c.
Proof.
  intros H. exists (abs_code p c). split; [apply decode_enc_code; exact H|].
  apply check_code_same_shape. apply shape_abs_code.
Qed.
