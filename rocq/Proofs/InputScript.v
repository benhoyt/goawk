(* C11: the theorems instantiated for the script machine (the extracted model that the
   correspondence check runs): scripts without ARGV/ARGC edits and without getline <"-". *)
From Verif Require Import Lib.Base Model.Input Proofs.Input Proofs.InputHist Proofs.InputCtl Proofs.InputMain.

Definition src_ok (sr : src) : bool :=
  match sr with SFile f => negb (bytes_eqb f b_dash) | _ => true end.

Fixpoint clean_stmt (s : stmt) : bool :=
  match s with
  | SSetArgc _ | SSetArgv _ _ | SDelArgv _ => false
  | SGetline sr _ => src_ok sr
  | SWhileGet sr _ b => src_ok sr && forallb clean_stmt b
  | SWhileTest sr _ b => src_ok sr && forallb clean_stmt b
  | SIf _ a b => forallb clean_stmt a && forallb clean_stmt b
  | SRepeat _ b => forallb clean_stmt b
  | _ => true
  end.

Definition clean_block (b : list stmt) : bool := forallb clean_stmt b.

Definition clean_rule (r : srule) : bool :=
  (match sr_pat r with
   | SPNone => true
   | SPExpr q => clean_block (p_pre q)
   | SPRange q1 q2 => clean_block (p_pre q1) && clean_block (p_pre q2)
   end) &&
  (match sr_body r with Some b => clean_block b | None => true end).

Definition clean_prog (p : sprog) : bool :=
  clean_block (sp_begin p) && forallb clean_rule (sp_rules p) && clean_block (sp_end p) &&
  forallb (fun f => clean_block (snd f)) (sp_funcs p).

Lemma clean_app a b : clean_block (a ++ b) = clean_block a && clean_block b.
Proof. unfold clean_block. apply forallb_app. Qed.

Lemma clean_cons x k : clean_block (x :: k) = clean_stmt x && clean_block k.
Proof. reflexivity. Qed.

Lemma src_ok_neutral sr tg : src_ok sr = true -> neutral (RGetline sr tg).
Proof. destruct sr; cbn; try tauto. intros H. apply negb_true_iff in H. exact H. Qed.

Lemma sstep_clean p : clean_prog p = true -> forall k s,
  clean_block k = true -> neutral (fst (sstep p k s)) /\ clean_block (snd (sstep p k s)) = true.
Proof.
  intros Hp k s Hk. destruct k as [|x k]; [cbn; tauto|].
  rewrite clean_cons in Hk. apply andb_true_iff in Hk as [Hx Hk].
  destruct x; cbn [sstep fst snd clean_stmt] in *; try discriminate; try (split; [exact I|assumption]);
    try (split; [exact I|reflexivity]).
  - split; [apply (src_ok_neutral sr tg Hx)|exact Hk].
  - apply andb_true_iff in Hx as [Ha Hb]. split; [exact I|].
    destruct (eval_cond c s); rewrite clean_app; apply andb_true_iff; split; assumption.
  - apply andb_true_iff in Hx as [Hs Hb]. split; [apply (src_ok_neutral sr tg Hs)|].
    rewrite clean_cons. cbn [clean_stmt]. rewrite Hs, Hb, Hk. reflexivity.
  - apply andb_true_iff in Hx as [Hs Hb]. split; [exact I|].
    destruct (0 <? ret s); [|exact Hk].
    rewrite clean_app, clean_cons. cbn [clean_stmt]. unfold clean_block at 1. rewrite Hs, Hb, Hk. reflexivity.
  - split; [exact I|]. destruct (n <=? 0); [exact Hk|].
    rewrite clean_app, clean_cons. cbn [clean_stmt]. unfold clean_block at 1. rewrite Hx, Hk. reflexivity.
  - destruct (nth_error (sp_funcs p) f) as [[loc body]|] eqn:Hf; cbn [fst snd neutral]; [|split; [exact I|reflexivity]].
    split; [exact I|]. rewrite clean_app, Hk, andb_true_r.
    unfold clean_prog in Hp. apply andb_true_iff in Hp as [_ Hfs].
    rewrite forallb_forall in Hfs. apply (Hfs (loc, body)). eapply nth_error_In; exact Hf.
Qed.

Lemma senter_clean p : clean_prog p = true -> forall b k, clean_block k = true -> clean_block (senter p b k) = true.
Proof.
  intros Hp b k _. unfold clean_prog in Hp.
  apply andb_true_iff in Hp as [Hp Hfs]. apply andb_true_iff in Hp as [Hp He]. apply andb_true_iff in Hp as [Hb Hr].
  rewrite forallb_forall in Hr.
  destruct b as [| |i second|i]; cbn [senter]; try assumption.
  - destruct (nth_error (sp_rules p) i) as [r|] eqn:Hi; [|reflexivity].
    apply nth_error_In in Hi. apply Hr in Hi. unfold clean_rule in Hi. apply andb_true_iff in Hi as [Hpat _].
    destruct (sr_pat r) as [|q|q1 q2]; [reflexivity| |].
    + unfold pat_code. rewrite clean_app, Hpat. reflexivity.
    + apply andb_true_iff in Hpat as [H1 H2]. unfold pat_code. destruct second; rewrite clean_app, ?H1, ?H2; reflexivity.
  - destruct (nth_error (sp_rules p) i) as [r|] eqn:Hi; [|reflexivity].
    apply nth_error_In in Hi. apply Hr in Hi. unfold clean_rule in Hi. apply andb_true_iff in Hi as [_ Hbody].
    destruct (sr_body r); [exact Hbody|reflexivity].
Qed.

Theorem script_main_input_order e p fuel args sin k' s' :
  clean_prog p = true ->
  script_exec e p fuel args sin = FOk k' s' \/ script_exec e p fuel args sin = FErr k' s' ->
  pev_of (hist s') ++ plan e s' = plan_ops e args false sin.
Proof.
  intros Hp H. unfold script_exec in H.
  exact (main_input_order (list stmt) (sstep p) (senter p) e (fun k => clean_block k = true) fuel _ _ [] _ args sin k' s'
           (sstep_clean p Hp) (senter_clean p Hp) eq_refl H).
Qed.

Theorem script_counters e p fuel args sin k' s' :
  script_exec e p fuel args sin = FOk k' s' \/ script_exec e p fuel args sin = FErr k' s' ->
  obs_of s' = fold_left (obs_ev e) (hist s') (0, 0, [], 0, []).
Proof. intros H. unfold script_exec in H. eapply counters_of_history. exact H. Qed.
