(* C19 after the repair of F-C19-1/1b/2 and F-C19-3: the implementation sorts the keys of
   every map it iterates in an order-sensitive place, i.e. it is C16's generic resolver run
   with the oracle [sorting pi].  The resolver depends on its oracle only through the oracle's
   answers, and [sorting pi] answers like [name_order_oracle] whatever permutation oracle [pi]
   is: the WHOLE result of resolving - verdict, error, tables - is the same for any two map
   iteration orders, no guard.  [sorting pi] is itself a permutation oracle, so every theorem
   of C16 applies to the implementation.  nativeFuncNames, filled from the native entries
   only, does not depend on the order of the map either. *)
From Verif Require Import Lib.Base Model.Resolver Model.Determinism Proofs.Resolver Proofs.ResolverExact
  Proofs.ResolverTopo Proofs.ResolverLoop Proofs.DeterminismSort Proofs.DeterminismPerm.
From Coq Require Import Permutation.
Open Scope Z_scope.

Section Ext.
Variables pi pi' : oracle.
Hypothesis Hext : forall k l, pi k l = pi' k l.
Variable g : graph.

Lemma visit_ext fuel : forall n ts, visit fuel pi g n ts = visit fuel pi' g n ts.
Proof.
  induction fuel as [|fuel IH]; intros n ts; [reflexivity|]. rewrite !visit_S, <- Hext.
  assert (Hlist : forall ms a, visit_list fuel pi g ms a = visit_list fuel pi' g ms a).
  { induction ms as [|m r IHr]; intros a; cbn [visit_list]; [reflexivity|].
    rewrite IH. destruct (visit fuel pi' g m a); [apply IHr | reflexivity]. }
  rewrite Hlist. reflexivity.
Qed.

Lemma topo_loop_ext fuel vfuel : forall ts, topo_loop fuel vfuel pi g ts = topo_loop fuel vfuel pi' g ts.
Proof.
  induction fuel as [|fuel IH]; intros ts; [reflexivity|].
  rewrite !topo_loop_S, <- Hext, visit_ext. destruct (t_unmarked ts); [reflexivity|].
  destruct (visit vfuel pi' g _ (tick ts)); [apply IH | reflexivity].
Qed.

Lemma topo_sort_ext : topo_sort pi g = topo_sort pi' g.
Proof.
  unfold topo_sort. destruct g as [|e r] eqn:Eg; [reflexivity|]. rewrite <- Eg.
  rewrite <- Hext, topo_loop_ext. reflexivity.
Qed.

End Ext.

Lemma resolve_cut_ext cut pi pi' P :
  (forall k l, pi k l = pi' k l) -> resolve_cut cut pi P = resolve_cut cut pi' P.
Proof.
  intros Hext. unfold resolve_cut, ordered_funcs. rewrite (topo_sort_ext pi pi' Hext).
  destruct (first_dup [] (fnames P)); [reflexivity|].
  destruct (topo_sort pi' (call_graph P)) as [[sorted ctr]|]; [|reflexivity]. rewrite Hext. reflexivity.
Qed.

Lemma sorting_answers pi : perm_oracle pi -> forall k l, sorting pi k l = name_order_oracle k l.
Proof. intros Hpi k l. unfold sorting, name_order_oracle. apply sort_names_canonical. apply Hpi. Qed.

(* PARSING IS DETERMINISTIC - the full statement: the complete result (verdict, error,
   types, indexes) is the same for any two map iteration orders, for every program *)
Theorem parse_deterministic cut pi pi' P :
  perm_oracle pi -> perm_oracle pi' ->
  resolve_cut cut (sorting pi) P = resolve_cut cut (sorting pi') P.
Proof.
  intros Hpi Hpi'. apply resolve_cut_ext. intros k l.
  rewrite (sorting_answers pi Hpi), (sorting_answers pi' Hpi'). reflexivity.
Qed.

Lemma same_result_refl r : same_result r r.
Proof. destruct r as [F|e| |]; cbn [same_result]; auto. split; [reflexivity|]. split; reflexivity. Qed.

(* the implementation is an instance of C16's model *)
Lemma sorting_perm pi : perm_oracle pi -> perm_oracle (sorting pi).
Proof.
  intros Hpi k l. unfold sorting. eapply Permutation_trans; [apply sort_names_perm | apply Hpi].
Qed.

Lemma name_order_oracle_perm_c19 : perm_oracle name_order_oracle.
Proof. intros k l. apply sort_names_perm. Qed.

(* only native functions are entered, and their indexes are their positions in the list of natives *)
Lemma shown_hit_unique P i n n' : shown_hit P i n = true -> shown_hit P i n' = true -> n = n'.
Proof.
  unfold shown_hit, func_info. intros H H'.
  destruct (find_func P n) as [[j fd]|]; [cbn in H; discriminate|].
  destruct (find_func P n') as [[j' fd']|]; [cbn in H'; discriminate|].
  destruct (index_of n _ 0) as [a|] eqn:Ea; [|discriminate].
  destruct (index_of n' _ 0) as [b|] eqn:Eb; [|discriminate].
  cbn [fi_native fi_index andb] in H, H'. apply Z.eqb_eq in H, H'. subst a b.
  eapply index_of_inj; eassumption.
Qed.

Lemma name_shown_fold P i order : forall acc,
  match fold_left (fun acc n => if shown_hit P i n then Some n else acc) order acc with
  | Some n => (In n order /\ shown_hit P i n = true) \/ acc = Some n
  | None => acc = None /\ forall n, In n order -> shown_hit P i n = false
  end.
Proof.
  induction order as [|x l IH]; intros acc; cbn [fold_left].
  - destruct acc; [right; reflexivity | split; [reflexivity | intros n []]].
  - specialize (IH (if shown_hit P i x then Some x else acc)).
    destruct (fold_left _ l _) as [n|].
    + destruct IH as [[Hin Hh]|Ha]; [left; split; [right; exact Hin | exact Hh]|].
      destruct (shown_hit P i x) eqn:E; [|right; exact Ha].
      injection Ha as <-. left. split; [left; reflexivity | exact E].
    + destruct IH as [Ha Hno]. destruct (shown_hit P i x) eqn:E; [discriminate|].
      split; [exact Ha|]. intros n [<-|Hn]; [exact E | apply Hno; exact Hn].
Qed.

(* the entry shown for index i is THE function of the map that hits i *)
Lemma name_shown_Some P order i n :
  name_shown P order i = Some n <-> In n order /\ shown_hit P i n = true.
Proof.
  unfold name_shown. pose proof (name_shown_fold P i order None) as H.
  destruct (fold_left _ order None) as [m|].
  - destruct H as [[Hin Hh]|H]; [|discriminate]. split.
    + intros E. injection E as <-. split; assumption.
    + intros [_ Hn]. f_equal. eapply shown_hit_unique; eassumption.
  - destruct H as [_ Hno]. split; [discriminate|]. intros [Hin Hn]. rewrite (Hno n Hin) in Hn. discriminate.
Qed.

(* DISASSEMBLY NAMES - the full statement *)
Theorem name_shown_deterministic P order order' i :
  Permutation order order' -> name_shown P order i = name_shown P order' i.
Proof.
  intros Hp.
  assert (H : forall n, name_shown P order i = Some n <-> name_shown P order' i = Some n).
  { intros n. rewrite !name_shown_Some, Hp. reflexivity. }
  destruct (name_shown P order i) as [n|]; [symmetry; apply H; reflexivity|].
  destruct (name_shown P order' i) as [n'|]; [apply H; reflexivity | reflexivity].
Qed.

Theorem impl_parse_deterministic pi pi' P :
  perm_oracle pi -> perm_oracle pi' -> resolve (sorting pi) P = resolve (sorting pi') P.
Proof. intros Hpi Hpi'. rewrite !resolve_is_cut. apply parse_deterministic; assumption. Qed.

Theorem impl_is_name_order pi P :
  perm_oracle pi -> resolve (sorting pi) P = resolve name_order_oracle P.
Proof. intros Hpi. rewrite !resolve_is_cut. apply resolve_cut_ext. apply sorting_answers. exact Hpi. Qed.
