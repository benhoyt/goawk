(* C06, part 3: what a program can observe.  Reads are pure, FS/OFS changes do not touch the
   current record, $0 assignment re-splits with the FS in force, no operation panics,
   NF = number of fields (guarded: the pinned tree stores the assigned value), the
   witnesses for the defects of the pinned tree, and the executable engine as an instance. *)
From Verif Require Import Lib.Base Lib.Dyadic Lib.Utf8 Lib.Regex Gen.Consts Model.Fields
  Proofs.Utf8Facts Proofs.FieldsObs Proofs.FieldsSplit Proofs.FieldsInv.

Section Spec.
Variable rx : Type.
Variable all_matches : rx -> bytes -> list (Z * Z).
Hypothesis am_sorted : forall r s, matches_sorted 0 (zlen s) (all_matches r s).

Local Notation state := (state rx).
Local Notation op := (op rx).
Local Notation ensure := (ensure_fields rx all_matches).
Local Notation getf := (get_field rx all_matches).
Local Notation setf := (set_field rx all_matches).
Local Notation setnf := (set_nf rx all_matches).
Local Notation exec := (exec_op rx all_matches).
Local Notation runs := (run rx all_matches).
Local Notation viewof := (view rx all_matches).
Local Notation Inv := (Inv rx).
Local Notation Inv_ensure := (Inv_ensure rx all_matches).
Local Notation Inv_eval_idx := (Inv_eval_idx rx all_matches).
Local Notation Inv_get_field := (Inv_get_field rx all_matches).
Local Notation Inv_step := (Inv_step rx all_matches am_sorted).
Local Notation ensure_no_panic := (ensure_no_panic rx all_matches am_sorted).
Local Notation set_field_cases := (set_field_cases rx all_matches am_sorted).
Local Notation set_nf_cases := (set_nf_cases rx all_matches am_sorted).

Lemma view_get_field s k s1 f t : getf s k = Ok (s1, f, t) -> viewof s1 = viewof s.
Proof.
  intros H. destruct (get_field_state _ _ _ _ _ _ _ H) as [->|He]; [reflexivity|].
  exact (view_same _ _ _ _ (same_ensure _ _ _ _ He)).
Qed.

Definition is_read (o : op) : bool :=
  match o with GetField _ _ | TypeOf _ _ | GetNF _ | ViewAll _ => true | _ => false end.

Theorem reads_are_pure s o s' w :
  is_read o = true -> exec s o = Ok (s', w) -> viewof s' = viewof s.
Proof. intros Hr H. exact (view_same _ _ _ _ (read_same rx all_matches s o s' w Hr H)). Qed.

Theorem getnf_returns_view s s' w :
  exec s (GetNF rx) = Ok (s', w) -> exists l fl, viewof s = Ok (l, fl, match w with ONF v => v | _ => null_value end) /\ exists v, w = ONF v.
Proof.
  cbn [exec_op]. intros H. apply rbind_ok in H as (s1 & E & H).
  injection H as <- <-. unfold view. rewrite E. cbn [rbind]. eauto.
Qed.

Theorem viewall_returns_view s s' w :
  exec s (ViewAll rx) = Ok (s', w) -> exists l v fl, viewof s = Ok (l, fl, v) /\ w = OAll v fl.
Proof.
  cbn [exec_op]. intros H. apply rbind_ok in H as (s1 & E & H).
  injection H as <- <-. unfold view. rewrite E. cbn [rbind]. eauto.
Qed.

Theorem getfield_returns_view s x s' w l fl v :
  Inv s -> viewof s = Ok (l, fl, v) ->
  exec s (GetField rx (IConst x)) = Ok (s', w) ->
  w = OVal (if float_to_int x =? 0 then l else field_at fl (float_to_int x)).
Proof.
  intros HI Hv H. cbn [exec_op eval_idx rbind] in H.
  apply rbind_ok in H as ([[s1 f] t] & E1 & H). injection H as <- <-. f_equal.
  apply rbind_ok in Hv as (s2 & He & Hv). injection Hv as <- <- <-.
  destruct (Z.eqb_spec (float_to_int x) 0) as [E0|E0].
  - rewrite E0 in E1. injection E1 as _ <- _.
    destruct (core_inj _ _ _ (ensure_core _ _ _ _ He)) as (E & _). symmetry. exact E.
  - destruct (get_field_spec rx all_matches s s2 (float_to_int x) HI He E0) as (t' & Hg).
    rewrite Hg in E1. injection E1 as _ <- _. reflexivity.
Qed.

(* FS / OFS / OUTPUTMODE changes do not touch the current record *)

Theorem setFS_pure s f r s' : set_fs rx s f r = Ok s' -> viewof s' = viewof s.
Proof. intros H. destruct (set_fs_retune _ _ _ _ _ H) as [fre ->]. apply view_retune. Qed.

Theorem setOFS_pure s o : viewof (set_ofs rx s o) = viewof s.
Proof. apply view_retune. Qed.

Theorem setOutMode_pure s m : viewof (set_outmode rx s m) = viewof s.
Proof. apply view_retune. Qed.

Theorem setRS_pure s r : viewof (set_rs rx s r) = viewof s.
Proof. apply view_retune. Qed.

Theorem setInMode_pure s m : viewof (set_inmode rx s m) = viewof s.
Proof. apply view_retune. Qed.

(* the whole class at once, on exec_op: everything except record arrival and the assignments *)
Definition is_pure (o : op) : bool :=
  match o with
  | GetField _ _ | TypeOf _ _ | GetNF _ | ViewAll _ | GetlineVar _ _
  | SetFS _ _ _ | SetOFS _ _ | SetRS _ _ | SetInMode _ _ | SetOutMode _ _ => true
  | _ => false
  end.

Theorem pure_ops_keep_view s o s' w :
  is_pure o = true -> exec s o = Ok (s', w) -> viewof s' = viewof s.
Proof.
  intros Hp H. destruct o as [t|i|i|i t|i t|t|i f| |v|f|fsv r|o|r|m|m| ]; try discriminate Hp;
    try (eapply reads_are_pure; [|exact H]; reflexivity); cbn [exec_op] in H.
  - injection H as <- _. reflexivity.
  - apply rbind_ok in H as (s1 & E & H). injection H as <- _. exact (setFS_pure _ _ _ _ E).
  - injection H as <- _. apply setOFS_pure.
  - injection H as <- _. apply setRS_pure.
  - injection H as <- _. apply setInMode_pure.
  - injection H as <- _. apply setOutMode_pure.
Qed.

(* $0 assignment / record arrival re-splits with the FS then in force *)

Theorem assign_record_resplits s t b :
  viewof (set_line rx s t b) =
  do fl <- split_record rx all_matches (fs rx s) (fs_re rx s) (inmode rx s) (rs rx s) t;
  Ok (t, fl, count_value (zlen fl)).
Proof.
  unfold view, ensure_fields, set_line. proj.
  destruct (split_record rx all_matches _ _ _ _ _); reflexivity.
Qed.

(* a new record, whatever the state before: the split is redone from the text alone and every
   per-field flag is false (an input field is a number-looking string, never a "true" string) *)
Theorem set_record_resets s t b :
  ensure (set_line rx s t b) =
  do fl <- split_record rx all_matches (fs rx s) (fs_re rx s) (inmode rx s) (rs rx s) t;
  Ok (mkState rx t b fl (map (fun _ => false) fl) true (count_value (zlen fl))
              (fs rx s) (fs_re rx s) (fs rx s) (fs_re rx s) (rs rx s) (inmode rx s)
              (ofs rx s) (rs rx s) (inmode rx s) (outmode rx s)).
Proof. reflexivity. Qed.

(* ... so the typing probe on any field of a freshly set record never reports "true string" *)
Theorem typeof_after_record s t b x s' w :
  float_to_int x <> 0 ->
  exec (set_line rx s t b) (TypeOf rx (IConst x)) = Ok (s', w) -> w = OTyp None \/ w = OTyp (Some false).
Proof.
  intros Hk H. cbn [exec_op eval_idx rbind] in H.
  apply rbind_ok in H as ([[s1 f] tt] & Eg & H). injection H as <- <-.
  destruct (get_field_set_line _ _ _ _ _ _ _ _ _ Eg) as [(E & _)|(_ & [->|(-> & _)])]; [contradiction| |left; reflexivity].
  destruct (bytes_eqb f [49; 48]); auto.
Qed.

Corollary exec_assign_record s t :
  exec s (AssignRecord rx t) = Ok (set_line rx s t true, ONone).
Proof. reflexivity. Qed.

Corollary exec_read_record s t :
  exec s (ReadRecord rx t) = Ok (set_line rx s t false, ONone).
Proof. reflexivity. Qed.

(* how the operations of a program reach the functions specified in FieldsInv.v *)
Lemma exec_set_field_const s x t :
  exec s (SetField rx (IConst x) t) = do s1 <- setf s (float_to_int x) t; Ok (s1, ONone).
Proof. reflexivity. Qed.

Lemma exec_set_nf s v : exec s (SetNF rx v) = do s1 <- setnf s v; Ok (s1, ONone).
Proof. reflexivity. Qed.

(* sub / gsub (and the other read-modify-write forms) with a field or $0 as target *)

Lemma set_field_after_get s k s1 old fl t :
  getf s k = Ok (s1, old, fl) -> setf s1 k t = setf s k t.
Proof.
  intros H. destruct (get_field_inv _ _ _ _ _ _ _ H) as [(_ & -> & _)|(Hk & He & _)]; [reflexivity|].
  destruct (Z_gt_dec k maxFieldIndex) as [Hbig|Hm]; [rewrite !set_field_too_large by exact Hbig; reflexivity|].
  rewrite (set_field_ensure _ _ s), He by lia. reflexivity.
Qed.

(* ModField i f with f = what sub/gsub computes from the old text: when a substitution was made
   (f old = Some t) the operation IS the assignment $i = t -- whether or not t differs from the
   old text --, when none was made (None) the record is left alone *)
Theorem modfield_some_is_assignment s x f old s1 fl t :
  getf s (float_to_int x) = Ok (s1, old, fl) -> f old = Ok (Some t) ->
  exec s (ModField rx (IConst x) f) = exec s (SetField rx (IConst x) t).
Proof.
  intros Hg Hf. cbn [exec_op eval_idx rbind]. rewrite Hg. cbn [rbind]. rewrite Hf. cbn [rbind].
  rewrite (set_field_after_get _ _ _ _ _ t Hg). reflexivity.
Qed.

Theorem modfield_none_is_read s x f old s1 fl :
  getf s (float_to_int x) = Ok (s1, old, fl) -> f old = Ok None ->
  exec s (ModField rx (IConst x) f) = Ok (s1, ONone) /\ viewof s1 = viewof s.
Proof.
  intros Hg Hf. split.
  - cbn [exec_op eval_idx rbind]. rewrite Hg. cbn [rbind]. rewrite Hf. reflexivity.
  - exact (view_get_field _ _ _ _ _ Hg).
Qed.

Definition op_safe (o : op) : Prop :=
  match o with
  | ModField _ _ f => forall b, f b <> Panic
  | ModNF _ f => forall v, f v <> Panic
  | _ => True
  end.

Lemma eval_idx_no_panic s i : Inv s -> eval_idx rx all_matches s i <> Panic.
Proof.
  intros HI. destruct i as [x|neg d]; cbn [eval_idx]; [discriminate|].
  apply rbind_no_panic; [exact (ensure_no_panic s HI)|]. intros s1 _.
  destruct (vnum (nf rx s1)); try discriminate. destruct (representable _); discriminate.
Qed.

Lemma set_field_no_panic s k t : Inv s -> setf s k t <> Panic.
Proof.
  intros HI. destruct (set_field_cases s k t HI) as [E|[[m E]|[E|(s1 & _ & [E|(j & tl & _ & _ & E)])]]];
    rewrite E; discriminate.
Qed.

Lemma set_nf_no_panic s v : Inv s -> setnf s v <> Panic.
Proof.
  intros HI. destruct (set_nf_cases s v HI) as [[m E]|[E|(s1 & tl & _ & _ & _ & E)]]; rewrite E; discriminate.
Qed.

Theorem exec_no_panic s o : Inv s -> op_safe o -> exec s o <> Panic.
Proof.
  intros HI Hsafe.
  assert (forall B i (k : state * Z -> res B),
            (forall s0 j, Inv s0 -> k (s0, j) <> Panic) -> rbind (eval_idx rx all_matches s i) k <> Panic) as Hidx.
  { intros B i k Hk. apply rbind_no_panic; [exact (eval_idx_no_panic s i HI)|].
    intros [s0 j] E. exact (Hk s0 j (Inv_eval_idx _ _ _ _ HI E)). }
  pose proof (get_field_no_panic rx all_matches am_sorted) as Hget.
  destruct o as [t|i|i|i t|i t|t|i f| |v|f|fsv r|o|r|m|m| ]; cbn [exec_op]; try discriminate.
  1-2: (* GetField, TypeOf *)
    apply Hidx; intros s0 j HI0; apply rbind_no_panic; [exact (Hget s0 j HI0)|]; intros [[s1 f] t] _; discriminate.
  1-2: (* SetField, GetlineField *)
    apply Hidx; intros s0 j HI0; apply rbind_no_panic; [exact (set_field_no_panic s0 j t HI0)|]; discriminate.
  - apply Hidx. intros s0 j HI0. apply rbind_no_panic; [exact (Hget s0 j HI0)|]. intros [[s1 old] tt] E1.
    apply rbind_no_panic; [exact (Hsafe old)|]. intros [t'|] _; [|discriminate].
    apply rbind_no_panic; [|discriminate]. exact (set_field_no_panic s1 j t' (Inv_get_field _ _ _ _ _ HI0 E1)).
  - apply rbind_no_panic; [exact (ensure_no_panic s HI)|]. discriminate.
  - apply rbind_no_panic; [exact (set_nf_no_panic s v HI)|]. discriminate.
  - apply rbind_no_panic; [exact (ensure_no_panic s HI)|]. intros s1 E.
    apply rbind_no_panic; [exact (Hsafe (nf rx s1))|]. intros v _.
    apply rbind_no_panic; [|discriminate]. exact (set_nf_no_panic s1 v (Inv_ensure _ _ HI E)).
  - unfold set_fs. destruct (rune_count fsv >? 1); [destruct r|]; discriminate.
  - apply rbind_no_panic; [exact (ensure_no_panic s HI)|]. discriminate.
Qed.

Theorem run_no_panic ops : forall s, Inv s -> Forall op_safe ops -> runs ops s <> Panic.
Proof.
  induction ops as [|o ops IH]; intros s HI Hs; cbn [run]; [discriminate|].
  inversion Hs as [|? ? Ho Hrest]; subst. apply rbind_no_panic.
  - unfold step. apply rbind_no_panic; [exact (exec_no_panic s o HI Ho)|]. intros [s1 w] _. discriminate.
  - intros s1 E. destruct (step_exec _ _ _ _ _ E) as [w Hw]. exact (IH s1 (Inv_step _ _ _ _ HI Hw) Hrest).
Qed.

(* NF = number of fields: holds when NF is only ever assigned counts *)

Definition is_count (v : value) : Prop := exists n, in_i64 n = true /\ v = count_value n.

Definition op_nf_guard (o : op) : Prop :=
  match o with
  | SetNF _ v => is_count v
  | ModNF _ f => forall v v', f v = Ok v' -> is_count v'
  | _ => True
  end.

Definition InvNF (s : state) : Prop :=
  have rx s = true -> nf rx s = count_value (zlen (fields rx s)).

Lemma InvNF_ensure s s1 : InvNF s -> ensure s = Ok s1 -> InvNF s1.
Proof.
  intros HN He. unfold ensure_fields in He. destruct (have rx s).
  - injection He as <-. exact HN.
  - apply rbind_ok in He as (fl & _ & He). injection He as <-. unfold InvNF. proj. reflexivity.
Qed.

Lemma InvNF_set_field s k t s' : Inv s -> InvNF s -> setf s k t = Ok s' -> InvNF s'.
Proof.
  intros HI HN H. destruct (set_field_cases s k t HI) as [E|[[m E]|[E|(s1 & He & [E|(j & tl & Hj & _ & E)])]]];
    rewrite E in H; try discriminate; injection H as <-.
  - intros Hh. discriminate Hh.
  - exact (InvNF_ensure _ _ HN He).
  - intros _. unfold with_fields. proj. rewrite zlen_put by lia. reflexivity.
Qed.

Lemma InvNF_set_nf s v s' : Inv s -> is_count v -> setnf s v = Ok s' -> InvNF s'.
Proof.
  intros HI (n & Hn & ->) H.
  pose proof (f2i64_int n Hn) as Hf. change (FFin n 0) with (vnum (count_value n)) in Hf.
  destruct (set_nf_cases s (count_value n) HI) as [[m E]|[E|(s1 & tl & _ & Hn0 & _ & E)]];
    rewrite ?Hf in E; rewrite E in H; try discriminate.
  rewrite Hf in Hn0. injection H as <-. intros _. unfold with_fields. proj. rewrite zlen_resize by exact Hn0. reflexivity.
Qed.

Theorem InvNF_step s o s' w :
  Inv s /\ InvNF s -> op_nf_guard o -> exec s o = Ok (s', w) -> Inv s' /\ InvNF s'.
Proof.
  apply (exec_preserves rx all_matches (fun t => Inv t /\ InvNF t) is_count).
  - intros t t1 [HI HN] He. split; [exact (Inv_ensure _ _ HI He)|exact (InvNF_ensure _ _ HN He)].
  - intros t x b [HI _]. split; [exact (Inv_set_line rx _ _ _ HI)|intros Hh; discriminate Hh].
  - intros t k x t' [HI HN] H.
    split; [exact (Inv_set_field rx all_matches am_sorted _ _ _ _ HI H)|exact (InvNF_set_field _ _ _ _ HI HN H)].
  - intros t v t' [HI _] Hc H.
    split; [exact (Inv_set_nf rx all_matches am_sorted _ _ _ HI H)|exact (InvNF_set_nf _ _ _ HI Hc H)].
  - intros t f r t' [HI HN] H. split; [exact (Inv_set_fs rx _ _ _ _ HI H)|].
    destruct (set_fs_retune _ _ _ _ _ H) as [fre ->]. exact HN.
  - intros t ov r im m HP. exact HP.
Qed.

Theorem NF_is_count_partial ops s :
  Forall op_nf_guard ops -> runs ops (init rx) = Ok s -> InvNF s.
Proof.
  intros Hg H.
  refine (proj2 (run_preserves rx all_matches (fun t => Inv t /\ InvNF t) op_nf_guard InvNF_step ops _ s _ Hg H)).
  split; [apply Inv_init|intros Hh; discriminate Hh].
Qed.

(* the same specifications for every state a script can reach *)

Theorem reachable_setfield ops s : runs ops (init rx) = Ok s ->
  forall s1 i t, ensure s = Ok s1 -> 1 <= i <= maxFieldIndex ->
  exists s', setf s i t = Ok s' /\
    viewof s' = Ok (join_fields rx s (put (fields rx s1) i t), put (fields rx s1) i t,
                    count_value (Z.max (zlen (fields rx s1)) i)).
Proof.
  intros Hr s1 i t He Hi.
  destruct (set_field_pos rx all_matches s s1 i t (Inv_reachable rx all_matches am_sorted _ _ Hr) He Hi)
    as (s' & Hs & Hf & _ & Hl & _ & Hnf & Hh & _).
  exists s'. split; [exact Hs|]. rewrite (view_of_have _ _ s' Hh), Hl, Hf, Hnf. reflexivity.
Qed.

Theorem reachable_setnf ops s : runs ops (init rx) = Ok s ->
  forall s1 v, ensure s = Ok s1 -> 0 <= f2i64 (vnum v) <= maxFieldIndex ->
  exists s', setnf s v = Ok s' /\
    viewof s' = Ok (join_fields rx s (resize (f2i64 (vnum v)) (fields rx s1)),
                    resize (f2i64 (vnum v)) (fields rx s1), v).
Proof.
  intros Hr s1 v He Hn.
  destruct (set_nf_spec rx all_matches s s1 v (Inv_reachable rx all_matches am_sorted _ _ Hr) He Hn)
    as (s' & Hs & Hf & _ & Hl & _ & Hnf & Hh & _).
  exists s'. split; [exact Hs|]. rewrite (view_of_have _ _ s' Hh), Hl, Hf, Hnf. reflexivity.
Qed.

Theorem reachable_getfield ops s : runs ops (init rx) = Ok s ->
  forall x s' w l fl v, viewof s = Ok (l, fl, v) ->
  exec s (GetField rx (IConst x)) = Ok (s', w) ->
  w = OVal (if float_to_int x =? 0 then l else field_at fl (float_to_int x)) /\ viewof s' = viewof s.
Proof.
  intros Hr x s' w l fl v Hv H. split.
  - exact (getfield_returns_view s x s' w l fl v (Inv_reachable rx all_matches am_sorted _ _ Hr) Hv H).
  - exact (reads_are_pure s (GetField rx (IConst x)) s' w eq_refl H).
Qed.

(* getline $i, the record read being t, is the assignment $i = t *)
Theorem getline_field_is_setfield s i t :
  exec s (GetlineField rx i t) = exec s (SetField rx i t).
Proof. reflexivity. Qed.

Lemma float_to_int_big m e : ftrunc m e > maxFieldIndex -> float_to_int (FFin m e) > maxFieldIndex.
Proof.
  intros H. cbn [float_to_int]. unfold maxFieldIndex in *.
  destruct (two63 <=? ftrunc m e) eqn:E1; [unfold maxint, two63; lia|].
  destruct (ftrunc m e <=? - two63) eqn:E2; [apply Z.leb_le in E2; unfold two63 in E2; lia|lia].
Qed.

(* $(x) = t with trunc(x) > maxFieldIndex is the "too large" error, however large x is *)
Theorem setfield_huge s m e t :
  ftrunc m e > maxFieldIndex ->
  exec s (SetField rx (IConst (FFin m e)) t) =
  Err (msg_field_too_large ++ dec_of_Z (float_to_int (FFin m e))).
Proof.
  intros H. rewrite exec_set_field_const.
  rewrite set_field_too_large by (apply float_to_int_big; exact H). reflexivity.
Qed.

Lemma field_at_beyond fl i : zlen fl < i -> field_at fl i = [].
Proof.
  intros H. pose proof (zlen_nonneg fl) as H0. unfold field_at.
  destruct (Z.ltb_spec i 1); [lia|]. destruct (Z.ltb_spec i 1); [lia|].
  apply nth_overflow. unfold zlen in H. lia.
Qed.

(* reading $(x) with trunc(x) beyond the last field -- 2^63 and more included -- gives "" *)
Theorem getfield_huge s m e s' w l fl v :
  Inv s -> viewof s = Ok (l, fl, v) -> zlen fl < maxint ->
  zlen fl < ftrunc m e ->
  exec s (GetField rx (IConst (FFin m e))) = Ok (s', w) -> w = OVal [].
Proof.
  intros HI Hv Hlen Hbig H.
  rewrite (getfield_returns_view s (FFin m e) s' w l fl v HI Hv H).
  assert (zlen fl < float_to_int (FFin m e)) as Hi.
  { cbn [float_to_int]. pose proof (zlen_nonneg fl).
    destruct (two63 <=? ftrunc m e); [exact Hlen|].
    destruct (ftrunc m e <=? - two63) eqn:E2; [apply Z.leb_le in E2; unfold two63 in E2; lia|exact Hbig]. }
  pose proof (zlen_nonneg fl). destruct (Z.eqb_spec (float_to_int (FFin m e)) 0); [lia|].
  rewrite field_at_beyond by exact Hi. reflexivity.
Qed.

End Spec.

(* The executable engine (Lib/Regex.v, the one the correspondence check runs) meets am_sorted, so
   everything above holds of the executable model. *)
Lemma matches_sorted_weaken lo lo' hi ms : lo' <= lo -> matches_sorted lo hi ms -> matches_sorted lo' hi ms.
Proof. destruct ms as [|[a b] ms]; cbn [matches_sorted]; [auto|]. intros; intuition lia. Qed.

Lemma all_matches_fuel_sorted fuel r s : forall pos pe,
  0 <= pos -> matches_sorted pos (zlen s) (all_matches_fuel fuel r s pos pe).
Proof.
  induction fuel as [|f IH]; intros pos pe Hp; cbn [all_matches_fuel]; [exact I|].
  destruct (pos >? zlen s) eqn:Eg; [exact I|].
  assert (pos <= zlen s) as Hle by (destruct (Z.gtb_spec pos (zlen s)); [discriminate|lia]).
  destruct (find_from r s pos) as [[a b]|] eqn:Ef; [|exact I].
  destruct (find_from_bounds r s pos a b ltac:(lia) Ef) as (H1 & H2 & H3).
  set (pos' := if b =? pos
               then (if snd (decode_rune (zdrop pos s)) >? 0 then pos + snd (decode_rune (zdrop pos s)) else zlen s + 1)
               else b).
  assert (b <= pos') as Hb.
  { unfold pos'. destruct (b =? pos) eqn:E; [|lia]. apply Z.eqb_eq in E.
    destruct (snd (decode_rune (zdrop pos s)) >? 0) eqn:Ew; [|lia].
    destruct (Z.gtb_spec (snd (decode_rune (zdrop pos s))) 0); [lia|discriminate]. }
  pose proof (IH pos' b ltac:(lia)) as Hrest.
  destruct (negb ((b =? pos) && (a =? pe))).
  - cbn [matches_sorted]. repeat split; try lia.
    exact (matches_sorted_weaken _ _ _ _ Hb Hrest).
  - apply (matches_sorted_weaken pos'); [lia|exact Hrest].
Qed.

Theorem all_matches_sorted r s : matches_sorted 0 (zlen s) (Regex.all_matches r s).
Proof. unfold Regex.all_matches. apply all_matches_fuel_sorted. lia. Qed.

(* witnesses on the pinned tree (an engine without matches is enough) *)

Definition no_matches : unit -> bytes -> list (Z * Z) := fun _ _ => [].

Lemma no_matches_sorted : forall r s, matches_sorted 0 (zlen s) (no_matches r s).
Proof. intros; exact I. Qed.

(* NF = number of fields, at full strength *)
Definition NF_is_count_full_statement : Prop :=
  forall (rx : Type) (am : rx -> bytes -> list (Z * Z)) ops s,
    run rx am ops (init rx) = Ok s -> have rx s = true ->
    nf rx s = count_value (zlen (fields rx s)).

Definition v_2_7 : value := mkV (of_bits 4613262278296967578) [50; 46; 55].   (* 2.7, "2.7" *)

(* $0 = "a b c"; NF = 2.7: two fields, NF reads 2.7 *)
Theorem NF_is_count_refuted : ~ NF_is_count_full_statement.
Proof.
  intros H.
  specialize (H unit no_matches [ReadRecord unit [97; 32; 98; 32; 99]; SetNF unit v_2_7]).
  vm_compute in H. specialize (H _ eq_refl eq_refl). discriminate H.
Qed.
