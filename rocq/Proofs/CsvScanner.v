(* C08: the buffer-level model of bufio.Scanner ([read_csv], what the harness runs against the
   implementation) delivers, for every chunking, exactly the events of the splitter run over
   the whole input ([read_file]) when the input is shorter than half the buffer (goawk: 64 KiB
   buffer, so inputs below 32 KiB).  Then the Scanner neither compacts nor grows its buffer;
   those paths are covered by correspondence only. *)
From Verif Require Import Lib.Base Lib.Utf8 Model.Csv Proofs.CsvBase Proofs.CsvFuel
  Proofs.CsvAccount Proofs.CsvRoundtrip Proofs.CsvChunks.
From Coq Require Import ZifyBool.

(* buf[start:end], the bytes read and not yet consumed, once nothing lies behind [end] *)
Definition pend (s : scanner) : bytes := zdrop (sc_start s) (sc_hw s).

(* The Scanner with room to spare: the buffer holds nothing behind [end], and what it holds
   together with all that is still to be read fills less than half of it, so that [refill]
   never has to shift or grow it. *)
Record sinv (s : scanner) : Prop := {
  i_start : 0 <= sc_start s <= sc_end s;
  i_end : sc_end s = zlen (sc_hw s);
  i_cap : 2 * (zlen (sc_hw s) + zlen (concat (sc_chunks s))) < sc_cap s;
}.

Lemma zlen_pend s : sinv s -> zlen (pend s) = sc_end s - sc_start s.
Proof. intros [H1 H2 _]. unfold pend. rewrite zlen_zdrop by lia. lia. Qed.

Lemma data_is_pend s : sinv s -> ztake (sc_end s - sc_start s) (zdrop (sc_start s) (sc_hw s)) = pend s.
Proof. intros H. apply ztake_all. fold (pend s). rewrite zlen_pend by exact H. lia. Qed.

Lemma stale_nil s : sinv s -> zdrop (sc_end s) (sc_hw s) = [].
Proof. intros [_ H2 _]. apply zdrop_all. lia. Qed.

Lemma write_at_end hw b : write_at hw (zlen hw) b = hw ++ b.
Proof.
  unfold write_at. replace (Z.to_nat (zlen hw - zlen hw)) with 0%nat by lia. cbn [repeat].
  rewrite app_nil_r. rewrite ztake_all by lia. rewrite zdrop_all by (pose proof (zlen_nonneg b); lia).
  rewrite app_nil_r. reflexivity.
Qed.

Definition with_split (s : scanner) (st : csv_st) : scanner :=
  mkScanner (sc_hw s) (sc_cap s) (sc_start s) (sc_end s) (sc_eof s) (sc_empties s) (sc_chunks s) st.

Definition advanced (s : scanner) (adv : Z) (emp : Z) : scanner :=
  mkScanner (sc_hw s) (sc_cap s) (sc_start s + adv) (sc_end s) (sc_eof s) emp (sc_chunks s) (sc_split s).

Ltac scn :=
  cbn [init_scanner advanced with_split sc_hw sc_cap sc_start sc_end sc_eof sc_empties sc_chunks sc_split].

Lemma advanced_0 s : advanced (with_split s (sc_split s)) 0 (sc_empties s) = s.
Proof. destruct s. unfold advanced, with_split. scn. rewrite Z.add_0_r. reflexivity. Qed.

Lemma with_split_same s : with_split s (sc_split s) = s.
Proof. destruct s. reflexivity. Qed.

Lemma sinv_advanced s st adv emp : sinv s -> 0 <= adv <= zlen (pend s) ->
  sinv (advanced (with_split s st) adv emp).
Proof.
  intros Hi Ha. rewrite (zlen_pend s Hi) in Ha. destruct Hi as [H1 H2 H3]. constructor; scn; lia.
Qed.

Lemma pend_advanced s st adv emp : 0 <= sc_start s -> 0 <= adv ->
  pend (advanced (with_split s st) adv emp) = zdrop adv (pend s).
Proof. intros Hs Ha. unfold pend. scn. apply zdrop_zdrop; assumption. Qed.

Definition smsr (s : scanner) : nat := msr (pend s) (sc_chunks s) (sc_eof s).

Lemma smsr_advanced s st adv emp : 0 <= sc_start s -> 0 <= adv <= zlen (pend s) ->
  (smsr (advanced (with_split s st) adv emp) + 2 * Z.to_nat adv = smsr s)%nat.
Proof.
  intros Hs Ha. unfold smsr. rewrite pend_advanced by lia. scn. unfold msr.
  rewrite length_zdrop by exact Ha. unfold zlen in Ha. lia.
Qed.

Lemma length_concat_zlen (l : list bytes) : zlen (concat l) = Z.of_nat (length (concat l)).
Proof. reflexivity. Qed.

Record ok (s : scanner) : Prop := {
  k_inv : sinv s;
  k_eof : sc_eof s = true -> sc_chunks s = [];
}.

Section Sim.
Variable c : csv_cfg.
Hypothesis Hsep : valid_sep (c_sep c).
Variable maxtok : Z.

(* what lies behind the data does not matter to a call: "$0 is the record's own text" *)
Lemma scan_behind_irrelevant s data stale nz stale' nz' e : 0 <= nz -> 0 <= nz' ->
  scan c s data stale nz e = scan c s data stale' nz' e.
Proof.
  intros Hnz Hnz'. rewrite !scan_unfold.
  destruct (e && _); [reflexivity|].
  destruct (skip_lines c e _ _ _ _) as [| |line d adv1 skip] eqn:Sk; try reflexivity.
  destruct (parse_field c e _ _ _ _ _ _) as [|adv fields cr|] eqn:P; try reflexivity.
  pose proof (row_acct c e Hsep _ _ _ _ _ _ _ _ _ _ _ Sk P) as [H1 H2].
  pose proof (bdy_len s data) as [HBA HA].
  rewrite !scan_done_inside by lia. reflexivity.
Qed.

(* one more read: no compaction, no growth, the whole chunk fits *)
Lemma refill_simple s : sinv s -> sc_eof s = false ->
  refill maxtok s =
    Some match sc_chunks s with
         | [] => mkScanner (sc_hw s) (sc_cap s) (sc_start s) (sc_end s) true (sc_empties s) [] (sc_split s)
         | ch :: rest => mkScanner (sc_hw s ++ ch) (sc_cap s) (sc_start s) (sc_end s + zlen ch) false 0
                                   rest (sc_split s)
         end.
Proof.
  intros [H1 H2 H3] He. unfold refill.
  pose proof (zlen_nonneg (sc_hw s)). pose proof (zlen_nonneg (concat (sc_chunks s))).
  replace ((0 <? sc_start s) && ((sc_end s =? sc_cap s) || (sc_cap s / 2 <? sc_start s))) with false
    by (Z.div_mod_to_equations; lia).
  replace (sc_end s =? sc_cap s) with false by lia.
  destruct (sc_chunks s) as [|ch rest] eqn:Ec.
  - reflexivity.
  - cbn [concat] in H3. rewrite zlen_app in H3. pose proof (zlen_nonneg ch).
    pose proof (zlen_nonneg (concat rest)).
    replace (Z.min (sc_cap s - sc_end s) (zlen ch)) with (zlen ch) by lia.
    rewrite Z.ltb_irrefl. rewrite ztake_all by lia. rewrite H2, write_at_end. rewrite He. reflexivity.
Qed.

Definition no_token_body (f : nat) (s : scanner) (evs : list event) : scanner * list event * scan_ret :=
  if sc_eof s
  then (mkScanner (sc_hw s) (sc_cap s) 0 0 true (sc_empties s) (sc_chunks s) (sc_split s), evs, RStop FEOF)
  else match refill maxtok s with
       | None => (s, evs, RStop FTooLong)
       | Some s' => let '(s2, evs2, r) := scan_call c maxtok f s' in (s2, evs ++ evs2, r)
       end.

Lemma scan_call_S f s :
  scan_call c maxtok (S f) s =
    if (sc_start s <? sc_end s) || sc_eof s
    then
      let data := ztake (sc_end s - sc_start s) (zdrop (sc_start s) (sc_hw s)) in
      let stale := zdrop (sc_end s) (sc_hw s) in
      let nz := sc_cap s - zlen (sc_hw s) in
      let '(st, out) := scan c (sc_split s) data stale nz (sc_eof s) in
      let s1 := with_split s st in
      match out with
      | OPanic => (s1, [], RStop FPanic)
      | OFuel => (s1, [], RStop FFuel)
      | ONeed => no_token_body f s1 []
      | OHeader adv names =>
          if (adv <? 0) || (sc_end s1 - sc_start s1 <? adv) then (s1, [], RStop FBadAdvance)
          else no_token_body f (advanced s1 adv (sc_empties s1)) [EHeader names]
      | ORecord adv tok fields =>
          if (adv <? 0) || (sc_end s1 - sc_start s1 <? adv) then (s1, [], RStop FBadAdvance)
          else
            let emp := if negb (sc_eof s1) || (0 <? adv) then 0 else sc_empties s1 + 1 in
            if 100 <? emp then (advanced s1 adv emp, [], RStop FEmpties)
            else (advanced s1 adv emp, [], RToken tok fields)
      end
    else no_token_body f s [].
Proof. reflexivity. Qed.

(* [arun] was written as Scan's loop without the buffer: one iteration of the one is one
   iteration of the other *)
Definition amore (fa : nat) (st : csv_st) (p : bytes) (chunks : list bytes) (eof : bool) : list event :=
  if eof then []
  else match chunks with
       | [] => arun fa c st p [] true
       | ch :: rest => arun fa c st (p ++ ch) rest false
       end.

Lemma arun_S fa st p chunks eof :
  arun (S fa) c st p chunks eof =
    if nonempty p || eof
    then match scan c st p [] 0 eof with
         | (s', ORecord adv tok fields) => ERecord tok fields :: arun fa c s' (zdrop adv p) chunks eof
         | (s', OHeader adv names) => EHeader names :: amore fa s' (zdrop adv p) chunks eof
         | (s', ONeed) => amore fa s' p chunks eof
         | _ => []
         end
    else amore fa st p chunks eof.
Proof. reflexivity. Qed.

Definition arun_of (fa : nat) (s : scanner) : list event :=
  arun fa c (sc_split s) (pend s) (sc_chunks s) (sc_eof s).

(* a read (or the discovery of EOF) is [arun]'s "once more" *)
Lemma ok_refill s : sinv s -> sc_eof s = false ->
  exists s2, refill maxtok s = Some s2 /\ ok s2 /\ (smsr s2 < smsr s)%nat /\
    forall fa, amore fa (sc_split s) (pend s) (sc_chunks s) false = arun_of fa s2.
Proof.
  intros Hi He. eexists. split; [exact (refill_simple s Hi He)|].
  destruct Hi as [H1 H2 H3]. unfold smsr, msr, arun_of, amore, pend. rewrite He.
  destruct (sc_chunks s) as [|ch rest]; scn.
  - split; [|split; [|reflexivity]].
    + constructor; scn; [constructor; scn; lia | reflexivity].
    + cbn [concat length]. lia.
  - cbn [concat] in H3. rewrite zlen_app in H3. pose proof (zlen_nonneg ch).
    pose proof (zlen_nonneg (concat rest)).
    rewrite zdrop_app_le by lia. split; [|split; [|reflexivity]].
    + constructor; scn; [constructor; scn; rewrite ?zlen_app; lia | discriminate].
    + cbn [concat length]. rewrite !app_length. lia.
Qed.

(* what a call of Scan returns, against the events [evs0] that [arun] delivers *)
Definition sim_out (s : scanner) (evs0 : list event) (r : scanner * list event * scan_ret) : Prop :=
  match r with
  | (s', evs, RToken tok fields) =>
      ok s' /\ (smsr s' < smsr s)%nat /\
      exists fa', (smsr s' < fa')%nat /\ evs0 = evs ++ ERecord tok fields :: arun_of fa' s'
  | (s', evs, RStop FEOF) => evs0 = evs
  | (_, _, RStop _) => False
  end.

Lemma scan_call_arun : forall f s, ok s -> (smsr s < f)%nat -> forall fa, (smsr s < fa)%nat ->
  sim_out s (arun_of fa s) (scan_call c maxtok f s).
Proof.
  induction f as [|f IH]; intros s Hok Hm fa Hfa; [lia|]. destruct fa as [|fa]; [lia|].
  destruct Hok as [Hi Heof]. pose proof Hi as [H1 H2 H3].
  pose proof (zlen_pend s Hi) as Hzp.
  unfold arun_of. rewrite scan_call_S, arun_S.
  assert (Hne : nonempty (pend s) = (sc_start s <? sc_end s)).
  { destruct (pend s) as [|x p]; cbn [nonempty]; rewrite ?zlen_cons, ?zlen_nil in Hzp;
      [|pose proof (zlen_nonneg p)]; lia. }
  rewrite Hne.
  (* reading on from [s] with [adv] more bytes consumed and split state [st] *)
  assert (Hcont : forall st adv evs, sc_eof s = false -> 0 <= adv <= zlen (pend s) ->
            sim_out s (evs ++ amore fa st (zdrop adv (pend s)) (sc_chunks s) false)
                    (no_token_body f (advanced (with_split s st) adv (sc_empties s)) evs)).
  { intros st adv evs He Ha.
    pose proof (smsr_advanced s st adv (sc_empties s) (proj1 H1) Ha) as Hm1.
    destruct (ok_refill _ (sinv_advanced s st adv (sc_empties s) Hi Ha) He) as (s2 & R & Hok2 & Hm2 & HA2).
    rewrite pend_advanced in HA2 by lia. cbn [advanced with_split sc_split sc_chunks] in HA2.
    unfold no_token_body. change (sc_eof (advanced (with_split s st) adv (sc_empties s))) with (sc_eof s).
    rewrite He, R, HA2.
    specialize (IH s2 Hok2 ltac:(lia) fa ltac:(lia)).
    destruct (scan_call c maxtok f s2) as [[s3 evs3] r3].
    destruct r3 as [tok fields | fin]; cbn [sim_out] in *.
    - destruct IH as (Hok3 & Hm3 & fa' & Hfa' & HA3). split; [exact Hok3 | split; [lia|]].
      exists fa'. split; [exact Hfa'|]. rewrite HA3, app_assoc. reflexivity.
    - destruct fin; try contradiction. rewrite IH. reflexivity. }
  destruct ((sc_start s <? sc_end s) || sc_eof s) eqn:Cond.
  2:{ (* nothing buffered, not at EOF: read *)
      apply orb_false_iff in Cond as [C1 C2].
      specialize (Hcont (sc_split s) 0 [] C2 ltac:(lia)).
      rewrite advanced_0, zdrop_0, <- C2 in Hcont. exact Hcont. }
  cbv zeta. rewrite data_is_pend, stale_nil by exact Hi.
  assert (Hnz : 0 <= sc_cap s - zlen (sc_hw s)) by (pose proof (zlen_nonneg (concat (sc_chunks s))); lia).
  rewrite (scan_behind_irrelevant (sc_split s) (pend s) [] 0 [] (sc_cap s - zlen (sc_hw s)) (sc_eof s)) by lia.
  destruct (scan c (sc_split s) (pend s) [] (sc_cap s - zlen (sc_hw s)) (sc_eof s)) as [st out] eqn:Sc.
  pose proof (scan_accounting c (sc_split s) (pend s) [] _ (sc_eof s) Hsep Hnz) as Hacc.
  rewrite Sc in Hacc. cbn [snd] in Hacc.
  pose proof (scan_never_fuel c (sc_split s) (pend s) [] (sc_cap s - zlen (sc_hw s)) (sc_eof s)) as Hnf.
  rewrite Sc in Hnf. cbn [snd] in Hnf.
  destruct out as [|adv names|adv tok fields| |].
  - pose proof (scan_need_state _ _ _ _ _ _ _ Sc) as ->. rewrite with_split_same.
    destruct (sc_eof s) eqn:He.
    + unfold no_token_body. rewrite He. reflexivity.
    + specialize (Hcont (sc_split s) 0 [] eq_refl ltac:(lia)).
      rewrite advanced_0, zdrop_0 in Hcont. exact Hcont.
  - destruct (scan_decided_facts c _ _ _ _ _ st _ Hsep Sc I) as (Ha & _).
    cbn [out_adv] in Ha. cbn [with_split sc_end sc_start sc_empties].
    replace ((adv <? 0) || (sc_end s - sc_start s <? adv)) with false by lia.
    destruct (sc_eof s) eqn:He.
    + unfold no_token_body. cbn [advanced with_split sc_eof]. rewrite He. reflexivity.
    + apply (Hcont st adv [EHeader names]); [reflexivity | lia].
  - destruct (scan_decided_facts c _ _ _ _ _ st _ Hsep Sc I) as (Ha & _).
    cbn [out_adv] in Ha. cbn [with_split sc_end sc_start sc_empties sc_eof].
    replace ((adv <? 0) || (sc_end s - sc_start s <? adv)) with false by lia.
    replace (negb (sc_eof s) || (0 <? adv)) with true by lia. cbn [Z.ltb Z.compare sim_out].
    pose proof (smsr_advanced s st adv 0 (proj1 H1) ltac:(lia)) as Hm1.
    split; [|split].
    + constructor; [apply sinv_advanced; [exact Hi | lia] | exact Heof].
    + lia.
    + exists fa. split; [lia|]. unfold arun_of. rewrite pend_advanced by lia. reflexivity.
  - contradiction.
  - congruence.
Qed.

Lemma run_scanner_arun : forall fuel s, ok s -> (smsr s < fuel)%nat -> forall fa, (smsr s < fa)%nat ->
  run_scanner c maxtok fuel s = (arun_of fa s, FEOF).
Proof.
  induction fuel as [|f IH]; intros s Hok Hm fa Hfa; [lia|].
  cbn [run_scanner]. pose proof (scan_call_arun (S f) s Hok Hm fa Hfa) as H.
  destruct (scan_call c maxtok (S f) s) as [[s' evs] r]. destruct r as [tok fields | fin]; cbn [sim_out] in H.
  - destruct H as (Hok' & Hm' & fa' & Hfa' & HA). rewrite (IH s' Hok' ltac:(lia) fa' Hfa'), HA. reflexivity.
  - destruct fin; try contradiction. rewrite H. reflexivity.
Qed.

End Sim.

(* The buffer-level Scanner model = the whole-input reader, for every chunking. *)
Theorem read_csv_is_read_file c cap maxtok chunks :
  valid_sep (c_sep c) -> 2 * zlen (concat chunks) < cap ->
  read_csv c cap maxtok chunks = (read_file c (concat chunks), FEOF).
Proof.
  intros Hv Hc. unfold read_csv.
  assert (Hm : smsr (init_scanner cap chunks) = msr [] chunks false) by reflexivity.
  rewrite (run_scanner_arun c Hv maxtok _ _) with (fa := S (msr [] chunks false)).
  - f_equal. exact (csv_chunk_independent c Hv chunks).
  - constructor; [constructor; scn; [lia | reflexivity | exact Hc] | discriminate].
  - rewrite Hm. unfold msr, run_fuel, total_len. cbn [length]. lia.
  - rewrite Hm. lia.
Qed.

Corollary read_csv_chunk_independent c cap maxtok chunks :
  valid_sep (c_sep c) -> 2 * zlen (concat chunks) < cap ->
  read_csv c cap maxtok chunks = read_csv c cap maxtok [concat chunks].
Proof.
  intros Hv Hc. rewrite (read_csv_is_read_file c cap maxtok chunks) by assumption.
  rewrite (read_csv_is_read_file c cap maxtok [concat chunks]); cbn [concat]; rewrite ?app_nil_r; auto.
Qed.

(* print in CSV/TSV output mode, read the bytes back - delivered in any pieces - in CSV/TSV
   input mode with the same separator, through the buffer-level reader *)
Corollary read_csv_roundtrip c cap maxtok rows chunks :
  valid_sep (c_sep c) -> c_comment c = 0 -> c_header c = false -> Forall row_ok rows ->
  concat chunks = write_csv (c_sep c) false rows ->
  prefix_of bom (concat chunks) = false -> 2 * zlen (concat chunks) < cap ->
  read_csv c cap maxtok chunks =
  (map (fun fs => ERecord (join_fields (c_sep c) false fs) fs) rows, FEOF).
Proof.
  intros Hv Hcom Hhdr Hok Hw Hb Hc. rewrite read_csv_is_read_file by assumption.
  rewrite Hw in *. rewrite roundtrip_file by assumption. reflexivity.
Qed.
