(* C17: the reusable interpreter (interp.New once, Execute several times).  The native table
   p.nativeFuncs is the only native-function state that survives between calls; set-up builds it
   only when it is nil.  Invariant: a failed set-up leaves it nil, so the next set-up validates
   again; with the same map every time, every Execute behaves exactly like a fresh one-shot run. *)
From Coq Require Import Permutation.
From Verif Require Import Lib.Base Lib.Dyadic Model.Native
  Proofs.NativeIndex Proofs.NativeCheck Proofs.NativeConv Proofs.NativeCall Proofs.NativeRun.

Lemma build_table_ext f1 f2 names :
  (forall n, In n names -> lookup n f1 = lookup n f2) -> build_table f1 names = build_table f2 names.
Proof.
  induction names as [|y names IH]; intros H; [reflexivity|].
  cbn [build_table]. rewrite (H y (or_introl eq_refl)). rewrite IH; [reflexivity|].
  intros n Hn. apply H. right. exact Hn.
Qed.

Definition is_setup_error (o : outcome) : Prop := exists n e, o = OSetupError n e.

Section Prims.
  Variable parse_float : bytes -> option fnum.
  Variable parse_prefix : bytes -> fnum.
  Variable fmt_float : fnum -> bytes.

  Notation run := (run parse_float parse_prefix fmt_float).
  Notation call_outcome := (call_outcome parse_float parse_prefix fmt_float).
  Notation exec_one := (exec_one parse_float parse_prefix fmt_float).
  Notation exec_history := (exec_history parse_float parse_prefix fmt_float).
  Notation run_history := (run_history parse_float parse_prefix fmt_float).

  Lemma call_outcome_not_setup_error fr awk name args tbl n e :
    call_outcome fr awk name args tbl <> OSetupError n e.
  Proof.
    unfold Native.call_outcome. destruct (mem_bytes name awk); [discriminate|].
    destruct (call_native _ _ _ _ _ _) as [[v recv|id recv]|k]; discriminate.
  Qed.

  (* the invariant the set-up code must keep: an Execute that ends in a set-up error started
     with no table and leaves no table behind ... *)
  Theorem failed_setup_leaves_table_nil fr awk name args st m st' n e :
    exec_one fr awk name args st m = (st', OSetupError n e) -> st = None /\ st' = None.
  Proof.
    unfold Native.exec_one. destruct st as [tbl|].
    - intros [= _ H]. exfalso. exact (call_outcome_not_setup_error _ _ _ _ _ _ _ H).
    - destruct (init_native_funcs m) as [[[n' e']|tbl]|k]; intros [= <- H]; try discriminate.
      + split; reflexivity.
      + exfalso. exact (call_outcome_not_setup_error _ _ _ _ _ _ _ H).
  Qed.

  (* ... so the next Execute validates its Funcs map again, exactly like a first one *)
  Theorem failed_setup_revalidates fr awk name args st m st' n e m2 :
    exec_one fr awk name args st m = (st', OSetupError n e) ->
    exec_one fr awk name args st' m2 = exec_one fr awk name args None m2.
  Proof. intros H. apply failed_setup_leaves_table_nil in H as [_ ->]. reflexivity. Qed.

  (* a first Execute is the one-shot run *)
  Theorem first_execute_is_run fr awk name args m :
    resolve_call fr awk name (zlen args) = NOk None ->
    snd (exec_one fr awk name args None m) = run fr m awk name args.
  Proof.
    intros ER. unfold Native.exec_one, Native.run, Native.call_outcome. rewrite ER.
    destruct (init_native_funcs m) as [[[n e]|tbl]|k]; reflexivity.
  Qed.

  (* once a set-up has succeeded the table is kept: config.Funcs of later calls is not looked at
     (Execute's documentation: Funcs "must not change between calls to Execute") *)
  Theorem established_table_is_kept fr awk name args tbl m :
    exec_one fr awk name args (Some tbl) m = (Some tbl, call_outcome fr awk name args tbl).
  Proof. reflexivity. Qed.

  (* any number of rejected set-ups, with whatever maps, leave no trace: what follows behaves as
     on a fresh interpreter *)
  Theorem rejected_setups_leave_no_trace fr awk name args maps1 maps2 :
    Forall is_setup_error (exec_history fr awk name args None maps1) ->
    exec_history fr awk name args None (maps1 ++ maps2) =
    exec_history fr awk name args None maps1 ++ exec_history fr awk name args None maps2.
  Proof.
    induction maps1 as [|m maps1 IH]; intros H; [reflexivity|].
    cbn [app Native.exec_history] in *.
    destruct (exec_one fr awk name args None m) as [st' o] eqn:E.
    inversion H as [|? ? [n [e ->]] Hrest]; subst.
    destruct (failed_setup_leaves_table_nil _ _ _ _ _ _ _ _ _ E) as [_ ->].
    cbn [app]. f_equal. apply IH. exact Hrest.
  Qed.

  (* ---- the documented use: the same map (any iteration order) on every Execute ---- *)
  Lemma table_perm_invariant m1 m2 :
    NoDup (map fst m1) -> Permutation m1 m2 ->
    build_table m2 (sort_names (map fst m2)) = build_table m1 (sort_names (map fst m1)).
  Proof.
    intros ND P.
    rewrite (sort_names_perm_invariant (map fst m2) (map fst m1)) by (apply Permutation_map, Permutation_sym; exact P).
    apply build_table_ext. intros n _. symmetry. apply lookup_perm_invariant; assumption.
  Qed.

  Definition table_of (fr : list (bytes * fval)) (st : istate) : Prop :=
    match st with
    | None => True
    | Some tbl => (forall n f, In (n, f) fr -> acceptable n f = true) /\
                  build_table fr (sort_names (map fst fr)) = NOk tbl
    end.

  (* set-up on any walk m of the map fr builds a table exactly when every entry of fr is
     acceptable, and then it is the table of fr *)
  Lemma init_perm fr m tbl :
    NoDup (map fst fr) -> Permutation fr m -> (forall n f, In (n, f) fr -> go_typed f) ->
    (init_native_funcs m = NOk (inr tbl) <-> table_of fr (Some tbl)).
  Proof.
    intros ND P Hok. cbn [table_of]. rewrite <- (table_perm_invariant fr m ND P).
    destruct (init_ok parse_float parse_prefix fmt_float m (entries_perm _ _ _ P Hok))
      as [(n & e & f & Ei & Hin & A)|(tbl' & Ei & Et & Hacc)]; rewrite Ei.
    - split; [discriminate|]. intros [Hacc _].
      rewrite (Hacc n f (Permutation_in _ (Permutation_sym P) Hin)) in A. discriminate.
    - rewrite Et. split.
      + intros [= <-]. split; [|reflexivity].
        exact (entries_perm _ _ _ (Permutation_sym P) Hacc).
      + intros [_ [= <-]]. reflexivity.
  Qed.

  Lemma exec_history_same_map_gen fr awk name args :
    resolve_call fr awk name (zlen args) = NOk None ->
    NoDup (map fst fr) -> (forall n f, In (n, f) fr -> go_typed f) ->
    forall maps st, Forall (Permutation fr) maps -> table_of fr st ->
    exec_history fr awk name args st maps = map (fun m => run fr m awk name args) maps.
  Proof.
    intros ER ND Hok. induction maps as [|m maps IH]; intros st HP Hst; [reflexivity|].
    inversion HP as [|? ? P HP']; subst. cbn [Native.exec_history map].
    destruct st as [tbl|].
    - (* a table exists: it is the table of this very map, so the outcome is the fresh run's *)
      cbn [Native.exec_one]. f_equal; [|apply IH; assumption].
      unfold Native.run, Native.call_outcome.
      rewrite ER, (proj2 (init_perm fr m tbl ND P Hok) Hst). reflexivity.
    - pose proof (first_execute_is_run fr awk name args m ER) as F.
      destruct (exec_one fr awk name args None m) as [st' o] eqn:E. cbn [snd] in F. subst o.
      f_equal. apply IH; [exact HP'|].
      unfold Native.exec_one in E.
      destruct (init_native_funcs m) as [[[n e]|tbl]|k] eqn:Ei; injection E as <- _; try exact I.
      apply (init_perm fr m tbl ND P Hok). exact Ei.
  Qed.

  (* history does not matter: every Execute with the same map is exactly a fresh one-shot run
     (so every theorem about [run] holds for every Execute of the history) *)
  Theorem every_execute_is_a_fresh_run fr awk name args maps :
    resolve_call fr awk name (zlen args) = NOk None ->
    NoDup (map fst fr) -> (forall n f, In (n, f) fr -> go_typed f) ->
    Forall (Permutation fr) maps ->
    run_history fr awk name args maps = inr (map (fun m => run fr m awk name args) maps).
  Proof.
    intros ER ND Hok HP. unfold Native.run_history. rewrite ER. f_equal.
    apply exec_history_same_map_gen; try assumption. exact I.
  Qed.

  (* every outcome of such a history is a one-shot run on some walk of the map *)
  Lemma history_outcomes fr awk name args maps os o :
    NoDup (map fst fr) -> (forall n f, In (n, f) fr -> go_typed f) ->
    Forall (Permutation fr) maps ->
    run_history fr awk name args maps = inr os -> In o os ->
    resolve_call fr awk name (zlen args) = NOk None /\
    exists m, Permutation fr m /\ o = run fr m awk name args.
  Proof.
    intros ND Hok HP H Hin.
    destruct (resolve_call fr awk name (zlen args)) as [[pe|]|kk] eqn:ER;
      try (unfold Native.run_history in H; rewrite ER in H; discriminate).
    rewrite (every_execute_is_a_fresh_run fr awk name args maps ER ND Hok HP) in H. injection H as <-.
    apply in_map_iff in Hin as (m & <- & Hm). rewrite Forall_forall in HP.
    split; [reflexivity|]. exists m. split; [exact (HP m Hm)|reflexivity].
  Qed.

  (* never a panic, at any Execute of the history *)
  Theorem history_never_panics fr awk name args maps os :
    NoDup (map fst fr) -> (forall n f, In (n, f) fr -> go_typed f) ->
    Forall (Permutation fr) maps ->
    run_history fr awk name args maps = inr os -> forall o k, In o os -> o <> OPanic k.
  Proof.
    intros ND Hok HP H o k Hin.
    destruct (history_outcomes fr awk name args maps os o ND Hok HP H Hin) as (_ & m & P & ->).
    apply run_no_panic; [exact (Permutation_NoDup (Permutation_map fst P) ND)|exact P|].
    exact (entries_perm _ _ _ P Hok).
  Qed.

  (* an entry of another shape is rejected at EVERY Execute, each time with an error naming an
     entry of another shape *)
  Theorem history_rejects_every_time fr awk name args maps os n0 f0 :
    NoDup (map fst fr) -> (forall n f, In (n, f) fr -> go_typed f) ->
    Forall (Permutation fr) maps ->
    In (n0, f0) fr -> acceptable n0 f0 = false ->
    run_history fr awk name args maps = inr os ->
    forall o, In o os -> exists n e f, o = OSetupError n e /\ In (n, f) fr /\ acceptable n f = false.
  Proof.
    intros ND Hok HP Hin0 A H o Hin.
    destruct (history_outcomes fr awk name args maps os o ND Hok HP H Hin) as (ER & m & P & ->).
    destruct (setup_rejects_other_shapes parse_float parse_prefix fmt_float fr m awk name args n0 f0)
      as (n & e & f & E & Hf & Af); try assumption.
    - exact (entries_perm _ _ _ P Hok).
    - exact (Permutation_in _ P Hin0).
    - exists n, e, f. repeat split; try assumption.
      exact (Permutation_in _ (Permutation_sym P) Hf).
  Qed.
End Prims.
