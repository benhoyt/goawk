(* C20 — formatRegex / scanRegex round trip.
   [regex_ok s]: s is a value lexer.scanRegex can return: a sequence of
     - plain bytes other than backslash, NUL, CR, LF  (a slash is plain: it came from \/), and
     - backslash followed by any byte other than slash (the lexer keeps both bytes).
   For every such s, scanning formatRegex(s) gives s back and stops right after the closing slash. *)
From Verif Require Import Lib.Base Model.ExprAst Model.ExprParser Model.Printer.

Fixpoint regex_ok (s : bytes) : bool :=
  match s with
  | [] => true
  | b :: r =>
      if b =? 92 then match r with c :: r' => negb (c =? 47) && regex_ok r' | [] => false end
      else negb (b =? 0) && negb (b =? 13) && negb (b =? 10) && regex_ok r
  end.

Lemma regex_escape_length s : (length s <= length (regex_escape s))%nat.
Proof. induction s as [|b r IH]; cbn [regex_escape length]; [lia|]. destruct (b =? 47); cbn [length]; lia. Qed.

Lemma sr_end F rest acc : scan_regex_loop (S F) (47 :: rest) acc = Some (rev acc, rest).
Proof. reflexivity. Qed.

Lemma sr_esc F c Y acc :
  scan_regex_loop (S F) (92 :: c :: Y) acc = scan_regex_loop F Y (if c =? 47 then c :: acc else c :: 92 :: acc).
Proof. reflexivity. Qed.

Lemma sr_plain F b Y acc :
  (b =? 47) = false -> (b =? 0) = false -> (b =? 13) = false -> (b =? 10) = false -> (b =? 92) = false ->
  scan_regex_loop (S F) (b :: Y) acc = scan_regex_loop F Y (b :: acc).
Proof. intros H47 H0 H13 H10 H92. cbn [scan_regex_loop ch nxt]. rewrite H47, H0, H13, H10, H92. reflexivity. Qed.


(* the three shapes of a value in the lexer's image *)
Lemma regex_ok_ind (P : bytes -> Prop) :
  P [] ->
  (forall c r, (c =? 47) = false -> P r -> P (92 :: c :: r)) ->
  (forall b r, (b =? 92) = false -> (b =? 0) = false -> (b =? 13) = false -> (b =? 10) = false -> P r -> P (b :: r)) ->
  forall s, regex_ok s = true -> P s.
Proof.
  intros Hnil Hesc Hplain. fix IH 1. intros [|b r]; [intros _; exact Hnil|]. cbn [regex_ok].
  destruct (b =? 92) eqn:E92; intros H.
  - apply Z.eqb_eq in E92. subst b. destruct r as [|c r']; [discriminate|].
    apply andb_prop in H as [Hc H]. apply negb_true_iff in Hc. exact (Hesc c r' Hc (IH r' H)).
  - apply andb_prop in H as [H Hr]. apply andb_prop in H as [H H10]. apply andb_prop in H as [H0 H13].
    apply negb_true_iff in H0, H13, H10. exact (Hplain b r E92 H0 H13 H10 (IH r Hr)).
Qed.

(* the escaped text takes at most one iteration per byte *)
Lemma scan_regex_loop_ok : forall s, regex_ok s = true -> forall k rest acc,
  scan_regex_loop (length (regex_escape s) + S k) (regex_escape s ++ 47 :: rest) acc = Some (rev acc ++ s, rest).
Proof.
  refine (regex_ok_ind _ _ _ _).
  - intros k rest acc. cbn [regex_escape length app plus]. rewrite sr_end, app_nil_r. reflexivity.
  - (* backslash + c, c not a slash: both bytes are kept *)
    intros c r Hc IH k rest acc. cbn [regex_escape]. change (92 =? 47) with false. cbn iota. rewrite Hc.
    cbn [length plus app]. rewrite sr_esc, Hc, plus_n_Sm, IH, !rev_cons_app. reflexivity.
  - intros b r H92 H0 H13 H10 IH k rest acc. cbn [regex_escape].
    destruct (b =? 47) eqn:E47; cbn [length plus app].
    + (* a plain slash is written \/ *)
      apply Z.eqb_eq in E47. subst b. rewrite sr_esc, Z.eqb_refl, plus_n_Sm, IH, rev_cons_app. reflexivity.
    + rewrite sr_plain, IH, rev_cons_app by assumption. reflexivity.
Qed.

Lemma regex_roundtrip_from (eq : bool) s rest : regex_ok s = true ->
  scan_regex eq (regex_escape s ++ 47 :: rest) = Some ((if eq then [61] else []) ++ s, rest).
Proof.
  intros Hok. unfold scan_regex. rewrite app_length. cbn [length]. rewrite plus_n_Sm.
  rewrite (scan_regex_loop_ok s Hok). destruct eq; reflexivity.
Qed.

(* after DIV: the text following the opening slash *)
Theorem regex_roundtrip : forall s rest, regex_ok s = true ->
  scan_regex false (regex_escape s ++ 47 :: rest) = Some (s, rest).
Proof. exact (regex_roundtrip_from false). Qed.

(* after DIV_ASSIGN: a regex that begins with = ; the lexer has already consumed /= *)
Theorem regex_roundtrip_eq : forall s rest, regex_ok s = true ->
  scan_regex true (regex_escape s ++ 47 :: rest) = Some (61 :: s, rest).
Proof. exact (regex_roundtrip_from true). Qed.

(* a regex value that is NOT in the lexer's image does not survive: a trailing backslash *)
Example regex_not_ok_fails : scan_regex false (regex_escape [97; 92] ++ [47]) = None.
Proof. vm_compute. reflexivity. Qed.

(* indentation commutes with the slash escaping (Stmts.String() works on the rendered text) *)
Lemma indent_regex_escape s : regex_escape (indent_bytes s) = indent_bytes (regex_escape s).
Proof.
  induction s as [|b r IH]; [reflexivity|]. cbn [indent_bytes regex_escape].
  destruct (b =? 10) eqn:E10.
  - apply Z.eqb_eq in E10. subst b. cbn [regex_escape indent_bytes]. change (10 =? 47) with false.
    change (32 =? 47) with false. cbn iota. cbn [indent_bytes]. change (10 =? 10) with true. cbn iota. rewrite IH. reflexivity.
  - destruct (b =? 47) eqn:E47.
    + apply Z.eqb_eq in E47. subst b. cbn [regex_escape indent_bytes]. change (47 =? 47) with true.
      change (92 =? 10) with false. change (47 =? 10) with false. cbn iota. rewrite IH. reflexivity.
    + cbn [regex_escape indent_bytes]. rewrite E47, E10, IH. reflexivity.
Qed.

Lemma indent_bytes_id s : forallb (fun b => negb (b =? 10)) s = true -> indent_bytes s = s.
Proof.
  induction s as [|b r IH]; [reflexivity|]. cbn [forallb indent_bytes]. intros H.
  apply andb_prop in H as [Hb Hr]. apply negb_true_iff in Hb. rewrite Hb, (IH Hr). reflexivity.
Qed.
