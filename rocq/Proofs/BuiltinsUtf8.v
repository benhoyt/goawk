(* C10, character mode (-c): substr / index / length / match count runes, never cut a valid
   UTF-8 sequence, and agree with byte mode on ASCII text. *)
From Verif Require Import Lib.Base Lib.Dyadic Lib.Utf8 Lib.Regex Model.Builtins Model.BuiltinsRegex
  Proofs.Utf8Facts Proofs.BuiltinsBytes.

Lemma zdrop_cons {A} n (x : A) l : 0 < n -> zdrop n (x :: l) = zdrop (n - 1) l.
Proof. exact (Base.zdrop_cons n x l). Qed.

(* `for start = range s { chars++; if chars > bound { break } }` over chunks cs laid out from
   offset off stops at chunk number j = max 1 (bound - c0 + 1) (1-based) if there is one; both
   callers then replace the result by the end of the text when the loop ran out, and after that
   the answer is uniform: the offset of the end of the first j - 1 chunks *)
Lemma count_loop_patched : forall cs off c0 st bound, (cs = [] -> bound < c0 -> st = off) ->
  let r := count_loop (chunk_starts cs off) c0 st bound in
  (if bound >=? fst r then off + zlen (concat cs) else snd r)
  = off + zlen (concat (ztake (Z.max 1 (bound - c0 + 1) - 1) cs)).
Proof.
  induction cs as [|c cs IH]; intros off c0 st bound H; cbv zeta.
  - cbn [chunk_starts count_loop fst snd]. unfold ztake. rewrite firstn_nil.
    destruct (Z.geb_spec bound c0); [reflexivity|]. rewrite H by (reflexivity || lia). cbn. lia.
  - cbn [chunk_starts count_loop]. rewrite zlen_concat_cons.
    destruct (c0 + 1 >? bound) eqn:E; [apply Z.gtb_lt in E | rewrite Z.gtb_ltb in E; apply Z.ltb_ge in E].
    + cbn [fst snd]. destruct (Z.geb_spec bound (c0 + 1)); [lia|].
      replace (Z.max 1 (bound - c0 + 1) - 1) with 0 by lia. cbn. lia.
    + specialize (IH (off + zlen c) (c0 + 1) off bound ltac:(intros; lia)). cbv zeta in IH.
      rewrite Z.add_assoc, IH, ztake_cons, zlen_concat_cons by lia.
      replace (Z.max 1 (bound - (c0 + 1) + 1) - 1) with (Z.max 1 (bound - c0 + 1) - 1 - 1) by lia. lia.
Qed.

(* the start offset both functions compute *)
Definition chars_start (s : bytes) (pos : Z) : Z :=
  let '(chars, start) := count_loop (range_starts s) 1 0 pos in
  if pos >=? chars then zlen s else start.

Lemma chars_start_spec s pos :
  0 <= chars_start s pos <= zlen s /\
  zdrop (chars_start s pos) s = concat (zdrop (Z.max 1 pos - 1) (runes s)).
Proof.
  assert (E : chars_start s pos = zlen (concat (ztake (Z.max 1 pos - 1) (runes s)))).
  { pose proof (count_loop_patched (runes s) 0 1 0 pos ltac:(reflexivity)) as H. cbv zeta in H.
    unfold chars_start, range_starts. destruct (count_loop (chunk_starts (runes s) 0) 1 0 pos) as [chars start].
    cbn [fst snd] in H. rewrite runes_concat in H. replace (pos - 1 + 1) with pos in H by lia. exact H. }
  rewrite E. pose proof (zlen_concat_ztake_le (runes s) (Z.max 1 pos - 1)) as Hb. rewrite runes_concat in Hb.
  split; [exact Hb|]. rewrite <- (runes_concat s) at 2. apply zdrop_concat_chunks.
Qed.

(* substr(s, m) in character mode, on the converted position *)
Theorem substr_chars_pos_spec s pos :
  substr_chars_pos s pos = Ok (concat (zdrop (Z.max 1 pos - 1) (runes s))).
Proof.
  assert (substr_chars_pos s pos = slice s (chars_start s pos) (zlen s)) as ->.
  { unfold substr_chars_pos, chars_start. destruct (count_loop (range_starts s) 1 0 pos). reflexivity. }
  destruct (chars_start_spec s pos) as [Hb Hd].
  rewrite slice_to_end by lia. rewrite Hd. reflexivity.
Qed.

(* substr(s, m, n) in character mode, on the converted position and length *)
Theorem substr_len_chars_pl_spec s pos len :
  substr_len_chars_pl s pos len =
  Ok (concat (ztake (Z.max 0 len) (zdrop (Z.max 1 pos - 1) (runes s)))).
Proof.
  set (cs2 := zdrop (Z.max 1 pos - 1) (runes s)).
  destruct (chars_start_spec s pos) as [Hb Hd]. fold cs2 in Hd.
  set (start := chars_start s pos) in *.
  assert (substr_len_chars_pl s pos len =
          (do rest <- slice s start (zlen s);
           let '(chars2, e) := count_loop (range_starts rest) 0 0 len in
           let e := if len >=? chars2 then zlen s else e + start in
           slice s start e)) as ->.
  { unfold substr_len_chars_pl, start, chars_start. destruct (count_loop (range_starts s) 1 0 pos). reflexivity. }
  rewrite slice_to_end by lia. cbn [rbind]. rewrite Hd.
  unfold range_starts. replace (runes (concat cs2)) with cs2 by (symmetry; apply runes_zdrop_chunks).
  assert (Hrest : zlen (concat cs2) = zlen s - start) by (rewrite <- Hd; apply zlen_zdrop; lia).
  pose proof (count_loop_patched cs2 0 0 0 len ltac:(reflexivity)) as H. cbv zeta in H.
  destruct (count_loop (chunk_starts cs2 0) 0 0 len) as [chars2 e]. cbn [fst snd] in H.
  replace (Z.max 1 (len - 0 + 1) - 1) with (Z.max 0 len) in H by lia.
  pose proof (zlen_concat_ztake_le cs2 (Z.max 0 len)) as Hb2.
  replace (if len >=? chars2 then zlen s else e + start) with (zlen (concat (ztake (Z.max 0 len) cs2)) + start)
    by (destruct (len >=? chars2); lia).
  rewrite slice_ok, Hd by lia. replace (zlen (concat (ztake (Z.max 0 len) cs2)) + start - start) with (zlen (concat (ztake (Z.max 0 len) cs2))) by lia.
  rewrite ztake_concat_chunks. reflexivity.
Qed.

(* character mode never cuts a valid UTF-8 sequence *)
Lemma valid_utf8_sub s n k :
  valid_utf8 s = true -> valid_utf8 (concat (ztake n (zdrop k (runes s)))) = true.
Proof.
  unfold valid_utf8. intros H. rewrite runes_ztake_zdrop_chunks.
  apply forallb_firstn, forallb_skipn, H.
Qed.

Lemma valid_utf8_suffix s k : valid_utf8 s = true -> valid_utf8 (concat (zdrop k (runes s))) = true.
Proof.
  unfold valid_utf8. intros H. rewrite runes_zdrop_chunks. apply forallb_skipn, H.
Qed.

Theorem substr_chars_safe s x :
  valid_utf8 s = true -> exists r, substr_chars s x = Ok r /\ valid_utf8 r = true.
Proof.
  intros H. unfold substr_chars. rewrite substr_chars_pos_spec. eexists; split; [reflexivity|].
  apply valid_utf8_suffix, H.
Qed.

Theorem substr_len_chars_safe s x y :
  valid_utf8 s = true -> exists r, substr_len_chars s x y = Ok r /\ valid_utf8 r = true.
Proof.
  intros H. unfold substr_len_chars. rewrite substr_len_chars_pl_spec. eexists; split; [reflexivity|].
  apply valid_utf8_sub, H.
Qed.

Lemma zlen_runes_lt s : go_len s -> zlen (runes s) < maxint.
Proof. unfold go_len. pose proof (rune_count_le s). unfold rune_count in *. lia. Qed.

(* positions and lengths count runes: the runes from max(1,trunc m) on, the next trunc n *)
Theorem substr_chars_spec s x tx :
  go_len s -> etrunc x = Some tx -> substr_chars s x = Ok (concat (spec_drop (runes s) tx)).
Proof.
  intros Hl Hx. unfold substr_chars. rewrite substr_chars_pos_spec.
  rewrite (drop_float_to_int (runes s) x tx (zlen_runes_lt s Hl) Hx). reflexivity.
Qed.

Theorem substr_len_chars_spec s x y tx ty :
  go_len s -> etrunc x = Some tx -> etrunc y = Some ty ->
  substr_len_chars s x y = Ok (concat (spec_take (spec_drop (runes s) tx) ty)).
Proof.
  intros Hl Hx Hy. unfold substr_len_chars. rewrite substr_len_chars_pl_spec.
  rewrite (drop_float_to_int (runes s) x tx (zlen_runes_lt s Hl) Hx).
  rewrite (take_float_to_int (spec_drop (runes s) tx) y ty); [reflexivity| |exact Hy].
  pose proof (zlen_runes_lt s Hl). 
  destruct tx; cbn [spec_drop]; [lia|pose proof (zlen_zdrop_le (Z.max 1 z - 1) (runes s)); lia|reflexivity].
Qed.

(* on ASCII text byte mode and character mode agree *)
Theorem ascii_substr s x : is_ascii s = true -> substr_chars s x = substr_bytes s x.
Proof.
  intros H. unfold substr_chars. rewrite substr_chars_pos_spec, substr_bytes_Z, (runes_ascii s H).
  unfold zdrop. rewrite skipn_map, concat_singletons. reflexivity.
Qed.

Theorem ascii_substr_len s x y : is_ascii s = true -> substr_len_chars s x y = substr_len_bytes s x y.
Proof.
  intros H. unfold substr_len_chars. rewrite substr_len_chars_pl_spec, substr_len_bytes_Z, (runes_ascii s H).
  unfold ztake, zdrop. rewrite skipn_map, firstn_map, concat_singletons. reflexivity.
Qed.

Theorem ascii_length s : is_ascii s = true -> builtin_length true s = builtin_length false s.
Proof. intros H. cbn [builtin_length]. apply rune_count_ascii, H. Qed.

Lemma is_ascii_ztake n s : is_ascii s = true -> is_ascii (ztake n s) = true.
Proof. apply forallb_firstn. Qed.

Lemma is_ascii_zdrop n s : is_ascii s = true -> is_ascii (zdrop n s) = true.
Proof. apply forallb_skipn. Qed.

Theorem ascii_index s t : is_ascii s = true -> builtin_index true s t = builtin_index false s t.
Proof.
  intros H. unfold builtin_index, strings_index.
  pose proof (strings_index_from_spec s t 0) as Hs. cbn zeta in Hs.
  set (i := strings_index_from s t 0) in *.
  destruct (i <? 0) eqn:E; [reflexivity|apply Z.ltb_ge in E].
  destruct Hs as [[Hi _]|[Hr _]]; [lia|].
  rewrite slice_ok by lia. cbn [rbind]. rewrite zdrop_0, Z.sub_0_r.
  rewrite rune_count_ascii by (apply is_ascii_ztake, H).
  rewrite zlen_ztake by lia. reflexivity.
Qed.
