(* C17: one native call in a program run through ParseProgram + ExecProgram with the same
   Funcs map: never a panic, rejection of other shapes, the right function, error identity. *)
From Coq Require Import Permutation.
From Verif Require Import Lib.Base Lib.Dyadic Model.Native
  Proofs.NativeIndex Proofs.NativeCheck Proofs.NativeConv Proofs.NativeCall.

(* what Go's type system and reflect guarantee about an entry of the map, nothing more *)
Definition go_typed (f : fval) : Prop :=
  match f with FFunc s b => wf_sig s /\ body_ok s b | _ => True end.

Lemma build_table_ok funcs names :
  (forall n, In n names -> exists s b, lookup n funcs = Some (FFunc s b)) ->
  exists tbl, build_table funcs names = NOk tbl.
Proof.
  induction names as [|y names IH]; intros H; [eexists; reflexivity|].
  cbn [build_table]. destruct (H y (or_introl eq_refl)) as (s & b & ->). cbn [nbind].
  destruct IH as (tl & ->); [intros n Hn; apply H; right; exact Hn|]. cbn [nbind]. eexists; reflexivity.
Qed.

Lemma mem_bytes_in x l : mem_bytes x l = true <-> In x l.
Proof.
  induction l as [|y l IH]; cbn [mem_bytes In]; [split; [discriminate|tauto]|].
  rewrite orb_true_iff, IH, bytes_eqb_eq. split; intros [H|H]; auto.
Qed.

Section Prims.
  Variable parse_float : bytes -> option fnum.
  Variable parse_prefix : bytes -> fnum.
  Variable fmt_float : fnum -> bytes.

  Notation run := (run parse_float parse_prefix fmt_float).
  Notation call_native := (call_native parse_float parse_prefix fmt_float).
  Notation spec_values := (spec_values parse_float parse_prefix fmt_float).

  (* set-up succeeds exactly when every entry is of the documented shape; then the table is built *)
  Lemma init_ok funcs :
    (forall n f, In (n, f) funcs -> go_typed f) ->
    (exists n e f, init_native_funcs funcs = NOk (inl (n, e)) /\ In (n, f) funcs /\ acceptable n f = false) \/
    (exists tbl, init_native_funcs funcs = NOk (inr tbl) /\
                 build_table funcs (sort_names (map fst funcs)) = NOk tbl /\
                 forall n f, In (n, f) funcs -> acceptable n f = true).
  Proof.
    intros H. unfold init_native_funcs.
    destruct (check_all_ok funcs) as (r & Er & Hr).
    { intros n f Hin. specialize (H n f Hin).
      destruct f as [| |s b]; cbn [go_typed wf_fval] in *; tauto. }
    rewrite Er. cbn [nbind]. destruct r as [[n e]|].
    - left. destruct Hr as (f & Hin & A & _). exists n, e, f. repeat split; assumption.
    - right. destruct (build_table_ok funcs (sort_names (map fst funcs))) as (tbl & Et).
      { intros n Hn. apply (Permutation_in _ (Permutation_sym (sort_perm _))) in Hn.
        destruct (lookup n funcs) as [g|] eqn:L; [|exfalso; exact (lookup_none _ _ L Hn)].
        destruct (acceptable_func n g (Hr n g (lookup_in _ _ _ L))) as (s & b & -> & _).
        exists s, b. reflexivity. }
      exists tbl. rewrite Et. cbn [nbind]. repeat split; try assumption.
  Qed.

  (* the resolver's index, used on the interpreter's table, calls the function bound to the name *)
  Lemma call_through_index funcs_r funcs_i name tbl s b args :
    NoDup (map fst funcs_i) -> Permutation funcs_r funcs_i ->
    build_table funcs_i (sort_names (map fst funcs_i)) = NOk tbl ->
    (forall n f, In (n, f) funcs_i -> go_typed f) ->
    (forall n f, In (n, f) funcs_i -> acceptable n f = true) ->
    lookup name funcs_r = Some (FFunc s b) ->
    (variadic s = true \/ zlen args <= zlen (params s)) ->
    exists r, call_native tbl (resolver_index funcs_r name) args = NOk r /\
              returns s (b (spec_values s args)) (spec_values s args) r.
  Proof.
    intros ND P Et Hok Hacc L Har.
    destruct (indexes_agree funcs_r funcs_i name tbl ND P Et (lookup_some_in_names _ _ _ L))
      as (_ & s' & b' & L1 & L2 & Hidx).
    rewrite L in L1. injection L1 as <- <-.
    pose proof (lookup_in _ _ _ L2) as Hin.
    destruct (Hok _ _ Hin) as (W & B).
    destruct (acceptable_func _ _ (Hacc _ _ Hin)) as (s' & b' & [= <- <-] & A).
    exact (valid_sig_no_panic parse_float parse_prefix fmt_float tbl _ s b args Hidx W A B Har).
  Qed.

  (* "never a panic": for every map whose entries are what Go's typing allows (nil and
     non-function values included), both iteration orders, every name, every argument list *)
  Theorem run_no_panic funcs_r funcs_i awk name args :
    NoDup (map fst funcs_i) -> Permutation funcs_r funcs_i ->
    (forall n f, In (n, f) funcs_i -> go_typed f) ->
    forall k, run funcs_r funcs_i awk name args <> OPanic k.
  Proof.
    intros ND P Hok k. unfold Native.run.
    destruct (resolve_call_no_panic funcs_r awk name (zlen args)) as [[pe|] ER]; rewrite ER; [discriminate|].
    destruct (init_ok funcs_i Hok) as [(n & e & f & -> & _)|(tbl & -> & Et & Hacc)]; [discriminate|].
    destruct (mem_bytes name awk) eqn:EA; [discriminate|].
    destruct (resolve_call_passes funcs_r awk name (zlen args) EA ER) as (s & b & L & Har).
    destruct (call_through_index funcs_r funcs_i name tbl s b args ND P Et Hok Hacc L) as (r & -> & _).
    { destruct (variadic s); [left; reflexivity|right; exact Har]. }
    destruct r; discriminate.
  Qed.

  (* the call reaches the function bound to the name (whatever the two iteration orders), with the
     arguments of spec_values; result and error as that function returns them *)
  Theorem run_calls_named_function funcs_r funcs_i awk name args s b :
    NoDup (map fst funcs_i) -> Permutation funcs_r funcs_i ->
    (forall n f, In (n, f) funcs_i -> go_typed f) ->
    (forall n f, In (n, f) funcs_i -> acceptable n f = true) ->
    mem_bytes name awk = false -> lookup name funcs_r = Some (FFunc s b) ->
    (variadic s = true /\ zlen args <= 1000000000 \/ variadic s = false /\ zlen args <= zlen (params s)) ->
    exists r, returns s (b (spec_values s args)) (spec_values s args) r /\
      run funcs_r funcs_i awk name args =
      match r with CValue v recv => OValue v recv | CError id recv => ORunError id recv end.
  Proof.
    intros ND P Hok Hacc EA L Har. unfold Native.run.
    assert (ER : resolve_call funcs_r awk name (zlen args) = NOk None).
    { rewrite (resolve_call_native funcs_r awk name (zlen args) s b EA L).
      destruct Har as [[V H]|[V H]]; rewrite V, (proj2 (Z.ltb_ge _ _) H); reflexivity. }
    rewrite ER.
    destruct (init_ok funcs_i Hok) as [(n & e & f & _ & Hin & A)|(tbl & -> & Et & _)].
    { rewrite (Hacc n f Hin) in A. discriminate. }
    rewrite EA.
    destruct (call_through_index funcs_r funcs_i name tbl s b args ND P Et Hok Hacc L) as (r & Er & Hr).
    { destruct Har as [[V _]|[_ H]]; [left; exact V|right; exact H]. }
    exists r. split; [exact Hr|]. rewrite Er. destruct r; reflexivity.
  Qed.

  (* a non-nil error aborts the run with exactly that error *)
  Theorem run_error_identity funcs_r funcs_i awk name args s b o e id :
    NoDup (map fst funcs_i) -> Permutation funcs_r funcs_i ->
    (forall n f, In (n, f) funcs_i -> go_typed f) ->
    (forall n f, In (n, f) funcs_i -> acceptable n f = true) ->
    mem_bytes name awk = false -> lookup name funcs_r = Some (FFunc s b) ->
    (variadic s = true /\ zlen args <= 1000000000 \/ variadic s = false /\ zlen args <= zlen (params s)) ->
    b (spec_values s args) = [o; e] -> gdat e = DErr id ->
    run funcs_r funcs_i awk name args = ORunError id (spec_values s args).
  Proof.
    intros ND P Hok Hacc EA L Har Hb He.
    destruct (run_calls_named_function funcs_r funcs_i awk name args s b ND P Hok Hacc EA L Har) as (r & Hr & ->).
    rewrite Hb in Hr. inversion Hr as [H|o' v H _|o' e' v H Hn _|o' e' id' H Hid]; try discriminate.
    - injection H as <- <-. congruence.
    - injection H as <- <-. rewrite He in Hid. injection Hid as <-. reflexivity.
  Qed.

  (* ... and with a nil error (or no error result) the converted result is the value *)
  Theorem run_value funcs_r funcs_i awk name args s b :
    NoDup (map fst funcs_i) -> Permutation funcs_r funcs_i ->
    (forall n f, In (n, f) funcs_i -> go_typed f) ->
    (forall n f, In (n, f) funcs_i -> acceptable n f = true) ->
    mem_bytes name awk = false -> lookup name funcs_r = Some (FFunc s b) ->
    (variadic s = true /\ zlen args <= 1000000000 \/ variadic s = false /\ zlen args <= zlen (params s)) ->
    (forall o e, b (spec_values s args) = [o; e] -> gdat e = DErrNil) ->
    exists v, run funcs_r funcs_i awk name args = OValue v (spec_values s args) /\
      match b (spec_values s args) with
      | [] => v = VNull
      | o :: _ => from_native o = NOk v
      end.
  Proof.
    intros ND P Hok Hacc EA L Har Hnil.
    destruct (run_calls_named_function funcs_r funcs_i awk name args s b ND P Hok Hacc EA L Har) as (r & Hr & ->).
    inversion Hr as [H|o v H Hv|o e v H Hn Hv|o e id H Hid].
    - exists VNull. rewrite H. split; reflexivity.
    - exists v. rewrite H. split; [reflexivity|exact Hv].
    - exists v. rewrite H. split; [reflexivity|exact Hv].
    - rewrite (Hnil o e H) in Hid. discriminate.
  Qed.

  (* once the call has passed the parser, set-up rejects a map that holds an entry of another shape *)
  Lemma setup_rejects_other_shapes funcs_r funcs_i awk name args n0 f0 :
    (forall n f, In (n, f) funcs_i -> go_typed f) ->
    In (n0, f0) funcs_i -> acceptable n0 f0 = false ->
    resolve_call funcs_r awk name (zlen args) = NOk None ->
    exists n e f, run funcs_r funcs_i awk name args = OSetupError n e /\ In (n, f) funcs_i /\ acceptable n f = false.
  Proof.
    intros Hok Hin A ER. unfold Native.run. rewrite ER.
    destruct (init_ok funcs_i Hok) as [(n & e & f & -> & Hin' & A')|(tbl & _ & _ & Hacc)].
    - exists n, e, f. repeat split; assumption.
    - rewrite (Hacc n0 f0 Hin) in A. discriminate.
  Qed.

  (* functions of any other shape (nil and non-function values included), or named like a
     keyword: the run ends in a parse error or in a set-up error naming such an entry *)
  Theorem run_rejects_other_shapes funcs_r funcs_i awk name args n0 f0 :
    (forall n f, In (n, f) funcs_i -> go_typed f) ->
    In (n0, f0) funcs_i -> acceptable n0 f0 = false ->
    (exists pe, run funcs_r funcs_i awk name args = OParseError pe) \/
    (exists n e f, run funcs_r funcs_i awk name args = OSetupError n e /\ In (n, f) funcs_i /\ acceptable n f = false).
  Proof.
    intros Hok Hin A.
    destruct (resolve_call_no_panic funcs_r awk name (zlen args)) as [[pe|] ER].
    - left. exists pe. unfold Native.run. rewrite ER. reflexivity.
    - right. exact (setup_rejects_other_shapes funcs_r funcs_i awk name args n0 f0 Hok Hin A ER).
  Qed.

  (* calling a map entry that is not a function: a parse error *)
  Theorem run_not_a_function funcs_r funcs_i awk name args f :
    mem_bytes name awk = false -> lookup name funcs_r = Some f -> (forall s b, f <> FFunc s b) ->
    run funcs_r funcs_i awk name args = OParseError PNotFunc.
  Proof.
    intros EA L H. unfold Native.run.
    rewrite (not_a_function_is_parse_error funcs_r awk name (zlen args) f EA L H). reflexivity.
  Qed.

  (* too many arguments to a non-variadic function: a parse error, before anything runs *)
  Theorem run_too_many_args funcs_r funcs_i awk name args s b :
    mem_bytes name awk = false -> lookup name funcs_r = Some (FFunc s b) ->
    variadic s = false -> zlen (params s) < zlen args ->
    run funcs_r funcs_i awk name args = OParseError PTooMany.
  Proof.
    intros EA L V H. unfold Native.run.
    rewrite (too_many_args_is_parse_error funcs_r awk name s b (zlen args) EA L V H). reflexivity.
  Qed.
End Prims.
