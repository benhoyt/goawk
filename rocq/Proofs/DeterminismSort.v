(* C19 (and the name-order oracle of C16): sort.Strings is canonical: the sorted list depends only on the multiset
   of names, not on the order in which Go's map iteration delivered them. *)
From Verif Require Import Lib.Base Model.Resolver Proofs.Resolver Proofs.ResolverNoPanic.
From Coq Require Import Permutation.
Open Scope Z_scope.

Lemma name_leb_refl a : name_leb a a = true.
Proof.
  induction a as [|x a IH]; cbn [name_leb]; [reflexivity|].
  rewrite Z.ltb_irrefl. exact IH.
Qed.

Lemma name_leb_total a b : name_leb a b = false -> name_leb b a = true.
Proof.
  revert b. induction a as [|x a IH]; intros [|y b]; cbn [name_leb]; intros H; try congruence.
  destruct (x <? y) eqn:E1; [discriminate|]. destruct (y <? x) eqn:E2; [reflexivity|]. apply IH. exact H.
Qed.

Lemma name_leb_antisym a b : name_leb a b = true -> name_leb b a = true -> a = b.
Proof.
  revert b. induction a as [|x a IH]; intros [|y b]; cbn [name_leb]; intros H1 H2; try congruence.
  destruct (x <? y) eqn:E1; destruct (y <? x) eqn:E2; try discriminate.
  - apply Z.ltb_lt in E1, E2. lia.
  - apply Z.ltb_ge in E1, E2. assert (x = y) by lia. subst y. f_equal. apply IH; assumption.
Qed.

Lemma name_leb_trans a b c : name_leb a b = true -> name_leb b c = true -> name_leb a c = true.
Proof.
  revert b c. induction a as [|x a IH]; intros [|y b] [|z c]; cbn [name_leb]; intros H1 H2; try congruence.
  destruct (x <? y) eqn:E1.
  - apply Z.ltb_lt in E1. destruct (y <? z) eqn:E2.
    + apply Z.ltb_lt in E2. assert (Hx : x <? z = true) by (apply Z.ltb_lt; lia). rewrite Hx. reflexivity.
    + destruct (z <? y) eqn:E3; [discriminate|]. apply Z.ltb_ge in E2, E3.
      assert (Hx : x <? z = true) by (apply Z.ltb_lt; lia). rewrite Hx. reflexivity.
  - destruct (y <? x) eqn:E1'; [discriminate|]. apply Z.ltb_ge in E1, E1'. assert (x = y) by lia. subst y.
    destruct (x <? z) eqn:E2; [reflexivity|]. destruct (z <? x) eqn:E3; [discriminate|].
    eapply IH; eassumption.
Qed.

Inductive sorted : list name -> Prop :=
| sorted_nil : sorted []
| sorted_cons x l : (forall y, In y l -> name_leb x y = true) -> sorted l -> sorted (x :: l).

Lemma insert_name_sorted x l : sorted l -> sorted (insert_name x l).
Proof.
  induction 1 as [|y l Hy Hs IH]; cbn [insert_name].
  - constructor; [intros y [] | constructor].
  - destruct (name_leb x y) eqn:E.
    + constructor; [|constructor; assumption].
      intros z [<-|Hz]; [exact E|]. eapply name_leb_trans; [exact E | apply Hy; exact Hz].
    + constructor; [|exact IH].
      intros z Hz. apply In_insert_name in Hz.
      destruct Hz as [->|Hz]; [apply name_leb_total; exact E | apply Hy; exact Hz].
Qed.

Lemma sort_names_sorted l : sorted (sort_names l).
Proof.
  induction l as [|x l IH]; cbn [sort_names fold_right]; [constructor|].
  apply insert_name_sorted. exact IH.
Qed.

Lemma insert_name_perm x l : Permutation (insert_name x l) (x :: l).
Proof.
  induction l as [|y l IH]; cbn [insert_name]; [apply Permutation_refl|].
  destruct (name_leb x y); [apply Permutation_refl|].
  eapply Permutation_trans; [apply perm_skip; exact IH | apply perm_swap].
Qed.

Lemma sort_names_perm l : Permutation (sort_names l) l.
Proof.
  induction l as [|x l IH]; cbn [sort_names fold_right]; [apply Permutation_refl|].
  eapply Permutation_trans; [apply insert_name_perm | apply perm_skip; exact IH].
Qed.

Lemma sorted_unique l : forall l', sorted l -> sorted l' -> Permutation l l' -> l = l'.
Proof.
  induction l as [|x l IH]; intros l' Hs Hs' Hp.
  - apply Permutation_nil in Hp. congruence.
  - destruct l' as [|y l']; [apply Permutation_sym, Permutation_nil in Hp; discriminate|].
    inversion Hs as [|x0 l0 Hx Hsl]; subst. inversion Hs' as [|y0 l0' Hy Hsl']; subst.
    assert (Hxy : x = y).
    { assert (H1 : In y (x :: l)) by (eapply Permutation_in; [apply Permutation_sym; exact Hp | left; reflexivity]).
      assert (H2 : In x (y :: l')) by (eapply Permutation_in; [exact Hp | left; reflexivity]).
      destruct H1 as [H1|H1]; [exact H1|]. destruct H2 as [H2|H2]; [congruence|].
      apply name_leb_antisym; [apply Hx; exact H1 | apply Hy; exact H2]. }
    subst y. f_equal. apply IH; [exact Hsl | exact Hsl'|]. eapply Permutation_cons_inv. exact Hp.
Qed.

(* sort.Strings of the keys of a map: whatever order the keys came in *)
Theorem sort_names_canonical l l' : Permutation l l' -> sort_names l = sort_names l'.
Proof.
  intros Hp. apply sorted_unique; [apply sort_names_sorted | apply sort_names_sorted|].
  eapply Permutation_trans; [apply sort_names_perm|].
  eapply Permutation_trans; [exact Hp | apply Permutation_sym, sort_names_perm].
Qed.
