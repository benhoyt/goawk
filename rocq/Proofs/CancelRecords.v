(* C15: the record loop of execActions under a cancelled context.

   The loop `for { if p.checkCtx { p.checkContext() } line, err := p.nextLine() ... }` polls the
   shared counter once per record, exactly as the dispatch loop does once per instruction: a
   record is one more step of the counter.  Every iteration therefore advances the clock, and
   under a cancelled context the loop returns within the step budget whatever the rules are
   (none at all, or a body that compiled to no opcode) and however long the input is
   ([exec_actions_returns]); so does ExecuteContext as a whole ([execute_all_returns]). *)
From Verif Require Import Lib.Base Model.Ast Model.Instr Model.Compiler Model.Prims Model.VM Model.Cancel
  Proofs.CodeAt Proofs.VMLemmas Proofs.Cancel Proofs.CancelPrompt Proofs.CancelProgram Gen.Consts.

Section CancelRecords.
  Variables value St err : Type.
  Variable P : prims value St err.
  Variable F : list cfunc.
  Variable cancel_req : St -> bool.
  Variable IO : ioprims value St err.

  (* budget left *)
  Definition left (t : Z) (cs : cstate) : Z := t + checkContextOps - 1 - clock cs.

  Theorem exec_actions_returns f : forall n acts inr stk m cs t x cs',
    Inv cs -> done_at cs = Some t -> left t cs < Z.of_nat n -> left t cs < Z.of_nat f ->
    exec_actions P F cancel_req IO n f acts inr stk m cs = (x, cs') -> x <> CRes VFuel.
  Proof.
    intros n acts inr stk m cs t x cs' HI Hd Hn Hf H.
    eapply post_returns; [eapply exec_actions_inv; eassumption|exact Hd|unfold left in *; lia].
  Qed.

  (* ExecuteContext with a context cancelled at t returns: BEGIN, the record loop and END all end
     within the step budget (fuel is only the evaluator's recursion bound) *)
  Theorem execute_all_returns fuel cp m0 t x fin cs' :
    0 <= t -> t + checkContextOps - 1 < Z.of_nat fuel ->
    execute_all P F cancel_req IO fuel cp m0 (cs_execute_context true (Some t)) = (x, fin, cs') -> x <> RFuel.
  Proof.
    intros Ht Hfuel H Hx.
    destruct (execute_all_inv value St err P F cancel_req IO _ _ _ _ _ _ _ (Inv_init_at t Ht) H) as ((Hp & _) & (_ & Hd & _) & Hf).
    specialize (Hp t (Hd t eq_refl)). specialize (Hf Hx). cbn [clock cs_execute_context] in Hf. lia.
  Qed.

End CancelRecords.
