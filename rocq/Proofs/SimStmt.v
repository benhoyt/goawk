(* C01: simulation, statements and loops.  [spost] is to statement outcomes what [post] is to
   expression results; break and continue land at the offsets the loop context names. *)
From Verif Require Import Lib.Base Lib.Dyadic Model.Ast Model.Instr Model.Compiler Model.Prims Model.VM Model.AstSem
  Proofs.CodeAt Proofs.VMLemmas Proofs.Reach Proofs.PrimsOk Proofs.CompLemmas Proofs.SimDefs Proofs.SimExpr
  Proofs.AstSemEq.

Section SimStmt.
  Variables value St err : Type.
  Variable P : prims value St err.
  Variable FN : list func.
  Hypothesis OK : prims_ok P.
  Hypothesis CI : concat_indep P.

  Notation F := (F FN).
  Notation reaches := (reaches P F).
  Notation stops := (stops P F).
  Notation Sim := (Sim P FN).
  Notation mstate := (mstate value St).
  Notation run := (run P F).
  Notation vm_forin := (vm_forin P F).

  (* outcome of a statement as seen from the VM: current stack s, statement-entry stack base *)
  Definition spost (l : lctx) (C : code) (p : Z) (s : list value) (m : mstate) (e_ : Z) (base : list value)
             (r : xres value St err) : Prop :=
    match r with
    | RNormal m' => reaches C p s m e_ base m'
    | RBreak m' =>
        match l with
        | LLoop bd _ => reaches C p s m (e_ + bd) base m'
        | LForIn _ => stops C p s m (VBrk base m')
        | LNone => True
        end
    | RContinue m' =>
        match l with
        | LLoop _ cd | LForIn cd => reaches C p s m (e_ + cd) base m'
        | LNone => True
        end
    | RReturn v m' => stops C p s m (VRet v base m')
    | RAbort x m' => stops C p s m (VAbort x m')
    | _ => True
    end.

  Lemma spost_reaches l C p s m p1 s1 m1 e_ base r :
    reaches C p s m p1 s1 m1 -> spost l C p1 s1 m1 e_ base r -> spost l C p s m e_ base r.
  Proof.
    intros Hr Hp.
    destruct r as [m'|m'|m'|v m'|x m'| |]; cbn [spost] in *; try exact I;
      try (eapply reaches_trans; eassumption);
      try (eapply reaches_stops; [eassumption|eassumption|discriminate]).
    - destruct l; try exact I; [eapply reaches_stops; [eassumption|eassumption|discriminate]|eapply reaches_trans; eassumption].
    - destruct l; try exact I; eapply reaches_trans; eassumption.
  Qed.

  Lemma spost_pos l C p p' s m e_ base r : p' = p -> spost l C p s m e_ base r -> spost l C p' s m e_ base r.
  Proof. intros ->. exact (fun x => x). Qed.
  Lemma spost_end l C p s m e_ e' base r : e_ = e' -> spost l C p s m e_ base r -> spost l C p s m e' base r.
  Proof. intros ->. exact (fun x => x). Qed.

  Lemma spost_of_post l C p s m e_ base (r : eres value St err value) (K : value -> mstate -> xres value St err) p1 :
    post P FN C p s m p1 base r ->
    (forall v m', spost l C p1 (v :: base) m' e_ base (K v m')) ->
    spost l C p s m e_ base (sbind r K).
  Proof.
    intros Hp HK. destruct r as [v m'|x m'| |]; cbn [sbind post] in *; try exact I.
    - eapply spost_reaches; [exact Hp|apply HK].
    - exact Hp.
  Qed.

  Lemma spost_same l C p s m e_ base r : spost l C p s m e_ base r ->
    spost l C p s m e_ base (match r with RNormal m1 => RNormal m1 | other => other end).
  Proof. destruct r; exact (fun x => x). Qed.

  Lemma spost_no_loop l C p s m e_ base r :
    match r with RBreak _ | RContinue _ => False | _ => True end ->
    spost LNone C p s m e_ base r -> spost l C p s m e_ base r.
  Proof. destruct r; try contradiction; exact (fun _ H => H). Qed.

  Lemma spost_sbind l {A} C p s m e_ base (r : eres value St err A) K :
    match r with
    | ENormal a m1 => spost l C p s m e_ base (K a m1)
    | EAbort x m1 => stops C p s m (VAbort x m1)
    | _ => True
    end -> spost l C p s m e_ base (sbind r K).
  Proof. destruct r; exact (fun H => H). Qed.

  Definition xo (l : lctx) : outcome P FN :=
    {| o_post := spost l; o_bind := fun A => @sbind value St err A;
       o_reaches := spost_reaches l; o_bind_intro := @spost_sbind l |}.

  Notation spostc l := (fragc (xo l)).

  Lemma spostc_nil l C p base m : spostc l C p [] base m base (RNormal m).
  Proof. intros _. cbn [csize]. rewrite Z.add_0_r. apply reaches_refl. Qed.

  (* a condition with its jump, then either continuation *)
  Lemma spost_cond l n (SC : SimCond P FN n) e inv off m C p s e_ base K :
    code_at C p (comp_cond e inv off) ->
    (forall v m1, spost l C (if xorb (p_to_bool P v) inv then p + csize (comp_cond e inv off) + off
                             else p + csize (comp_cond e inv off)) s m1 e_ base (K v m1)) ->
    spost l C p s m e_ base (sbind (eval P FN n e m) K).
  Proof.
    intros Hc HK. pose proof (SC e inv off m C p s Hc) as H.
    destruct (eval P FN n e m) as [v m1|x m1| |]; cbn [sbind]; try exact I; [|exact H].
    eapply spost_reaches; [exact H|apply HK].
  Qed.

  Lemma sbind_ebind {A B} (r : eres value St err A) (K : A -> mstate -> eres value St err B) K' :
    sbind (ebind r K) K' = sbind r (fun a m => sbind (K a m) K').
  Proof. destruct r; reflexivity. Qed.

  Notation SimStmt := (SimStmt P FN).
  Notation SimStmts := (SimStmts P FN).

  (* the instruction at Hc ends the run *)
  Ltac stop_at Hc := cbn [spost]; apply stops_step; erewrite step_at by exact Hc; reflexivity.

  (* value of x++ / x-- / ++x / --x as computed by the expression path = what Incr* stores *)
  Lemma incr_pre decr old : p_arith P (incr_arith decr) old (p_num P one_bits) = EOk (p_incr P (incr_amount decr) old).
  Proof. destruct decr; cbn [incr_arith incr_amount]; [apply (ok_incr_sub OK)|apply (ok_incr_add OK)]. Qed.
  Lemma incr_post decr old :
    p_arith P (incr_arith decr) (p_plus P old) (p_num P one_bits) = EOk (p_incr P (incr_amount decr) old).
  Proof. rewrite incr_pre, (ok_incr_plus OK). reflexivity. Qed.

  Lemma var_aug_exec sc op i rv s m :
    exec_simple P (var_aug sc op i) (rv :: s) m =
    match var_read P m sc i with
    | Some (m', v) => match p_aug P op v rv with
                      | EOk nv => lift_w s (var_write P m' sc i nv)
                      | EErr e => SErr e m'
                      end
    | None => SStuck
    end.
  Proof.
    destruct sc; cbn [var_aug exec_simple var_read]; try reflexivity.
    - destruct (frame_get m i); reflexivity.
    - destruct (p_get_special P (ms m) i); reflexivity.
  Qed.

  Lemma var_incr_exec sc amt i s m :
    exec_simple P (var_incr sc amt i) s m =
    match var_read P m sc i with
    | Some (m', v) => lift_w s (var_write P m' sc i (p_incr P amt v))
    | None => SStuck
    end.
  Proof.
    destruct sc; cbn [var_incr exec_simple var_read]; try reflexivity.
    - destruct (frame_get m i); reflexivity.
    - destruct (p_get_special P (ms m) i); reflexivity.
  Qed.

  Lemma aug_instr_simple lv op : is_control (aug_instr lv op) = false.
  Proof. destruct lv as [[| |] ?| |]; reflexivity. Qed.
  Lemma incr_instr_simple lv amt : is_control (incr_instr lv amt) = false.
  Proof. destruct lv as [[| |] ?| |]; reflexivity. Qed.

  (* x op= e in statement position: one opcode reads, computes and stores *)
  Lemma does_aug lv r r' op rv s m :
    lref_rel P lv r r' ->
    does P (aug_instr lv op) (ref_stack r' (rv :: s)) m (fun _ => s)
      (ebind (lref_read P m r) (fun old m3 =>
       ebind (of_pure_er m3 (p_arith P op old rv)) (fun nv m4 => lref_write P nv m4 r nv))).
  Proof.
    destruct 1 as [sc i|e idx|sc i es k k' Hk]; cbn [aug_instr ref_stack lref_read].
    - pose proof (var_aug_exec sc op i rv s m) as He.
      destruct (var_read P m sc i) as [[m' old]|]; [|exact I]. cbn [ebind]. rewrite <- (ok_aug OK).
      destruct (p_aug P op old rv) as [nv|e0]; [|exact He]. cbn [of_pure_er ebind lref_write].
      destruct (var_write P m' sc i nv); [exact He|exact He|exact I].
    - destruct (p_get_field P (ms m) idx) as [s0 old] eqn:Eg. cbn [ebind]. rewrite <- (ok_aug OK).
      destruct (p_aug P op old rv) as [nv|e0] eqn:Ea; cbn [of_pure_er ebind lref_write ms with_ms].
      + destruct (p_set_field P s0 idx nv) as [s1 [u|e0]] eqn:Es; cbn [does exec_simple]; rewrite Eg, Ea, Es; reflexivity.
      + cbn [does exec_simple]. rewrite Eg, Ea. reflexivity.
    - destruct Hk as (Hget & Hset & _). rewrite (Hget (ms m) sc i).
      destruct (p_array_get P (ms m) sc i k') as [s0 old] eqn:Eg. cbn [ebind]. rewrite <- (ok_aug OK).
      destruct (p_aug P op old rv) as [nv|e0] eqn:Ea; cbn [of_pure_er ebind lref_write ms with_ms does exec_simple];
        rewrite Eg, Ea, ?(Hset s0 sc i); reflexivity.
  Qed.

  Lemma does_incr lv r r' decr (pre : bool) s m :
    lref_rel P lv r r' ->
    does P (incr_instr lv (incr_amount decr)) (ref_stack r' s) m (fun _ => s)
      (ebind (lref_read P m r) (fun old m2 =>
         if pre then
           ebind (of_pure_er m2 (p_arith P (incr_arith decr) old (p_num P one_bits))) (fun nv m3 => lref_write P nv m3 r nv)
         else
           ebind (of_pure_er m2 (p_arith P (incr_arith decr) (p_plus P old) (p_num P one_bits)))
                 (fun nv m3 => lref_write P (p_plus P old) m3 r nv))).
  Proof.
    destruct 1 as [sc i|e idx|sc i es k k' Hk]; cbn [incr_instr ref_stack lref_read].
    - pose proof (var_incr_exec sc (incr_amount decr) i s m) as He.
      destruct (var_read P m sc i) as [[m' old]|]; [|exact I]. cbn [ebind].
      destruct pre; [rewrite incr_pre|rewrite incr_post]; cbn [of_pure_er ebind lref_write];
        (destruct (var_write P m' sc i (p_incr P (incr_amount decr) old)); [exact He|exact He|exact I]).
    - destruct (p_get_field P (ms m) idx) as [s0 old] eqn:Eg. cbn [ebind].
      destruct pre; [rewrite incr_pre|rewrite incr_post]; cbn [of_pure_er ebind lref_write ms with_ms];
        (destruct (p_set_field P s0 idx (p_incr P (incr_amount decr) old)) as [s1 [u|e0]] eqn:Es;
         cbn [does exec_simple]; rewrite Eg, Es; reflexivity).
    - destruct Hk as (Hget & Hset & _). rewrite (Hget (ms m) sc i).
      destruct (p_array_get P (ms m) sc i k') as [s0 old] eqn:Eg. cbn [ebind].
      destruct pre; [rewrite incr_pre|rewrite incr_post];
        cbn [of_pure_er ebind lref_write ms with_ms does exec_simple]; rewrite Eg, (Hset s0 sc i); reflexivity.
  Qed.

  (* expression statements, with the three shortcuts *)
  Lemma sim_expr_stmt n (HS : forall k, (k <= n)%nat -> Sim k) l e m C p stk :
    spostc l C p (comp_expr_stmt e) stk m stk (sbind (eval P FN n e m) (fun _ m1 => RNormal m1)).
  Proof.
    assert (Hgen : spostc l C p (comp_expr e ++ [IDrop]) stk m stk (sbind (eval P FN n e m) (fun _ m1 => RNormal m1))).
    { destruct (HS n (Nat.le_refl n)) as (SE & _).
      eapply (bind_expr (xo l)); [exact SE|intros v m1]. eapply frag_instr; [reflexivity|reflexivity|]. apply spostc_nil. }
    destruct e; try exact Hgen; clear Hgen;
      (destruct n as [|n']; [exact (fun _ => I)|]); destruct (HS n' (Nat.le_succ_diag_r n')) as (SE & _ & _ & _ & SL & _).
    - (* x = e *)
      rewrite comp_stmt_assign, eval_assign, !sbind_ebind.
      eapply (bind_expr (xo l)); [exact SE|intros v m1]. rewrite sbind_ebind.
      eapply (bind_lref (xo l)); [exact SL|intros r r' m2 Hrel].
      eapply (frag_does (xo l)); [apply set_instr_simple|exact (does_set lv r r' v v stk m2 Hrel)|intros u m3; apply spostc_nil].
    - (* x op= e *)
      rewrite comp_stmt_aug, eval_augassign, !sbind_ebind.
      eapply (bind_expr (xo l)); [exact SE|intros rv m1]. rewrite sbind_ebind.
      eapply (bind_lref (xo l)); [exact SL|intros r r' m2 Hrel].
      eapply (frag_does (xo l)); [apply aug_instr_simple|exact (does_aug lv r r' op rv stk m2 Hrel)|intros u m3; apply spostc_nil].
    - (* x++ and friends *)
      rewrite comp_stmt_incr, eval_incr, !sbind_ebind.
      eapply (bind_lref (xo l)); [exact SL|intros r r' m2 Hrel].
      eapply (frag_does (xo l)); [apply incr_instr_simple|exact (does_incr lv r r' decr pre stk m2 Hrel)|intros u m3; apply spostc_nil].
  Qed.

  Lemma inl_shift l d : inl (shift l d) = inl l.
  Proof. destruct l; reflexivity. Qed.

  (* a statement compiled with the context shifted by d, followed by d more words *)
  Lemma spost_seq l d C p s m e1 e_ base r (K : mstate -> xres value St err) :
    e_ = e1 + d ->
    spost (shift l d) C p s m e1 base r ->
    (forall m', spost l C e1 base m' e_ base (K m')) ->
    spost l C p s m e_ base (match r with RNormal m1 => K m1 | other => other end).
  Proof.
    intros -> Hp HK.
    destruct r as [m'|m'|m'|v m'|x m'| |]; cbn [spost] in *; try exact I; try exact Hp.
    - eapply spost_reaches; [exact Hp|apply HK].
    - destruct l; cbn [shift] in *; try exact I; [exact Hp|]. eapply reaches_cast; [exact Hp|lia].
    - destruct l; cbn [shift] in *; try exact I; eapply reaches_cast; try exact Hp; lia.
  Qed.

  Lemma spost_same_shift l d C p s m e1 e_ base r :
    e_ = e1 + d -> spost (shift l d) C p s m e1 base r ->
    (forall m', reaches C e1 base m' e_ base m') -> spost l C p s m e_ base r.
  Proof.
    intros He Hp HK. pose proof (spost_seq l d C p s m e1 e_ base r (fun m' => RNormal m') He Hp HK) as H.
    destruct r; exact H.
  Qed.

  (* what the rest of a for-in loop does, as seen from a VM loop over the same keys *)
  Definition forin_post C cb ipa vsc vi ks stk m (r : xres value St err) : Prop :=
    match r with
    | RNormal m' => forall k r, run k C ipa stk m' = r -> final r ->
                      exists k', vm_forin k' C cb ipa vsc vi ks stk m = r
    | RReturn v m' => exists k', vm_forin k' C cb ipa vsc vi ks stk m = VRet v stk m'
    | RAbort x m' => exists k', vm_forin k' C cb ipa vsc vi ks stk m = VAbort x m'
    | _ => True
    end.

  (* the body of an iteration ran to its end (or to a continue); the remaining keys follow *)
  Lemma forin_post_next C cb ipa vsc vi key ks stk m m1 m2 kb r :
    var_write P m vsc vi key = WOk m1 -> run kb cb 0 stk m1 = VDone stk m2 ->
    forin_post C cb ipa vsc vi ks stk m2 r -> forin_post C cb ipa vsc vi (key :: ks) stk m r.
  Proof.
    intros Hw Hkb H.
    assert (Hk : forall k1 r1, vm_forin k1 C cb ipa vsc vi ks stk m2 = r1 -> r1 <> VFuel ->
              exists k', vm_forin k' C cb ipa vsc vi (key :: ks) stk m = r1).
    { intros k1 r1 Hk1 Hf. exists (Nat.max kb k1). cbn [vm_forin].
      rewrite Hw, (run_max_l kb k1 Hkb) by discriminate.
      rewrite <- Hk1 in Hf |- *. apply vm_forin_extends; [apply run_extends, Nat.le_max_r|exact Hf]. }
    destruct r as [m'|m'|m'|v m'|x m'| |]; cbn [forin_post] in *; try exact I.
    - intros k r Hr Hf. destruct (H k r Hr Hf) as [k1 Hk1]. exact (Hk k1 r Hk1 Hf).
    - destruct H as [k1 Hk1]. apply (Hk k1 _ Hk1). discriminate.
    - destruct H as [k1 Hk1]. apply (Hk k1 _ Hk1). discriminate.
  Qed.

  Lemma forin_sim n (SSs : SimStmts n) C ipa vsc vi body stk : forall ks m,
    forin_post C (comp_stmts (LForIn 0) body) ipa vsc vi ks stk m (forin_ast P FN n vsc vi body ks m).
  Proof.
    set (cb := comp_stmts (LForIn 0) body).
    induction ks as [|key ks IH]; intros m; cbn [forin_ast].
    - intros k r Hr _. exists k. exact Hr.
    - destruct (var_write P m vsc vi key) as [m1|e m1|] eqn:Hw; [| |exact I].
      2:{ exists 0%nat. cbn [vm_forin]. rewrite Hw. reflexivity. }
      pose proof (SSs body (LForIn 0) m1 cb 0 stk (code_at_whole cb)) as Hb. unfold stmt_post in Hb. cbn [inl] in Hb. fold cb in Hb.
      assert (Hdone : forall m2, reaches cb 0 stk m1 (0 + csize cb) stk m2 ->
                forin_post C cb ipa vsc vi (key :: ks) stk m (forin_ast P FN n vsc vi body ks m2)).
      { intros m2 Hr. assert (Hend : stops cb 0 stk m1 (VDone stk m2)) by (eapply reaches_end; [exact Hr|lia]).
        destruct Hend as [kb Hkb].
        exact (forin_post_next _ _ _ _ _ _ _ _ _ _ _ _ _ Hw Hkb (IH m2)). }
      destruct (exec_stmts P FN n true body m1) as [m2|m2|m2|v m2|x m2| |]; try exact I.
      + apply Hdone. exact Hb.
      + (* break *)
        destruct Hb as [kb Hkb]. intros k r Hr Hf. exists (Nat.max kb k). cbn [vm_forin].
        rewrite Hw, (run_max_l kb k Hkb) by discriminate. apply run_max_r; assumption.
      + apply Hdone. eapply reaches_cast; [exact Hb|lia].
      + destruct Hb as [kb Hkb]. exists kb. cbn [vm_forin]. rewrite Hw, Hkb. reflexivity.
      + destruct Hb as [kb Hkb]. exists kb. cbn [vm_forin]. rewrite Hw, Hkb. reflexivity.
  Qed.

  Notation SimLoop := (SimLoop P FN).
  Notation SimLoopTop := (SimLoopTop P FN).

  (* the optional init / increment statement of a for loop, then the rest *)
  Lemma sim_ostmt n (SSt : SimStmt n) l o m C p stk rest e_ (K : mstate -> xres value St err) :
    code_at C p (ostmt_code o ++ rest) ->
    (forall m1, spost l C (p + csize (ostmt_code o)) stk m1 e_ stk (K m1)) ->
    spost l C p stk m e_ stk
      (match exec_ostmt P FN n o m with
       | RNormal m1 => K m1
       | RBreak _ | RContinue _ => RWrong
       | other => other
       end).
  Proof.
    intros Hc HK. destruct o as [|s1]; cbn [exec_ostmt ostmt_code] in *.
    - specialize (HK m). cbn [csize] in HK. rewrite Z.add_0_r in HK. exact HK.
    - pose proof (SSt s1 LNone m C p stk (code_at_app_l _ _ _ _ Hc)) as H1. unfold stmt_post in H1. cbn [inl] in H1.
      destruct (exec P FN n false s1 m) as [m1|m1|m1|v m1|x m1| |]; try exact I; try exact H1.
      eapply spost_reaches; [exact H1|apply HK].
  Qed.

  Lemma sim_test n (SC : SimCond P FN n) c inv off m C p stk :
    code_at C p (test_code c inv off) ->
    match test_cond P FN n c m with
    | ENormal go m1 =>
        let e_ := p + csize (test_code c inv off) in
        reaches C p stk m (if xorb go inv then e_ + off else e_) stk m1
    | EAbort x m1 => stops C p stk m (VAbort x m1)
    | _ => True
    end.
  Proof.
    intros Hc. destruct c as [|ce]; cbn [test_cond test_code] in *.
    - destruct inv; cbn [xorb csize].
      + eapply reaches_cast; [apply reaches_refl|lia].
      + eapply reaches_cast; [exact (reaches_jump stk m Hc)|cbn [isize]; lia].
    - pose proof (SC ce inv off m C p stk Hc) as H.
      destruct (eval P FN n ce m) as [v m1|x m1| |]; exact H.
  Qed.

  (* one iteration of a while / for / do-while loop: body at pb, then the increment, arriving
     at the bottom test *)
  Lemma loop_iter n (HSn : Sim n) l post body m1 C pb stk tail rest (K : mstate -> xres value St err) pend :
    let body_sz := csize (comp_stmts (LLoop 0 0) body) in
    code_at C pb (comp_stmts (LLoop tail 0) body ++ ostmt_code post ++ rest) ->
    pend = pb + body_sz + tail ->
    (forall m3, spost l C (pb + body_sz + csize (ostmt_code post)) stk m3 pend stk (K m3)) ->
    spost l C pb stk m1 pend stk
      (match exec_stmts P FN n true body m1 with
       | RNormal m2 | RContinue m2 =>
           match exec_ostmt P FN n post m2 with
           | RNormal m3 => K m3
           | RBreak _ | RContinue _ => RWrong
           | other => other
           end
       | RBreak m2 => RNormal m2
       | other => other
       end).
  Proof.
    intros body_sz Hc Hpend HK.
    destruct HSn as (_ & _ & _ & _ & _ & _ & _ & SSt & SSs & _).
    apply code_at_app in Hc as [Hb Hc].
    pose proof (SSs body (LLoop tail 0) m1 C pb stk Hb) as H1. unfold stmt_post in H1. cbn [inl] in H1.
    rewrite (stmts_size_kind body (LLoop tail 0) (LLoop 0 0) I) in Hc, H1. fold body_sz in Hc, H1.
    pose proof (fun m2 => sim_ostmt n SSt l post m2 C _ stk rest pend K Hc HK) as Hpost.
    destruct (exec_stmts P FN n true body m1) as [m2|m2|m2|v m2|x m2| |]; try exact I; try exact H1.
    - eapply spost_reaches; [exact H1|apply Hpost].
    - eapply reaches_cast; [exact H1|lia].
    - eapply spost_reaches; [|apply Hpost]. eapply reaches_cast; [exact H1|lia].
  Qed.

  Lemma sim_loop_S n : Sim n -> SimLoop (S n).
  Proof.
    intros HSn. pose proof HSn as (_ & _ & _ & _ & _ & SC & _ & _ & _ & SLp & _).
    intros c post body m C pb stk cpost body_sz bot tail bot' Hc.
    change (spost LNone C (pb + body_sz + csize cpost) stk m (pb + body_sz + tail) stk
              (exec_loop P FN (S n) c post body m)).
    rewrite exec_loop_S.
    pose proof Hc as Hc0. apply code_at_app_r in Hc0. apply code_at_app_r in Hc0.
    rewrite (stmts_size_kind body (LLoop tail 0) (LLoop 0 0) I) in Hc0.
    pose proof (sim_test n SC c false (- (body_sz + tail)) m C _ stk Hc0) as H1.
    destruct (test_cond P FN n c m) as [go m1|x m1| |]; cbn [sbind]; try exact I; [|exact H1].
    cbv zeta in H1. rewrite xorb_false_r, (test_size c false _ 0) in H1.
    change (csize (test_code c false 0)) with (csize bot) in H1. fold body_sz in H1.
    destruct go; cbn [negb].
    - eapply spost_reaches with (p1 := pb); [eapply reaches_cast; [exact H1|unfold tail; lia]|].
      eapply (loop_iter n HSn LNone post body m1 C pb stk tail bot'); [exact Hc|reflexivity|].
      intros m3. exact (SLp c post body m3 C pb stk Hc).
    - eapply reaches_cast; [exact H1|unfold tail; lia].
  Qed.

  Lemma sim_looptop_S n : Sim n -> SimLoopTop (S n).
  Proof.
    intros HSn. pose proof HSn as (_ & _ & _ & _ & _ & SC & _ & _ & _ & SLp & _).
    intros c post body m C p stk cpost body_sz bot tail bot' top Hc.
    change (spost LNone C p stk m (p + csize top + body_sz + tail) stk (exec_loop P FN (S n) c post body m)).
    rewrite exec_loop_S.
    apply code_at_app in Hc as [Ht Hc].
    pose proof (sim_test n SC c true (body_sz + tail) m C p stk Ht) as H1.
    destruct (test_cond P FN n c m) as [go m1|x m1| |]; cbn [sbind]; try exact I; [|exact H1].
    cbv zeta in H1. rewrite xorb_true_r in H1. change (test_code c true (body_sz + tail)) with top in H1.
    destruct go; cbn [negb] in *.
    - eapply spost_reaches; [exact H1|].
      eapply (loop_iter n HSn LNone post body m1 C (p + csize top) stk tail bot'); [exact Hc|reflexivity|].
      intros m3. exact (SLp c post body m3 C (p + csize top) stk Hc).
    - eapply reaches_cast; [exact H1|lia].
  Qed.

  (* print / printf: destination (if any), arguments, then the instruction *)
  Lemma sim_print n (HSn : Sim n) l (pf : bool) r dest args m C p stk :
    spostc l C p (comp_print pf r dest args) stk m stk
      (sbind (eval_src P FN n r dest m) (fun dv m1 =>
       sbind (eval_exprs P FN n args m1) (fun vs m2 =>
       sbind (of_er m2 (p_print P pf (ms m2) r (redir_src r dv) vs)) (fun _ m3 => RNormal m3)))).
  Proof.
    destruct HSn as (SE & SEs & _). unfold comp_print.
    eapply (bind_src (xo l) n SE r dest); intros dv m1.
    eapply (bind_exprs (xo l)); [exact SEs|intros vs m2 Hl].
    eapply (frag_does (xo l)) with (f := fun _ => stk); [destruct pf; reflexivity| |intros u m3; apply spostc_nil].
    apply does_er. pose proof (pop_n_rev_z _ vs _ (src_stack r dv stk) Hl) as Hpop.
    destruct pf; cbn [exec_simple]; rewrite Hpop; destruct r; reflexivity.
  Qed.

  (* a while / for loop entered through its top test, as a statement outcome *)
  Lemma looptop_spost n (SLt : SimLoopTop n) c post body m1 C p0 stk :
    spostc LNone C p0 (loop_code c post body) stk m1 stk (exec_loop P FN n c post body m1).
  Proof.
    unfold loop_code. set (body_sz := csize (comp_stmts (LLoop 0 0) body)).
    set (tail := csize (ostmt_code post) + csize (test_code c false 0)). set (code := _ ++ _). intros Hc.
    assert (Hsz : p0 + csize (test_code c true (body_sz + tail)) + body_sz + tail = p0 + csize code).
    { unfold code. rewrite !csize_app, (stmts_size_kind body (LLoop tail 0) (LLoop 0 0) I), (test_size c false _ 0).
      fold body_sz. unfold tail. lia. }
    rewrite <- Hsz. exact (SLt c post body m1 C p0 stk Hc).
  Qed.

  Lemma sim_stmt_S n (HS : forall k, (k <= n)%nat -> Sim k) : SimStmt (S n).
  Proof.
    pose proof (HS n (Nat.le_refl n)) as HSn.
    pose proof HSn as (SE & SEs & SA & SI & SL & SC & SCat & SSt & SSs & SLp & SLt & SIt).
    intros s l m C p stk.
    change (spostc l C p (comp_stmt l s) stk m stk (exec P FN (S n) (inl l) s m)).
    destruct s.
    - (* expression statement *)
      rewrite exec_expr. apply sim_expr_stmt; assumption.
    - (* print *)
      change (SPrint r dest args) with (if false then SPrintf r dest args else SPrint r dest args).
      rewrite exec_print. apply sim_print; assumption.
    - (* printf *)
      change (SPrintf r dest args) with (if true then SPrintf r dest args else SPrint r dest args).
      rewrite exec_print. apply sim_print; assumption.
    - (* if *)
      rewrite exec_if. cbn [comp_stmt]. intros Hc.
      destruct (stmts_is_nil els) eqn:Enil.
      + destruct els; [|discriminate]. apply code_at_app in Hc as [Hcc Hb].
        eapply spost_cond; [exact SC|exact Hcc|intros vc m1]. rewrite xorb_true_r.
        destruct (p_to_bool P vc); cbn [negb].
        * eapply spost_end; [|exact (SSs body l m1 C _ stk Hb)]. rewrite csize_app. lia.
        * destruct n as [|n']; [exact I|]. rewrite exec_stmts_nil.
          cbn [spost]. eapply reaches_cast; [apply reaches_refl|]. rewrite csize_app. lia.
      + set (ce := comp_stmts l els) in *.
        set (cb := comp_stmts (shift l (2 + csize ce)) body) in *.
        apply code_at_app in Hc as [Hcc Hc]. apply code_at_app in Hc as [Hb Hc]. apply code_at_app in Hc as [Hj He].
        eapply spost_cond; [exact SC|exact Hcc|intros vc m1]. rewrite xorb_true_r.
        destruct (p_to_bool P vc); cbn [negb].
        * (* the body, in the context shifted by the jump and the else branch, then the jump over it *)
          pose proof (SSs body (shift l (2 + csize ce)) m1 C _ stk Hb) as H2. unfold stmt_post in H2.
          rewrite inl_shift in H2. fold cb in H2.
          eapply spost_same_shift; [|exact H2|intros m'; eapply reaches_cast; [exact (reaches_jump stk m' Hj)|]];
            rewrite !csize_app; cbn [csize isize]; lia.
        * eapply spost_pos; [|eapply spost_end; [|exact (SSs els l m1 C _ stk He)]].
          -- cbn [csize isize]. lia.
          -- fold ce. rewrite !csize_app. cbn [csize isize]. lia.
    - (* for *)
      rewrite exec_for, comp_stmt_for. intros Hc. rewrite csize_app, Z.add_assoc.
      apply spost_no_loop.
      { destruct (exec_ostmt P FN n pre m); try exact I. apply exec_loop_no_brk. }
      eapply sim_ostmt; [exact SSt|exact Hc|intros m1].
      exact (looptop_spost n SLt c post body m1 C _ stk (code_at_app_r _ _ _ _ Hc)).
    - (* for-in *)
      rewrite exec_forin. cbn [comp_stmt]. intros Hc.
      set (cb := comp_stmts (LForIn 0) body) in *.
      assert (Hstep : step P F C p stk m =
                AForIn vsc vi (p_array_keys P (ms m) asc ai) cb (p + 6 + csize cb) stk m).
      { erewrite step_at by exact Hc. cbv zeta. cbn [isize].
        rewrite (sub_code_at C (p + 6) cb ltac:(apply code_at_tail in Hc; cbn [isize] in Hc; eapply code_at_app_l; rewrite app_nil_r; exact Hc)).
        reflexivity. }
      pose proof (forin_sim n SSs C (p + 6 + csize cb) vsc vi body stk (p_array_keys P (ms m) asc ai) m) as H.
      fold cb in H. apply spost_no_loop; [apply forin_ast_no_brk|].
      replace (p + csize (IForIn vsc vi asc ai (csize cb) :: cb)) with (p + 6 + csize cb) by (cbn [csize isize]; lia).
      destruct (forin_ast P FN n vsc vi body (p_array_keys P (ms m) asc ai) m) as [m'|m'|m'|v m'|x m'| |];
        cbn [spost forin_post] in *; try exact I.
      + intros k r Hr Hf. destruct (H k r Hr Hf) as [k' Hk']. exists (S k'). rewrite (run_S_forin k' Hstep). exact Hk'.
      + destruct H as [k' Hk']. exists (S k'). rewrite (run_S_forin k' Hstep). exact Hk'.
      + destruct H as [k' Hk']. exists (S k'). rewrite (run_S_forin k' Hstep). exact Hk'.
    - (* while *)
      rewrite exec_while, comp_stmt_while. intros Hc. apply spost_no_loop; [apply exec_loop_no_brk|].
      exact (looptop_spost n SLt (OEsome c) OSnone body m C p stk Hc).
    - (* do-while *)
      rewrite exec_dowhile. cbn [comp_stmt]. intros Hc.
      set (body_sz := csize (comp_stmts (LLoop 0 0) body)) in *.
      set (tail := csize (comp_cond c false 0)) in *.
      assert (Hend : p + csize (comp_stmts (LLoop tail 0) body ++ comp_cond c false (- (body_sz + tail))) =
                     p + body_sz + tail).
      { rewrite csize_app, (stmts_size_kind body (LLoop tail 0) (LLoop 0 0) I), (cond_size c false _ 0). apply Z.add_assoc. }
      pose proof (code_at_app_r _ _ _ _ Hc) as Hcc.
      rewrite (stmts_size_kind body (LLoop tail 0) (LLoop 0 0) I) in Hcc. fold body_sz in Hcc.
      rewrite Hend. eapply (loop_iter n HSn l OSnone body m C p stk tail); [exact Hc|reflexivity|intros m1].
      cbn [ostmt_code csize]. rewrite Z.add_0_r.
      eapply spost_cond; [exact SC|exact Hcc|intros vc m2]. rewrite xorb_false_r, (cond_size c false _ 0). fold tail.
      destruct (p_to_bool P vc).
      + eapply spost_pos; [|eapply spost_end; [exact Hend|exact (SSt (SDoWhile body c) l m2 C p stk Hc)]]. lia.
      + cbn [spost]. eapply reaches_cast; [apply reaches_refl|lia].
    - (* break *)
      rewrite exec_break. cbn [comp_stmt]. intros Hc.
      destruct l as [|cd|bd cd]; cbn [inl spost]; try exact I.
      + stop_at Hc.
      + eapply reaches_cast; [exact (reaches_jump stk m Hc)|cbn [csize isize]; lia].
    - (* continue *)
      rewrite exec_continue. cbn [comp_stmt]. intros Hc.
      destruct l as [|cd|bd cd]; cbn [inl spost]; try exact I;
        (eapply reaches_cast; [exact (reaches_jump stk m Hc)|cbn [csize isize]; lia]).
    - (* next *) rewrite exec_next. intros Hc. stop_at Hc.
    - (* nextfile *) rewrite exec_nextfile. intros Hc. stop_at Hc.
    - (* exit *)
      rewrite exec_exit. cbn [comp_stmt]. destruct e as [|e].
      + intros Hc. stop_at Hc.
      + eapply (bind_expr (xo l)); [exact SE|intros v m1].
        intros Hc. stop_at Hc.
    - (* return *)
      rewrite exec_return. cbn [comp_stmt]. destruct e as [|e].
      + intros Hc. stop_at Hc.
      + eapply (bind_expr (xo l)); [exact SE|intros v m1].
        intros Hc. stop_at Hc.
    - (* delete element *)
      rewrite exec_delete. cbn [comp_stmt].
      eapply (bind_index (xo l)); [exact SI|intros key key' m1 Hk].
      destruct Hk as (_ & _ & _ & Hdel & _). rewrite (Hdel (ms m1) sc i).
      eapply frag_instr; [reflexivity|reflexivity|]. apply spostc_nil.
    - (* delete array *)
      rewrite exec_deleteall. cbn [comp_stmt]. eapply frag_instr; [reflexivity|reflexivity|]. apply spostc_nil.
    - (* block *)
      rewrite exec_block. exact (SSs body l m C p stk).
  Qed.

  Lemma sim_stmts_S n : Sim n -> SimStmts (S n).
  Proof.
    intros (_ & _ & _ & _ & _ & _ & _ & SSt & SSs & _) ss l m C p stk.
    change (spostc l C p (comp_stmts l ss) stk m stk (exec_stmts P FN (S n) (inl l) ss m)).
    destruct ss as [|s ss]; [rewrite exec_stmts_nil; apply spostc_nil|].
    rewrite exec_stmts_cons. cbn [comp_stmts]. set (d := csize (comp_stmts l ss)). intros Hc.
    apply code_at_app in Hc as [Hs Hss]. rewrite csize_app, Z.add_assoc. fold d.
    pose proof (SSt s (shift l d) m C p stk Hs) as H1. rewrite inl_shift in H1.
    pose proof (spost_seq l d C p stk m _ _ stk _ (exec_stmts P FN n (inl l) ss) eq_refl H1
                  (fun m' => SSs ss l m' C _ stk Hss)) as H.
    destruct (exec P FN n (inl l) s m); exact H.
  Qed.

End SimStmt.
