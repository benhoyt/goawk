(* C13 proofs: standard output, over a writer that never fails or one that
   accepts some number of bytes and then fails.  Whatever the history, the
   writer has received a prefix of the issued stream: nothing is reordered,
   duplicated or corrupted, and at the end of the run it has received
   everything or exactly the bytes it accepts. *)
From Verif Require Import Lib.Base Model.Streams Proofs.StreamsBase Proofs.StreamsSpec.

Section Prefix.
Variable lim : option nat.   (* Some L: the writer accepts L bytes; None: it never fails *)

Definition fits (k : sink) : Prop := match lim with Some L => (length (sk_data k) <= L)%nat | None => True end.
Definition full (k : sink) : Prop := match lim with Some L => length (sk_data k) = L | None => False end.

(* the issued stream X as seen through a bufio.Writer w over sink k *)
Definition view (w : bw) (k : sink) (X : bytes) : Prop :=
  sk_limit k = lim /\ fits k /\
  exists rest, X = sk_data k ++ rest /\ ((bw_err w = false /\ rest = bw_buf w) \/ full k).

Lemma view_ext w k X y : view w k X -> full k -> view w k (X ++ y).
Proof.
  intros (Hl & Hle & rest & HX & _) Hf. repeat split; auto. exists (rest ++ y). split; auto.
  rewrite HX, app_assoc. auto.
Qed.

Lemma view_err w k X : view w k X -> bw_err w = true -> full k.
Proof. intros (_ & _ & rest & _ & [[He _]|Hf]) H; auto. congruence. Qed.

(* the one place where the limit is looked at: a full sink takes nothing more *)
Lemma sink_write_limit k p k' n ok : sk_limit k = lim -> fits k -> sink_write k p = (k', n, ok) ->
  sk_limit k' = lim /\ fits k' /\ sk_data k' = sk_data k ++ firstn n p /\
  (ok = true -> n = length p) /\ (ok = false -> full k') /\ (full k -> full k') /\ (full k -> firstn n p = []).
Proof.
  unfold sink_write, fits, full. intros Hl. rewrite Hl. destruct lim as [L|].
  - cbv beta iota zeta. intros Hle.
    destruct (length p <=? L - length (sk_data k))%nat eqn:E; intros H; injection H as <- <- <-; cbn [sk_limit sk_data].
    + apply Nat.leb_le in E. rewrite firstn_all, app_length.
      repeat split; auto; try discriminate; try lia. intros Hf. apply length_zero_iff_nil. lia.
    + apply Nat.leb_gt in E. rewrite app_length, firstn_length.
      repeat split; auto; try discriminate; try lia. intros Hf. apply length_zero_iff_nil. rewrite firstn_length. lia.
  - intros _ H; injection H as <- <- <-; cbn [sk_limit sk_data]. rewrite firstn_all.
    repeat split; auto; try discriminate; contradiction.
Qed.

(* what the writer holds once its buffer is empty or dead *)
Lemma view_at_end w k X : view w k X -> (bw_err w = false -> bw_buf w = []) ->
  sk_data k = match lim with Some L => firstn L X | None => X end.
Proof.
  unfold view, fits, full. intros (_ & Hle & rest & -> & Hd) Hb. destruct Hd as [[He ->]|Hf].
  - rewrite (Hb He), app_nil_r. destruct lim; [rewrite firstn_all2; auto | auto].
  - destruct lim as [L|]; [|contradiction].
    rewrite <- Hf, firstn_app, Nat.sub_diag, firstn_all. cbn [firstn]. rewrite app_nil_r. auto.
Qed.

Lemma bw_flush_view w k X w' k' ok : view w k X -> bw_flush w k = (w', k', ok) ->
  view w' k' X /\ (ok = false -> full k') /\ (ok = true -> bw_err w' = false /\ bw_buf w' = []) /\ (full k -> full k').
Proof.
  intros Hv. unfold bw_flush. destruct (bw_err w) eqn:Ee.
  - intros H; injection H as <- <- <-. split; [auto|split; [intros _; eapply view_err; eauto|split; [discriminate|auto]]].
  - destruct (bw_buf w) as [|b buf] eqn:Eb.
    + intros H; injection H as <- <- <-. split; [auto|split; [discriminate|split; [auto|auto]]].
    + destruct Hv as (Hl & Hle & rest & HX & Hd).
      destruct (sink_write k (b :: buf)) as [[k1 n] ok1] eqn:Ew.
      destruct (sink_write_limit _ _ _ _ _ Hl Hle Ew) as (Hl1 & Hle1 & Hd1 & Hok & Hfail & Hfull & Hnil).
      destruct ok1; intros H; injection H as <- <- <-.
      * split; [|repeat split; auto; discriminate]. repeat split; auto.
        destruct Hd as [[_ Hr]|Hf].
        -- exists []. split; [|left; auto]. rewrite HX, Hr, Eb, Hd1, (Hok eq_refl), firstn_all, app_nil_r. auto.
        -- exists rest. split; [|right; auto]. rewrite HX, Hd1, (Hnil Hf), app_nil_r. auto.
      * split; [|repeat split; auto; discriminate]. repeat split; auto.
        destruct Hd as [[_ Hr]|Hf].
        -- exists (skipn n (b :: buf)). split; [|right; auto].
           rewrite HX, Hr, Eb, Hd1, <- app_assoc, firstn_skipn. auto.
        -- exists rest. split; [|right; auto]. rewrite HX, Hd1, (Hnil Hf), app_nil_r. auto.
Qed.

Lemma bw_flush_false_err w k w' k' : bw_flush w k = (w', k', false) -> bw_err w' = true.
Proof.
  unfold bw_flush. destruct (bw_err w) eqn:Ee; [intros H; injection H as <- <-; auto|].
  destruct (bw_buf w); [discriminate|]. destruct (sink_write k _) as [[k1 n] [|]]; [discriminate|].
  intros H; injection H as <- <-. auto.
Qed.

Lemma view_push w k X b : view w k X -> view {| bw_buf := bw_buf w ++ [b]; bw_err := bw_err w |} k (X ++ [b]).
Proof.
  intros (Hl & Hle & rest & HX & Hd). repeat split; auto. exists (rest ++ [b]). split.
  - rewrite HX, app_assoc. auto.
  - destruct Hd as [[He Hr]|Hf]; [left|right; auto]. cbn. rewrite Hr. auto.
Qed.

Lemma bw_bytes_view cap p : forall w k X w' k' ok, view w k X -> bw_bytes cap w k p = (w', k', ok) ->
  view w' k' (X ++ p) /\ (ok = false -> full k') /\ (full k -> full k').
Proof.
  induction p as [|b p IH]; intros w k X w' k' ok Hv; cbn [bw_bytes].
  - intros H; injection H as <- <- <-. rewrite app_nil_r. split; [auto|split; [discriminate|auto]].
  - replace (X ++ b :: p) with ((X ++ [b]) ++ p) by (rewrite <- app_assoc; auto).
    destruct (cap <=? length (bw_buf w))%nat.
    + destruct (bw_flush w k) as [[w1 k1] ok1] eqn:Ef.
      destruct (bw_flush_view _ _ _ _ _ _ Hv Ef) as (Hv1 & Hfail & Hok & Hfull).
      destruct ok1.
      * intros H. destruct (IH _ _ _ _ _ _ (view_push _ _ _ b Hv1) H) as (A & B & C). split; [auto|split; auto].
      * intros H; injection H as <- <- <-. split; [|split; auto].
        rewrite <- app_assoc. apply view_ext; auto.
    + intros H. destruct (IH _ _ _ _ _ _ (view_push _ _ _ b Hv) H) as (A & B & C). split; [auto|split; auto].
Qed.

Lemma bw_write_string_view cap p w k X w' k' ok : view w k X -> bw_write_string cap w k p = (w', k', ok) ->
  view w' k' (X ++ p) /\ (ok = false -> full k') /\ (full k -> full k').
Proof.
  intros Hv. unfold bw_write_string. destruct (bw_err w) eqn:Ee.
  - intros H; injection H as <- <- <-. pose proof (view_err _ _ _ Hv Ee). split; [apply view_ext; auto|split; auto].
  - apply bw_bytes_view; auto.
Qed.


Lemma write_pieces_buf_view cap ps : forall w k X w' k' ok, view w k X -> write_pieces_buf cap w k ps = (w', k', ok) ->
  view w' k' (X ++ concat ps) /\ (ok = false -> full k') /\ (full k -> full k').
Proof.
  induction ps as [|p ps IH]; intros w k X w' k' ok Hv; cbn [write_pieces_buf concat].
  - intros H; injection H as <- <- <-. rewrite app_nil_r. split; [auto|split; [discriminate|auto]].
  - destruct (bw_write_string cap w k p) as [[w1 k1] ok1] eqn:Ew.
    destruct (bw_write_string_view _ _ _ _ _ _ _ _ Hv Ew) as (A & B & C). rewrite app_assoc. destruct ok1.
    + intros H. destruct (IH _ _ _ _ _ _ A H) as (A2 & B2 & C2). split; [auto|split; auto].
    + intros H; injection H as <- <- <-. split; [apply view_ext; auto|split; auto].
Qed.

(* an unbuffered Output: the bufio.Writer is unused and stays empty *)
Lemma sink_write_view w k X p k' n ok : bw_buf w = [] -> bw_err w = false -> view w k X -> sink_write k p = (k', n, ok) ->
  view w k' (X ++ p) /\ (ok = false -> full k') /\ (full k -> full k').
Proof.
  intros Hb He (Hl & Hle & rest & HX & Hd) Ew.
  destruct (sink_write_limit _ _ _ _ _ Hl Hle Ew) as (Hl1 & Hle1 & Hd1 & Hok & Hfail & Hfull & Hnil).
  split; [|split; auto]. repeat split; auto.
  destruct Hd as [[_ Hr]|Hf].
  - rewrite Hb in Hr. subst rest. rewrite app_nil_r in HX. destruct ok.
    + exists []. split; [|left; auto]. rewrite HX, Hd1, (Hok eq_refl), firstn_all, app_nil_r. auto.
    + exists (skipn n p). split; [|right; auto]. rewrite HX, Hd1, <- app_assoc, firstn_skipn. auto.
  - exists (rest ++ p). split; [|right; auto]. rewrite HX, Hd1, (Hnil Hf), app_nil_r, app_assoc. auto.
Qed.

Lemma view_any w w' k X : view w k X -> full k -> view w' k X.
Proof. intros (Hl & Hle & rest & HX & _) Hf. repeat split; auto. exists rest. auto. Qed.

Lemma view_append w k X q : view w k X -> bw_err w = false ->
  view {| bw_buf := bw_buf w ++ q; bw_err := false |} k (X ++ q).
Proof.
  intros (Hl & Hle & rest & HX & Hd) He. repeat split; auto. exists (rest ++ q). split.
  - rewrite HX, app_assoc. auto.
  - destruct Hd as [[_ Hr]|Hf]; [left; cbn; rewrite Hr; auto|right; auto].
Qed.

Lemma bw_direct_view w k X p w' k' ok : bw_buf w = [] -> bw_err w = false -> view w k X ->
  bw_direct w k p = (w', k', ok) ->
  view w' k' (X ++ p) /\ (ok = false -> full k') /\ (full k -> full k').
Proof.
  intros Hb He Hv. unfold bw_direct. destruct (sink_write k p) as [[k1 n] ok1] eqn:Ew.
  destruct (sink_write_view _ _ _ _ _ _ _ Hb He Hv Ew) as (A & B & C). destruct ok1; intros H; injection H as <- <- <-.
  - split; [auto|split; auto].
  - split; [eapply view_any; eauto|split; auto].
Qed.

(* bufio.Writer.Write, as the goroutine copying a child's output calls it *)
Lemma bw_write_view cap p w k X w' k' ok : view w k X -> bw_write cap w k p = (w', k', ok) ->
  view w' k' (X ++ p) /\ (ok = false -> full k') /\ (full k -> full k').
Proof.
  intros Hv. unfold bw_write. destruct (bw_err w) eqn:Ee.
  - intros H; injection H as <- <- <-. pose proof (view_err _ _ _ Hv Ee). split; [apply view_ext; auto|split; auto].
  - destruct (length p <=? cap - length (bw_buf w))%nat.
    + intros H; injection H as <- <- <-. split; [apply view_append; auto|split; [discriminate|auto]].
    + destruct (bw_buf w) as [|b0 buf] eqn:Eb.
      * apply bw_direct_view; auto.
      * set (a := (cap - length (b0 :: buf))%nat).
        pose proof (view_append w k X (firstn a p) Hv Ee) as Hv0. rewrite Eb in Hv0.
        destruct (bw_flush {| bw_buf := (b0 :: buf) ++ firstn a p; bw_err := false |} k) as [[w1 k1] ok1] eqn:Ef.
        destruct (bw_flush_view _ _ _ _ _ _ Hv0 Ef) as (A & Bf & Cok & Cfull).
        assert (Hsplit : (X ++ firstn a p) ++ skipn a p = X ++ p) by (rewrite <- app_assoc, firstn_skipn; auto).
        destruct ok1.
        -- destruct (Cok eq_refl) as (He1 & Hb1).
           destruct (length (skipn a p) <=? cap)%nat.
           ++ intros H; injection H as <- <- <-. split; [|split; [discriminate|auto]].
              pose proof (view_append w1 k1 _ (skipn a p) A He1) as Hv2. rewrite Hb1, Hsplit in Hv2. exact Hv2.
           ++ intros H. destruct (bw_direct_view _ _ _ _ _ _ _ Hb1 He1 A H) as (A2 & B2 & C2). rewrite Hsplit in A2.
              split; [auto|split; auto].
        -- intros H; injection H as <- <- <-. rewrite <- Hsplit. split; [apply view_ext; auto|split; auto].
Qed.

Lemma write_chunks_buf_view cap cs : forall w k X w' k' ok, view w k X -> write_chunks_buf cap w k cs = (w', k', ok) ->
  view w' k' (X ++ concat cs) /\ (ok = false -> full k') /\ (full k -> full k').
Proof.
  induction cs as [|c cs IH]; intros w k X w' k' ok Hv; cbn [write_chunks_buf concat].
  - intros H; injection H as <- <- <-. rewrite app_nil_r. split; [auto|split; [discriminate|auto]].
  - destruct (bw_write cap w k c) as [[w1 k1] ok1] eqn:Ew.
    destruct (bw_write_view _ _ _ _ _ _ _ _ Hv Ew) as (A & B & C). rewrite app_assoc. destruct ok1.
    + intros H. destruct (IH _ _ _ _ _ _ A H) as (A2 & B2 & C2). split; [auto|split; auto].
    + intros H; injection H as <- <- <-. split; [apply view_ext; auto|split; auto].
Qed.

Lemma write_pieces_direct_view w ps : bw_buf w = [] -> bw_err w = false -> forall k X k' ok, view w k X ->
  write_pieces_direct k ps = (k', ok) -> view w k' (X ++ concat ps) /\ (ok = false -> full k') /\ (full k -> full k').
Proof.
  intros Hb He. induction ps as [|p ps IH]; intros k X k' ok Hv; cbn [write_pieces_direct concat].
  - intros H; injection H as <- <-. rewrite app_nil_r. split; [auto|split; [discriminate|auto]].
  - destruct (sink_write k p) as [[k1 n] ok1] eqn:Ew.
    destruct (sink_write_view _ _ _ _ _ _ _ Hb He Hv Ew) as (A & B & C). rewrite app_assoc. destruct ok1.
    + intros H. destruct (IH _ _ _ _ A H) as (A2 & B2 & C2). split; [auto|split; auto].
    + intros H; injection H as <- <-. split; [apply view_ext; auto|split; auto].
Qed.

Variable E : env.

Definition pinv (s : state) : Prop :=
  view (st_out s) (st_sink s) (expected_stdout (st_log s)) /\
  (match e_mode E with Buf _ => True | _ => bw_buf (st_out s) = [] /\ bw_err (st_out s) = false end) /\
  (forall n o, In (n, o) (st_outs s) -> os_cgfail o = true -> full (st_sink s)).

Definition sfull (s : state) : Prop := full (st_sink s).

(* s' is s with, possibly, different ghost flags *)
Lemma pinv_frame s s' : st_out s' = st_out s -> st_sink s' = st_sink s -> st_outs s' = st_outs s -> st_log s' = st_log s ->
  pinv s -> pinv s'.
Proof. intros H1 H2 H3 H4. unfold pinv. rewrite H1, H2, H3, H4. auto. Qed.

Lemma touch_eq s : st_out (touch E s) = st_out s /\ st_sink (touch E s) = st_sink s /\ st_outs (touch E s) = st_outs s /\
  st_log (touch E s) = st_log s.
Proof. destruct (touch_fields E s) as (A & B & C & _ & _ & D & _). auto. Qed.

Lemma pinv_touch s : pinv s -> pinv (touch E s).
Proof. destruct (touch_eq s) as (A & B & C & D). apply pinv_frame; auto. Qed.

(* what every helper guarantees: the invariant, a full sink stays full, the table is untouched *)
Definition step_ok (s s' : state) : Prop :=
  pinv s' /\ (sfull s -> sfull s') /\ st_outs s' = st_outs s.

Lemma flush_stdout_pinv s : pinv s -> step_ok s (fst (flush_stdout E s)) /\ (snd (flush_stdout E s) = false -> sfull (fst (flush_stdout E s))).
Proof.
  intros Hp. unfold flush_stdout, step_ok. destruct (e_mode E) eqn:Em; cbn [fst snd]; try (split; [split; [auto|split; auto]|discriminate]).
  pose proof (pinv_touch s Hp) as Hp1. destruct (touch_eq s) as (A & B & C & D). unfold sfull. rewrite <- B, <- C.
  set (s1 := touch E s) in *. destruct Hp1 as (Hv & Hm & Hc).
  destruct (bw_flush (st_out s1) (st_sink s1)) as [[w k] ok] eqn:Ef. cbn [fst snd].
  destruct (bw_flush_view _ _ _ _ _ _ Hv Ef) as (Hv1 & Hfail & _ & Hfull).
  split; [split; [|split; [exact Hfull|reflexivity]]|exact Hfail].
  unfold pinv. cbn [st_out st_sink st_outs st_log set_out]. rewrite Em. split; [exact Hv1|split; [auto|]].
  intros n o Hin Hcg. apply Hfull. eapply Hc; eauto.
Qed.

Lemma flush_out_err_pinv s : pinv s -> step_ok s (flush_out_err E s).
Proof. intros Hp. apply flush_stdout_pinv; auto. Qed.

(* a state that differs from s by bytes b issued to standard output and by the writer and sink *)
Lemma pinv_emit s s' b w k : pinv s -> st_outs s' = st_outs s ->
  expected_stdout (st_log s') = expected_stdout (st_log s) ++ b -> view w k (expected_stdout (st_log s) ++ b) ->
  (match e_mode E with Buf _ => True | _ => bw_buf w = [] /\ bw_err w = false end) ->
  (sfull s -> full k) -> pinv (set_out s' w k).
Proof.
  intros (_ & _ & Hc) Ho Hx Hv Hm Hf. unfold pinv. cbn [st_out st_sink st_outs st_log set_out]. rewrite Hx, Ho.
  split; [exact Hv|split; [exact Hm|]]. intros n o Hin Hcg. apply Hf. exact (Hc n o Hin Hcg).
Qed.

Lemma write_stdout_pinv s ps : pinv s -> step_ok s (fst (write_stdout E s ps)).
Proof.
  intros Hp. unfold write_stdout, step_ok.
  pose proof (pinv_touch s Hp) as Hp1. destruct (touch_eq s) as (A & B & C & D). unfold sfull. rewrite <- B, <- C.
  set (s1 := touch E s) in *. pose proof Hp1 as (Hv & Hm & _).
  assert (Hend : forall w k, view w k (expected_stdout (st_log s1) ++ concat ps) ->
            (match e_mode E with Buf _ => True | _ => bw_buf w = [] /\ bw_err w = false end) ->
            (full (st_sink s1) -> full k) ->
            pinv (set_out (add_log s1 (EvWrite WStdout (concat ps))) w k) /\ (full (st_sink s1) -> full k) /\
            st_outs (set_out (add_log s1 (EvWrite WStdout (concat ps))) w k) = st_outs s1).
  { intros w k Hv1 Hm1 Hfull. split; [|split; [exact Hfull|reflexivity]]. apply (pinv_emit s1 _ (concat ps)); auto. }
  destruct (e_mode E) eqn:Em; cbv beta iota; cbn [st_out st_sink add_log].
  - destruct Hm as (Hb & He). destruct (write_pieces_direct (st_sink s1) ps) as [k ok] eqn:Ew. cbn [fst].
    destruct (write_pieces_direct_view _ ps Hb He _ _ _ _ Hv Ew) as (Hv1 & _ & Hfull). apply Hend; auto.
  - destruct Hm as (Hb & He). destruct (write_pieces_direct (st_sink s1) ps) as [k ok] eqn:Ew. cbn [fst].
    destruct (write_pieces_direct_view _ ps Hb He _ _ _ _ Hv Ew) as (Hv1 & _ & Hfull). apply Hend; auto.
  - destruct (write_pieces_buf cap (st_out s1) (st_sink s1) ps) as [[w k] ok] eqn:Ew. cbn [fst].
    destruct (write_pieces_buf_view _ ps _ _ _ _ _ _ Hv Ew) as (Hv1 & _ & Hfull). apply Hend; auto.
Qed.

(* child output: a copy that has failed before means the sink is full *)
Lemma child_out_pinv s cg data : pinv s -> (cg = true -> sfull s) ->
  step_ok s (fst (child_out E s cg data)) /\ (snd (child_out E s cg data) = false -> sfull (fst (child_out E s cg data))).
Proof.
  intros Hp Hcg. unfold child_out, step_ok. destruct data as [|b d].
  - cbn [fst snd]. split; [split; [auto|split; auto]|]. destruct cg; cbn [negb]; [auto|discriminate].
  - set (data := b :: d). destruct Hp as (Hv & Hm & Hc). unfold sfull in *.
    assert (Hpi : forall (w : bw) (k : sink) (u : bool), view w k (expected_stdout (st_log s) ++ data) ->
              (match e_mode E with Buf _ => True | _ => bw_buf w = [] /\ bw_err w = false end) ->
              (full (st_sink s) -> full k) ->
              pinv (set_out (if u then set_unmod (add_log s (EvChildOut data)) else add_log s (EvChildOut data)) w k)).
    { intros w k u Hv1 Hm1 Hfull. apply (pinv_emit s _ data); auto; [split; auto| |]; destruct u; reflexivity. }
    assert (Hid : forall (x : state), set_out x (st_out x) (st_sink x) = x) by (intros []; reflexivity).
    destruct (e_mode E) eqn:Em; cbv beta iota; cbn [st_out st_sink add_log].
    + destruct Hm as (Hb & He). destruct (sink_write (st_sink s) data) as [[k n] ok] eqn:Ew. cbn [fst snd].
      destruct (sink_write_view _ _ _ _ _ _ _ Hb He Hv Ew) as (Hv1 & _ & Hfull).
      split; [|discriminate]. split; [|split; [exact Hfull|reflexivity]]. apply (Hpi _ _ false); auto.
    + destruct Hm as (Hb & He). destruct cg.
      * cbn [fst snd]. split; [|intros _; apply Hcg; auto]. split; [|split; auto].
        rewrite <- (Hid (add_log s (EvChildOut data))). apply (Hpi _ _ false); auto. apply view_ext; auto.
      * destruct (sink_write (st_sink s) data) as [[k n] ok] eqn:Ew. cbn [fst snd].
        destruct (sink_write_view _ _ _ _ _ _ _ Hb He Hv Ew) as (Hv1 & Hfail & Hfull).
        split; [|exact Hfail]. split; [|split; [exact Hfull|reflexivity]]. apply (Hpi _ _ false); auto.
    + destruct cg.
      * cbn [fst snd]. split; [|intros _; apply Hcg; auto]. split; [|split; auto].
        rewrite <- (Hid (set_unmod (add_log s (EvChildOut data)))). apply (Hpi _ _ true); auto. apply view_ext; auto.
      * match goal with |- context [if ?c then set_unmod ?x else ?x] => destruct c end; cbn [st_out st_sink set_unmod add_log];
        (destruct (bw_write cap (st_out s) (st_sink s) data) as [[w k] ok] eqn:Ew; cbn [fst snd];
         destruct (bw_write_view _ _ _ _ _ _ _ _ Hv Ew) as (Hv1 & Hfail & Hfull);
         split; [|exact Hfail]; split; [|split; [exact Hfull|reflexivity]]).
        -- apply (Hpi _ _ true); auto.
        -- apply (Hpi _ _ false); auto.
Qed.

Lemma pinv_add_log s e : (match e with EvWrite WStdout _ | EvChildOut _ => False | _ => True end) -> pinv s -> pinv (add_log s e).
Proof.
  intros He (Hv & Hm & Hc). unfold pinv. cbn [st_out st_sink st_outs st_log add_log expected_stdout].
  assert (Hx : expected_stdout (st_log s) ++ match e with EvWrite WStdout b => b | EvChildOut b => b | _ => [] end = expected_stdout (st_log s)).
  { destruct e as [| [] | | | |]; try contradiction; apply app_nil_r. }
  rewrite Hx. auto.
Qed.
Lemma pinv_set_fs s fs : pinv s -> pinv (set_fs s fs).
Proof. apply pinv_frame; auto. Qed.
Lemma pinv_set_ins s i : pinv s -> pinv (set_ins s i).
Proof. apply pinv_frame; auto. Qed.
Lemma pinv_add_obs s o : pinv s -> pinv (add_obs s o).
Proof. apply pinv_frame; auto. Qed.
Lemma pinv_set_unmod s : pinv s -> pinv (set_unmod s).
Proof. apply pinv_frame; auto. Qed.
Lemma pinv_set_outs s outs : pinv s -> (forall n o, In (n, o) outs -> os_cgfail o = true -> sfull s) -> pinv (set_outs s outs).
Proof. intros (Hv & Hm & Hc) H. unfold pinv. cbn [st_out st_sink st_outs st_log set_outs]. auto. Qed.

Lemma start_proc_pinv s c : pinv s -> step_ok s (fst (start_proc E s c)) /\ (snd (start_proc E s c) = true -> sfull (fst (start_proc E s c))).
Proof.
  intros Hp. unfold start_proc, step_ok. cbn [fst snd].
  set (s1 := add_log s (EvStart c (stdout_pending E s) (bw_err (st_out s)))).
  assert (Hp1 : pinv s1) by (apply pinv_add_log; auto; exact I).
  destruct (c_sink (e_spec E c)) as [t|].
  - split; [split; [|split]|discriminate]; auto.
    apply pinv_add_log; [exact I|]. apply pinv_set_fs. auto.
  - split; [split; [|split]|discriminate]; auto.
Qed.

Lemma deliver_pinv s n o data : pinv s -> (os_cgfail o = true -> sfull s) ->
  step_ok s (fst (deliver E s n o data)) /\ (os_cgfail (snd (deliver E s n o data)) = true -> sfull (fst (deliver E s n o data))).
Proof.
  intros Hp Hcg. unfold deliver, step_ok. destruct data as [|b d]; [cbn [fst snd]; split; [split; [auto|split; auto]|auto]|].
  set (data := b :: d). destruct (os_kind o).
  - destruct (os_off o); cbn [fst snd os_cgfail]; (split; [split; [apply pinv_set_fs; auto|split; auto]|auto]).
  - destruct (c_drain (e_spec E n)).
    2:{ cbn [fst snd os_cgfail]. unfold sfull.
        destruct (is_synced E s n); cbn [st_sink st_outs set_unmod]; (split; [split; [auto using pinv_set_unmod|split; auto]|auto]). }
    set (s1 := match c_sink (e_spec E n) with Some t => set_fs s (fs_append (st_fs s) t data) | None => s end).
    assert (Hp1 : pinv s1) by (subst s1; destruct (c_sink _); auto using pinv_set_fs).
    assert (Hs1 : st_sink s1 = st_sink s /\ st_outs s1 = st_outs s) by (subst s1; destruct (c_sink _); auto).
    destruct Hs1 as (Hs1 & Ho1).
    destruct (c_echo (e_spec E n)); [|cbn [fst snd]; unfold sfull; rewrite Hs1; split; [split; [auto|split; auto]|auto]].
    destruct (child_out_pinv s1 (os_cgfail o) data Hp1) as ((A & B & C) & D); [unfold sfull; rewrite Hs1; auto|].
    destruct (child_out E s1 (os_cgfail o) data) as [s2 ok]. cbn [fst snd os_cgfail] in *.
    unfold sfull in *. rewrite Hs1 in B. split; [split; [auto|split; [auto|congruence]]|].
    destruct ok; [discriminate|auto].
Qed.

Lemma flush_ostream_pinv s n o : pinv s -> (os_cgfail o = true -> sfull s) ->
  step_ok s (fst (flush_ostream E s n o)) /\ (os_cgfail (snd (flush_ostream E s n o)) = true -> sfull (fst (flush_ostream E s n o))).
Proof.
  intros Hp Hcg. unfold flush_ostream. pose proof (deliver_pinv s n o (os_buf o) Hp Hcg) as H.
  destruct (deliver E s n o (os_buf o)) as [s1 o1]. cbn [fst snd os_cgfail] in *. auto.
Qed.

Lemma write_ostream_pinv s n o p : pinv s -> (os_cgfail o = true -> sfull s) ->
  step_ok s (fst (write_ostream E s n o p)) /\ (os_cgfail (snd (write_ostream E s n o p)) = true -> sfull (fst (write_ostream E s n o p))).
Proof.
  intros Hp Hcg. unfold write_ostream. destruct (buf_bytes _ _ _) as [f r].
  pose proof (deliver_pinv s n o f Hp Hcg) as H.
  destruct (deliver E s n o f) as [s1 o1]. cbn [fst snd os_cgfail] in *. auto.
Qed.

Lemma pinv_lookup s n o : pinv s -> alookup n (st_outs s) = Some o -> os_cgfail o = true -> sfull s.
Proof. intros (_ & _ & Hc) Hl Hcg. apply alookup_In in Hl. unfold sfull. eauto. Qed.

(* putting an updated stream back *)
Lemma pinv_put s0 s n o : pinv s0 -> step_ok s0 s -> (os_cgfail o = true -> sfull s) ->
  pinv (set_outs s (aset n o (st_outs s))) /\ (sfull s0 -> sfull (set_outs s (aset n o (st_outs s)))).
Proof.
  intros Hp0 (Hp & Hf & Ho) Hcg. split; [|intros H; apply Hf; auto].
  apply pinv_set_outs; auto. intros m o2 Hin Hc2. apply In_aset in Hin. destruct Hin as [[-> ->]|[Hin _]]; auto.
  destruct Hp as (_ & _ & Hc). unfold sfull. eauto.
Qed.

Lemma if_print_errorf_pinv (b : bool) s : pinv s -> pinv (if b then print_errorf E s else s) /\ (sfull s -> sfull (if b then print_errorf E s else s)).
Proof.
  intros Hp. destruct b; auto. destruct (flush_stdout_pinv s Hp) as ((A & B & _) & _). auto.
Qed.

Lemma flush_named_pinv s n o : pinv s -> alookup n (st_outs s) = Some o ->
  pinv (flush_named E s n o) /\ (sfull s -> sfull (flush_named E s n o)).
Proof.
  intros Hp Hl. unfold flush_named.
  destruct (flush_ostream_pinv s n o Hp (pinv_lookup _ _ _ Hp Hl)) as (A & B).
  destruct (flush_ostream E s n o) as [s1 o1]. cbn [fst snd] in *. cbv zeta.
  destruct (pinv_put s s1 n o1 Hp A B) as (C & D).
  destruct (if_print_errorf_pinv (os_err o1) _ C) as (F & G). split; auto.
Qed.

Lemma flush_streams_pinv ns : forall s, pinv s -> pinv (flush_streams E s ns) /\ (sfull s -> sfull (flush_streams E s ns)).
Proof.
  induction ns as [|n ns IH]; intros s Hp; cbn [flush_streams]; auto.
  destruct (alookup n (st_outs s)) as [o|] eqn:El; auto.
  destruct (flush_named_pinv s n o Hp El) as (A & B). destruct (IH _ A) as (C & D). auto.
Qed.


Lemma flush_all_pinv s : pinv s -> pinv (fst (flush_all E s)) /\ (sfull s -> sfull (fst (flush_all E s))).
Proof.
  intros Hp. unfold flush_all. destruct (flush_streams_pinv (map fst (st_outs s)) s Hp) as (A & B).
  set (s1 := flush_streams E s _) in *.
  destruct (flush_stdout_pinv s1 A) as ((C & D & _) & _). destruct (flush_stdout E s1) as [s2 [|]]; cbn [fst] in *; auto.
  destruct (if_print_errorf_pinv true s2 C) as (F & G). auto.
Qed.

Lemma close_ostream_pinv s n o : pinv s -> (os_cgfail o = true -> sfull s) ->
  step_ok s (fst (fst (close_ostream E s n o))).
Proof.
  intros Hp Hcg. unfold close_ostream.
  destruct (flush_ostream_pinv s n o Hp Hcg) as ((A & B & C) & D).
  destruct (flush_ostream E s n o) as [s1 o1]. cbn [fst snd] in *. destruct (os_kind o1); cbn [fst]; [split; auto|].
  unfold child_eof. destruct (wait_result _ _). cbn [fst]. split; auto.
Qed.

Lemma pinv_aremove s n : pinv s -> pinv (set_outs s (aremove n (st_outs s))).
Proof.
  intros Hp. apply pinv_set_outs; auto. intros m o Hin Hcg. apply In_aremove in Hin. destruct Hin as (Hin & _).
  destruct Hp as (_ & _ & Hc). unfold sfull. eauto.
Qed.

Lemma close_streams_pinv ns : forall s, pinv s -> pinv (close_streams E s ns).
Proof.
  induction ns as [|n ns IH]; intros s Hp; cbn [close_streams]; auto.
  destruct (alookup n (st_outs s)) as [o|] eqn:El; auto.
  destruct (close_ostream_pinv (set_outs s (aremove n (st_outs s))) n o (pinv_aremove s n Hp)) as (A & _).
  { intros Hc. apply (pinv_lookup _ _ _ Hp El Hc). }
  destruct (close_ostream E _ n o) as [[s1 code] err]. cbn [fst] in A.
  apply IH. apply pinv_add_log; [exact I|auto].
Qed.

Lemma close_all_pinv s : pinv s -> pinv (close_all E s) /\
  (bw_err (st_out (close_all E s)) = false -> bw_buf (st_out (close_all E s)) = []).
Proof.
  intros Hp. unfold close_all.
  pose proof (close_streams_pinv (map fst (st_outs (set_ins s []))) _ (pinv_set_ins s [] Hp)) as Hp1.
  set (s1 := close_streams E _ _) in *.
  destruct (flush_out_err_pinv s1 Hp1) as (A & _). split; auto.
  unfold flush_out_err, flush_stdout. destruct (e_mode E) eqn:Em; cbn [fst].
  - destruct Hp1 as (_ & Hm & _). rewrite Em in Hm. tauto.
  - destruct Hp1 as (_ & Hm & _). rewrite Em in Hm. tauto.
  - destruct (touch_eq s1) as (T1 & T2 & _). pose proof (pinv_touch s1 Hp1) as (Hv & _).
    destruct (bw_flush _ _) as [[w k] ok] eqn:Ef. cbn [fst st_out set_out].
    destruct (bw_flush_view _ _ _ _ _ _ Hv Ef) as (_ & _ & Hok & _).
    intros He. destruct ok; [apply Hok; auto|].
    apply bw_flush_false_err in Ef. congruence.
Qed.

Lemma if_unmod_pinv (b : bool) s : pinv s -> pinv (if b then set_unmod s else s).
Proof. destruct b; auto using pinv_set_unmod. Qed.

Lemma get_output_stream_pinv s d : pinv s -> pinv (fst (get_output_stream E s d)).
Proof.
  intros Hp. unfold get_output_stream. destruct d as [| | |r n]; cbn [fst]; auto.
  - apply flush_out_err_pinv; auto.
  - destruct (amem n (st_ins s)); cbn [fst]; auto. destruct (amem n (st_outs s)); cbn [fst]; auto.
    destruct (flush_out_err_pinv s Hp) as (Hp1 & _). set (s1 := flush_out_err E s) in *.
    assert (Hfile : forall fs e o, (match e with EvWrite WStdout _ | EvChildOut _ => False | _ => True end) -> os_cgfail o = false ->
              pinv (set_outs (add_log (set_fs s1 fs) e) (aset n o (st_outs (add_log (set_fs s1 fs) e))))).
    { intros fs e o He Ho. apply pinv_set_outs; [apply pinv_add_log; auto; apply pinv_set_fs; auto|].
      intros m o2 Hin Hc. apply In_aset in Hin. destruct Hin as [[-> ->]|[Hin _]]; [congruence|].
      cbn [st_outs add_log set_fs] in Hin. destruct Hp1 as (_ & _ & Hc1). unfold sfull. cbn. eauto. }
    destruct r.
    + destruct (e_bad E n); cbn [fst]; auto.
    + destruct (e_bad E n); cbn [fst]; auto.
    + match goal with |- context [if ?c then set_unmod s1 else s1] => set (s2 := if c then set_unmod s1 else s1) end.
      assert (Hp2 : pinv s2) by (apply if_unmod_pinv; auto).
      pose proof (pinv_add_log s2 (EvOpen n KCmd false) I Hp2) as Hp3.
      destruct (start_proc_pinv _ n Hp3) as ((Hp4 & _ & _) & Hcg4).
      destruct (start_proc E _ n) as [s4 cg]. cbn [fst snd] in *.
      destruct (child_out_pinv s4 cg (c_stdout (e_spec E n)) Hp4 Hcg4) as ((Hp5 & _ & _) & Hcg5).
      destruct (child_out E s4 cg _) as [s5 ok]. cbn [fst snd] in *.
      match goal with |- context [if ?c then set_unmod s5 else s5] => set (s6 := if c then set_unmod s5 else s5) end.
      assert (Hp6 : pinv s6) by (apply if_unmod_pinv; auto).
      assert (H56 : st_sink s6 = st_sink s5 /\ st_outs s6 = st_outs s5) by (subst s6; match goal with |- context [if ?c then _ else _] => destruct c end; auto).
      apply pinv_set_outs; auto. intros m o2 Hin Hc. apply In_aset in Hin. unfold sfull. destruct H56 as (-> & H6o).
      destruct Hin as [[-> ->]|[Hin _]].
      * cbn [os_cgfail] in Hc. apply Hcg5. destruct ok; [discriminate|auto].
      * rewrite H6o in Hin. destruct Hp5 as (_ & _ & Hc5). eauto.
Qed.

Lemma scan_stream_pinv s n i : pinv s -> pinv (scan_stream s n i).
Proof.
  intros Hp. unfold scan_stream. destruct (is_rest i); [apply pinv_add_obs; auto|]. destruct (scan_line _ _).
  repeat apply pinv_add_obs. apply pinv_set_ins. auto.
Qed.

Lemma pinv_add_synced s n : pinv s -> pinv (add_synced s n).
Proof. apply pinv_frame; auto. Qed.

Lemma getline_file_pinv s n : pinv s -> pinv (fst (getline_file E s n)).
Proof.
  intros Hp0. unfold getline_file. set (s0 := if sink_busy E s n then set_unmod s else s).
  assert (Hp : pinv s0) by (subst s0; apply if_unmod_pinv; auto). clearbody s0.
  destruct (amem n (st_outs s0)); cbn [fst]; auto.
  destruct (alookup n (st_ins s0)) as [i|]; cbn [fst]; [apply scan_stream_pinv; auto|].
  destruct (alookup n (st_fs s0)); cbn [fst]; [|apply pinv_add_obs; auto].
  apply scan_stream_pinv. apply pinv_set_ins. auto.
Qed.

Lemma write_stdout_rec_pinv s rec : pinv s -> step_ok s (fst (write_stdout_rec E s rec)).
Proof.
  intros Hp. unfold write_stdout_rec.
  destruct (e_mode E) eqn:Em; try apply write_stdout_pinv; auto.
  destruct (cap <? scratch_size)%nat; [|apply write_stdout_pinv; auto].
  unfold step_ok.
  pose proof (pinv_touch s Hp) as Hp1. destruct (touch_eq s) as (A & B & C & D). unfold sfull. rewrite <- B, <- C.
  set (s1 := touch E s) in *. pose proof Hp1 as (Hv & _).
  cbn [st_out st_sink add_log].
  destruct (write_chunks_buf cap (st_out s1) (st_sink s1) (scratch_chunks rec)) as [[w k] ok] eqn:Ew. cbn [fst].
  destruct (write_chunks_buf_view _ _ _ _ _ _ _ _ Hv Ew) as (Hv1 & _ & Hfull). rewrite scratch_chunks_concat in Hv1.
  split; [|split; [exact Hfull|reflexivity]]. apply (pinv_emit s1 _ rec); auto. rewrite Em. exact I.
Qed.

Lemma step_print_pinv s d ps wr : pinv s -> (forall s1, pinv s1 -> pinv (fst (wr s1))) -> pinv (fst (step_print E s d ps wr)).
Proof.
  intros Hp Hwr. unfold step_print.
  pose proof (get_output_stream_pinv s d Hp) as Hp1. destruct (get_output_stream E s d) as [s1 [[|n]|]]; cbn [fst] in *; auto.
    + pose proof (Hwr s1 Hp1) as A. destruct (wr s1) as [s2 [|]]; auto.
    + destruct (alookup n (st_outs s1)) as [os|] eqn:El; cbn [fst]; auto.
      set (s1' := add_log s1 _).
      assert (Hp1' : pinv s1') by (subst s1'; apply pinv_add_log; auto; destruct (os_kind os); exact I).
      destruct (write_ostream_pinv s1' n os (concat ps) Hp1') as (A & B).
      { intros Hc. apply (pinv_lookup _ _ _ Hp1 El Hc). }
      destruct (write_ostream E s1' n os (concat ps)) as [s2 os']. cbn [fst snd] in *.
      eapply pinv_put; eauto.
Qed.

Lemma step_pinv s o : pinv s -> pinv (fst (step E s o)).
Proof.
  intros Hp. destruct o as [d ps|n|[n|]|c|n|c| |code| |n|d rec]; cbn [step].
  - apply step_print_pinv; auto. intros s1 Hp1. apply write_stdout_pinv; auto.
  - destruct (alookup n (st_ins s)) as [i|].
    + destruct (if is_cmd i then _ else _) as [code err]. cbn [fst]. apply pinv_add_obs.
      apply if_print_errorf_pinv. apply pinv_add_log; [exact I|]. apply pinv_set_ins; auto.
    + destruct (alookup n (st_outs s)) as [os|] eqn:El; [|cbn [fst]; apply pinv_add_obs; auto].
      destruct (close_ostream_pinv (set_outs s (aremove n (st_outs s))) n os (pinv_aremove s n Hp)) as (A & _).
      { intros Hc. apply (pinv_lookup _ _ _ Hp El Hc). }
      destruct (close_ostream E _ n os) as [[s1 code] err]. cbn [fst] in *. apply pinv_add_obs.
      apply if_print_errorf_pinv. apply pinv_add_log; [exact I|auto].
  - destruct (alookup n (st_outs s)) as [os|] eqn:El; cbn [fst]; apply pinv_add_obs.
    + apply flush_named_pinv; auto.
    + apply (if_print_errorf_pinv true); auto.
  - destruct (flush_all_pinv s Hp) as (A & _). destruct (flush_all E s) as [s1 ok]. cbn [fst] in *. apply pinv_add_obs; auto.
  - destruct (flush_all_pinv s Hp) as (A & _). destruct (flush_all E s) as [s1 ok]. cbn [fst] in *.
    destruct (start_proc_pinv s1 c A) as ((Hp2 & _ & _) & Hcg2). destruct (start_proc E s1 c) as [s2 cg]. cbn [fst snd] in *.
    destruct (child_out_pinv s2 cg (c_stdout (e_spec E c)) Hp2 Hcg2) as ((Hp3 & _ & _) & _).
    destruct (child_out E s2 cg _) as [s3 ok3]. unfold child_eof. destruct (wait_result _ _) as [code err]. cbn [fst] in *.
    apply pinv_add_obs. apply if_print_errorf_pinv; auto.
  - apply getline_file_pinv; auto.
  - destruct (amem c (st_outs s)); cbn [fst]; auto.
    destruct (alookup c (st_ins s)) as [i|]; cbn [fst]; [apply scan_stream_pinv; auto|].
    destruct (flush_out_err_pinv s Hp) as (Hp1 & _).
    destruct (start_proc_pinv _ c Hp1) as ((Hp2 & _ & _) & _). destruct (start_proc E _ c) as [s2 cg]. cbn [fst] in *.
    apply scan_stream_pinv. apply pinv_set_ins. auto.
  - cbn [fst]. apply pinv_add_obs. apply flush_out_err_pinv; auto.
  - auto.
  - auto.
  - destruct (amem n (st_outs s)); cbn [fst]; auto.
    destruct (negb (amem n (st_ins s)) && negb (amem n (st_fs s))); cbn [fst]; [apply pinv_set_unmod; auto|].
    apply getline_file_pinv. apply pinv_add_synced; auto.
  - apply step_print_pinv; auto. intros s1 Hp1. apply write_stdout_rec_pinv; auto.
Qed.

Lemma exec_pinv ops : forall s, pinv s -> pinv (fst (exec E s ops)).
Proof.
  induction ops as [|o ops IH]; intros s Hp; cbn [exec]; auto.
  pose proof (step_pinv s o Hp) as H. destruct (step E s o) as [s1 [| |]]; cbn [fst] in *; auto.
Qed.

Lemma init_pinv fs : pinv (init_state fs lim).
Proof.
  unfold pinv, view, init_state. cbn [st_out st_sink st_outs st_log sk_data sk_limit bw_buf bw_err expected_stdout].
  split; [|split].
  - split; [auto|split]; [unfold fits; destruct lim; cbn [sk_data length]; [lia | exact I]|]. exists []. split; auto.
  - destruct (e_mode E); auto.
  - intros ? ? [].
Qed.

(* at the end of any run -- normal end, exit, or run-time error -- a writer
   that never fails holds exactly the writes of the program and of its children
   in the order they were issued; one that accepts L bytes holds the first L
   bytes of that stream, or all of it if it is shorter *)
Theorem stdout_at_end_from s0 ops s r : pinv s0 -> run E s0 ops = (s, r) ->
  sk_data (st_sink s) = match lim with Some L => firstn L (expected_stdout (st_log s)) | None => expected_stdout (st_log s) end.
Proof.
  intros H0. unfold run. pose proof (exec_pinv ops _ H0) as Hp. destruct (exec E _ ops) as [s1 r1]. cbn [fst] in Hp.
  intros H; injection H as <- <-.
  destruct (close_all_pinv s1 Hp) as ((Hv & _) & Hb). exact (view_at_end _ _ _ Hv Hb).
Qed.

Theorem stdout_at_end fs ops s r : run E (init_state fs lim) ops = (s, r) ->
  sk_data (st_sink s) = match lim with Some L => firstn L (expected_stdout (st_log s)) | None => expected_stdout (st_log s) end.
Proof. apply stdout_at_end_from, init_pinv. Qed.
End Prefix.
