(* C08: the fuel of the splitter loops is only a device: results do not depend on it once
   it suffices, and the amount [scan] passes always suffices.  Hence the two parse loops as
   functions without fuel ([pf], [pq]) and one call of [scan] as "needs more data, or the two
   loops find a row" ([scan_cases], [scan_intro]). *)
From Verif Require Import Lib.Base Lib.Utf8 Model.Csv Proofs.CsvBase.

Lemma parse_field_S c e f line data adv done cr :
  parse_field c e (S f) line data adv done cr =
    if starts_quote line
    then parse_quoted c e f (zdrop 1 line) data (adv + 1) [] done cr
    else
      match cut_sub (sep_bytes c) line with
      | Some (field, rest) =>
          parse_field c e f rest data (adv + zlen field + sep_len c) (done ++ [field]) cr
      | None =>
          PDone (adv + zlen line) (done ++ [ztake (zlen line - len_newline line) line]) cr
      end.
Proof. reflexivity. Qed.

Lemma parse_quoted_S c e f line data adv cur done cr :
  parse_quoted c e (S f) line data adv cur done cr =
    match cut_byte 34 line with
    | Some (pre, line1) =>
        let cur := cur ++ pre in
        let adv := adv + zlen pre + 1 in
        let rn := next_rune line1 in
        if rn =? 34 then parse_quoted c e f (zdrop 1 line1) data (adv + 1) (cur ++ [34]) done cr
        else if rn =? c_sep c
        then parse_field c e f (zdrop (sep_len c) line1) data (adv + sep_len c) (done ++ [cur]) cr
        else if len_newline line1 =? zlen line1
        then PDone (adv + zlen line1) (done ++ [cur]) cr
        else parse_quoted c e f line1 data adv (cur ++ [34]) done cr
    | None =>
        match line with
        | _ :: _ =>
            let adv := adv + zlen line in
            let nl2 := len_newline line =? 2 in
            let cur := if nl2 then cur ++ ztake (zlen line - 2) line ++ [10] else cur ++ line in
            let cr := if nl2 then true else cr in
            match read_line data e with
            | None => PNeed
            | Some (line', data', inc) => parse_quoted c e f line' data' (adv + inc) cur done cr
            end
        | [] => PDone adv (done ++ [cur]) cr
        end
    end.
Proof. reflexivity. Qed.

Lemma skip_lines_S c e f data adv skip :
  skip_lines c e (S f) data adv skip =
    match read_line data e with
    | None => SkNeed
    | Some (line, data', inc) =>
        let adv := adv + inc in
        if zlen line =? 0 then SkNeed
        else if negb (c_comment c =? 0) && (next_rune line =? c_comment c)
        then skip_lines c e f data' (adv + zlen line) (skip + zlen line)
        else if zlen line =? len_newline line
        then skip_lines c e f data' (adv + zlen line) (skip + zlen line)
        else SkLine line data' adv skip
    end.
Proof. reflexivity. Qed.

Lemma parse_mono c e : forall f,
  (forall line data adv done cr r, parse_field c e f line data adv done cr = r -> r <> PFuel ->
     forall f', (f <= f')%nat -> parse_field c e f' line data adv done cr = r) /\
  (forall line data adv cur done cr r, parse_quoted c e f line data adv cur done cr = r -> r <> PFuel ->
     forall f', (f <= f')%nat -> parse_quoted c e f' line data adv cur done cr = r).
Proof.
  induction f as [|f [IHf IHq]]; split; intros until r; intros H Hr f' Hle.
  - cbn in H. congruence.
  - cbn in H. congruence.
  - destruct f' as [|f']; [lia|]. rewrite parse_field_S in *.
    destruct (starts_quote line).
    + eapply IHq; eauto; lia.
    + destruct (cut_sub (sep_bytes c) line) as [[field rest]|]; [|exact H].
      eapply IHf; eauto; lia.
  - destruct f' as [|f']; [lia|]. rewrite parse_quoted_S in *.
    destruct (cut_byte 34 line) as [[pre line1]|].
    + cbv zeta in *.
      destruct (next_rune line1 =? 34); [eapply IHq; eauto; lia|].
      destruct (next_rune line1 =? c_sep c); [eapply IHf; eauto; lia|].
      destruct (len_newline line1 =? zlen line1); [exact H|].
      eapply IHq; eauto; lia.
    + destruct line as [|x line]; [exact H|]. cbv zeta in *.
      destruct (read_line data e) as [[[line' data'] inc]|]; [|exact H].
      eapply IHq; eauto; lia.
Qed.

Lemma parse_field_mono c e f f' line data adv done cr r :
  parse_field c e f line data adv done cr = r -> r <> PFuel -> (f <= f')%nat ->
  parse_field c e f' line data adv done cr = r.
Proof. intros. eapply (proj1 (parse_mono c e f)); eauto. Qed.

Lemma parse_quoted_mono c e f f' line data adv cur done cr r :
  parse_quoted c e f line data adv cur done cr = r -> r <> PFuel -> (f <= f')%nat ->
  parse_quoted c e f' line data adv cur done cr = r.
Proof. intros. eapply (proj2 (parse_mono c e f)); eauto. Qed.

(* two amounts of fuel that both suffice give the same result *)
Lemma parse_field_agree c e n m line data adv done cr :
  parse_field c e n line data adv done cr <> PFuel -> parse_field c e m line data adv done cr <> PFuel ->
  parse_field c e n line data adv done cr = parse_field c e m line data adv done cr.
Proof. intros Hn Hm. destruct (Nat.le_ge_cases n m); [symmetry|]; eapply parse_field_mono; eauto. Qed.

Lemma parse_quoted_agree c e n m line data adv cur done cr :
  parse_quoted c e n line data adv cur done cr <> PFuel -> parse_quoted c e m line data adv cur done cr <> PFuel ->
  parse_quoted c e n line data adv cur done cr = parse_quoted c e m line data adv cur done cr.
Proof. intros Hn Hm. destruct (Nat.le_ge_cases n m); [symmetry|]; eapply parse_quoted_mono; eauto. Qed.

Lemma skip_lines_mono c e : forall f data adv skip r,
  skip_lines c e f data adv skip = r -> r <> SkFuel ->
  forall f', (f <= f')%nat -> skip_lines c e f' data adv skip = r.
Proof.
  induction f as [|f IH]; intros data adv skip r H Hr f' Hle; [cbn in H; congruence|].
  destruct f' as [|f']; [lia|]. rewrite skip_lines_S in *.
  destruct (read_line data e) as [[[line data'] inc]|]; [|exact H]. cbv zeta in *.
  destruct (zlen line =? 0); [exact H|].
  destruct (negb (c_comment c =? 0) && (next_rune line =? c_comment c)); [eapply IH; eauto; lia|].
  destruct (zlen line =? len_newline line); [eapply IH; eauto; lia | exact H].
Qed.

Lemma skip_lines_agree c e n m data adv skip :
  skip_lines c e n data adv skip <> SkFuel -> skip_lines c e m data adv skip <> SkFuel ->
  skip_lines c e n data adv skip = skip_lines c e m data adv skip.
Proof. intros Hn Hm. destruct (Nat.le_ge_cases n m); [symmetry|]; eapply skip_lines_mono; eauto. Qed.

Lemma read_line_size data e line data' inc : read_line data e = Some (line, data', inc) ->
  (length line + length data' <= length data)%nat.
Proof. intros H. apply read_line_acct in H as (H & _ & Hi). unfold zlen in H. lia. Qed.

Lemma parse_enough c e : forall f,
  (forall line data adv done cr, (length line + length data < f)%nat ->
     parse_field c e f line data adv done cr <> PFuel) /\
  (forall line data adv cur done cr, (length line + length data < f)%nat ->
     parse_quoted c e f line data adv cur done cr <> PFuel).
Proof.
  induction f as [|f [IHf IHq]]; split; intros until cr; intros Hm; try lia.
  - rewrite parse_field_S. destruct (starts_quote line) eqn:Eq.
    + destruct (starts_quote_inv _ Eq) as [t ->]. apply IHq. rewrite zdrop_1_cons. cbn [length] in Hm. lia.
    + destruct (cut_sub (sep_bytes c) line) as [[field rest]|] eqn:E; [|discriminate].
      apply IHf. apply cut_sub_some_inv in E. subst line. rewrite !app_length in Hm.
      pose proof (encode_nonempty (c_sep c)) as Hn. unfold sep_bytes, zlen in *. lia.
  - rewrite parse_quoted_S. destruct (cut_byte 34 line) as [[pre line1]|] eqn:E.
    + apply cut_byte_some_inv in E as [-> _]. rewrite app_length in Hm. cbn [length] in Hm. cbv zeta.
      destruct (next_rune line1 =? 34).
      { apply IHq. pose proof (length_zdrop_le 1 line1). lia. }
      destruct (next_rune line1 =? c_sep c).
      { apply IHf. pose proof (length_zdrop_le (sep_len c) line1). lia. }
      destruct (len_newline line1 =? zlen line1); [discriminate|].
      apply IHq. lia.
    + destruct line as [|x line]; [discriminate|]. cbv zeta.
      destruct (read_line data e) as [[[line' data'] inc]|] eqn:R; [|discriminate].
      apply IHq. apply read_line_size in R. cbn [length] in Hm. lia.
Qed.

Lemma skip_enough c e : forall f data adv skip, (length data < f)%nat ->
  skip_lines c e f data adv skip <> SkFuel.
Proof.
  induction f as [|f IH]; intros data adv skip Hm; [lia|]. rewrite skip_lines_S.
  destruct (read_line data e) as [[[line data'] inc]|] eqn:R; [|discriminate]. cbv zeta.
  destruct (zlen line =? 0) eqn:Z0; [discriminate|].
  assert (Hpos : (0 < length line)%nat).
  { destruct line; [cbn in Z0; discriminate | cbn; lia]. }
  apply read_line_size in R.
  destruct (negb (c_comment c =? 0) && (next_rune line =? c_comment c)); [apply IH; lia|].
  destruct (zlen line =? len_newline line); [apply IH; lia | discriminate].
Qed.

Lemma skip_acct c e : forall f data adv skip line data' adv' skip',
  skip_lines c e f data adv skip = SkLine line data' adv' skip' ->
  suffix_of data' data /\ adv' + zlen line + zlen data' = adv + zlen data /\
  skip <= skip' /\ skip' - skip <= adv' - adv /\ 0 < zlen line.
Proof.
  induction f as [|f IH]; intros data adv skip line data' adv' skip' H; [discriminate|].
  rewrite skip_lines_S in H. destruct (read_line data e) as [[[l d] inc]|] eqn:R; [|discriminate].
  apply read_line_acct in R as (Rz & Rs & Ri). cbv zeta in H.
  destruct (Z.eqb_spec (zlen l) 0); [discriminate|]. pose proof (zlen_nonneg l).
  destruct (negb (c_comment c =? 0) && (next_rune l =? c_comment c)).
  { apply IH in H as (Hs & Ha & H1 & H2). split; [eapply suffix_trans; eassumption | lia]. }
  destruct (zlen l =? len_newline l).
  { apply IH in H as (Hs & Ha & H1 & H2). split; [eapply suffix_trans; eassumption | lia]. }
  injection H as <- <- <- <-. split; [exact Rs | lia].
Qed.

Lemma skip_lines_size c e f data adv skip line data' adv' skip' :
  skip_lines c e f data adv skip = SkLine line data' adv' skip' ->
  (length line + length data' <= length data)%nat.
Proof. intros H. apply skip_acct in H as (_ & H & H1 & H2 & _). unfold zlen in H. lia. Qed.

Lemma parse_at_fuel c e n F line data adv done cr r :
  parse_field c e n line data adv done cr = r -> r <> PFuel ->
  (length line + length data < F)%nat -> parse_field c e F line data adv done cr = r.
Proof.
  intros H Hr Hm. rewrite <- H. apply parse_field_agree; [apply parse_enough; exact Hm | rewrite H; exact Hr].
Qed.

Lemma skip_at_fuel c e n F data adv skip r :
  skip_lines c e n data adv skip = r -> r <> SkFuel ->
  (length data < F)%nat -> skip_lines c e F data adv skip = r.
Proof.
  intros H Hr Hm. rewrite <- H. apply skip_lines_agree; [apply skip_enough; exact Hm | rewrite H; exact Hr].
Qed.

Section NoFuel.
Variable c : csv_cfg.
Variable e : bool.

Definition pf (line data : bytes) := parse_field c e (S (length line + length data)) line data.
Definition pq (line data : bytes) := parse_quoted c e (S (length line + length data)) line data.

Lemma pf_fuel n line data adv done cr : (length line + length data < n)%nat ->
  parse_field c e n line data adv done cr = pf line data adv done cr.
Proof.
  intros H. apply parse_field_agree; apply parse_enough; lia.
Qed.

Lemma pq_fuel n line data adv cur done cr : (length line + length data < n)%nat ->
  parse_quoted c e n line data adv cur done cr = pq line data adv cur done cr.
Proof.
  intros H. apply parse_quoted_agree; apply parse_enough; lia.
Qed.

Lemma pf_unfold line data adv done cr :
  pf line data adv done cr =
    if starts_quote line
    then pq (zdrop 1 line) data (adv + 1) [] done cr
    else
      match cut_sub (sep_bytes c) line with
      | Some (field, rest) => pf rest data (adv + zlen field + sep_len c) (done ++ [field]) cr
      | None => PDone (adv + zlen line) (done ++ [ztake (zlen line - len_newline line) line]) cr
      end.
Proof.
  unfold pf at 1. rewrite parse_field_S. destruct (starts_quote line) eqn:Q.
  - apply pq_fuel. destruct (starts_quote_inv _ Q) as [t ->]. rewrite zdrop_1_cons. cbn [length]. lia.
  - destruct (cut_sub (sep_bytes c) line) as [[field rest]|] eqn:E; [|reflexivity].
    apply pf_fuel. apply cut_sub_some_inv in E. subst line. rewrite !app_length.
    pose proof (encode_nonempty (c_sep c)) as Hn. unfold sep_bytes, zlen in *. lia.
Qed.

Lemma pq_unfold line data adv cur done cr :
  pq line data adv cur done cr =
    match cut_byte 34 line with
    | Some (pre, line1) =>
        let cur := cur ++ pre in
        let adv := adv + zlen pre + 1 in
        let rn := next_rune line1 in
        if rn =? 34 then pq (zdrop 1 line1) data (adv + 1) (cur ++ [34]) done cr
        else if rn =? c_sep c
        then pf (zdrop (sep_len c) line1) data (adv + sep_len c) (done ++ [cur]) cr
        else if len_newline line1 =? zlen line1
        then PDone (adv + zlen line1) (done ++ [cur]) cr
        else pq line1 data adv (cur ++ [34]) done cr
    | None =>
        match line with
        | _ :: _ =>
            let adv := adv + zlen line in
            let nl2 := len_newline line =? 2 in
            let cur := if nl2 then cur ++ ztake (zlen line - 2) line ++ [10] else cur ++ line in
            let cr := if nl2 then true else cr in
            match read_line data e with
            | None => PNeed
            | Some (line', data', inc) => pq line' data' (adv + inc) cur done cr
            end
        | [] => PDone adv (done ++ [cur]) cr
        end
    end.
Proof.
  unfold pq at 1. rewrite parse_quoted_S. destruct (cut_byte 34 line) as [[pre line1]|] eqn:E.
  - apply cut_byte_some_inv in E as [-> _]. rewrite app_length. cbn [length]. cbv zeta.
    destruct (next_rune line1 =? 34).
    { apply pq_fuel. pose proof (length_zdrop_le 1 line1). lia. }
    destruct (next_rune line1 =? c_sep c).
    { apply pf_fuel. pose proof (length_zdrop_le (sep_len c) line1). lia. }
    destruct (len_newline line1 =? zlen line1); [reflexivity|]. apply pq_fuel. lia.
  - destruct line as [|x line]; [reflexivity|]. cbv zeta.
    destruct (read_line data e) as [[[line' data'] inc]|] eqn:R; [|reflexivity].
    apply pq_fuel. apply read_line_size in R. cbn [length]. lia.
Qed.

End NoFuel.

(* the BOM a call skips, what it then reads, and where its advance starts *)
Definition isbom (s : csv_st) (data : bytes) : bool := negb (st_noBOM s) && prefix_of bom data.
Definition bdy (s : csv_st) (data : bytes) : bytes := if isbom s data then zdrop 3 data else data.
Definition a0 (s : csv_st) (data : bytes) : Z := if isbom s data then 3 else 0.

Lemma bdy_split s data : data = (if isbom s data then bom else []) ++ bdy s data.
Proof.
  unfold bdy. destruct (isbom s data) eqn:B; [|reflexivity]. unfold isbom in B.
  apply andb_true_iff in B as [_ B]. apply prefix_of_inv in B as [t ->].
  change 3 with (zlen bom). rewrite zdrop_zlen_app. reflexivity.
Qed.

Lemma bdy_len s data : a0 s data + zlen (bdy s data) = zlen data /\ 0 <= a0 s data <= 3.
Proof.
  pose proof (bdy_split s data) as H. unfold a0. destruct (isbom s data).
  - split; [|lia]. rewrite H at 2. rewrite zlen_app. cbn. lia.
  - cbn [app] in H. rewrite <- H. lia.
Qed.

(* what the call returns once the first loop has found the row's first line and parseField
   has read the row: the state with the BOM check done and the row counted, and the header
   names or the record whose $0 is cut out of the original data *)
Definition scan_done (c : csv_cfg) (s : csv_st) (data stale : bytes) (nz skip adv : Z)
  (fields : list bytes) (cr : bool) : csv_st * scan_out :=
  (mkSt true (st_row s + 1),
   if (st_row s =? 0) && c_header c then OHeader adv fields
   else match slice_cap (data ++ stale) nz skip adv with
        | Ok tok =>
            let tok := ztake (zlen tok - len_newline tok) tok in
            ORecord adv (if cr then remove_cr tok else tok) fields
        | _ => OPanic
        end).

Lemma scan_unfold c s data stale nz e :
  scan c s data stale nz e =
    if e && (zlen (bdy s data) =? 0) then (s, ONeed)
    else
      match skip_lines c e (S (length (bdy s data))) (bdy s data) (a0 s data) (a0 s data) with
      | SkNeed => (s, ONeed)
      | SkFuel => (s, OFuel)
      | SkLine line data2 adv skip =>
          match parse_field c e (S (length (bdy s data))) line data2 adv [] false with
          | PNeed => (s, ONeed)
          | PFuel => (s, OFuel)
          | PDone adv fields cr => scan_done c s data stale nz skip adv fields cr
          end
      end.
Proof.
  unfold scan, scan_done, a0, bdy, isbom. cbv zeta.
  destruct (e && _); [reflexivity|].
  destruct (skip_lines c e _ _ _ _) as [| |line data2 adv skip]; try reflexivity.
  destruct (parse_field c e _ _ _ _ _ _) as [|adv' fields cr|]; try reflexivity.
  destruct ((st_row s =? 0) && c_header c); [reflexivity|].
  destruct (slice_cap (data ++ stale) nz skip adv'); reflexivity.
Qed.

(* A call either asks for more data, leaving the state alone, or it finds the row: the fuel
   the two loops get never runs out ... *)
Lemma scan_cases c s data stale nz e :
  scan c s data stale nz e = (s, ONeed) \/
  exists line d adv1 skip adv fields cr,
    e && (zlen (bdy s data) =? 0) = false /\
    skip_lines c e (S (length (bdy s data))) (bdy s data) (a0 s data) (a0 s data) = SkLine line d adv1 skip /\
    parse_field c e (S (length (bdy s data))) line d adv1 [] false = PDone adv fields cr /\
    scan c s data stale nz e = scan_done c s data stale nz skip adv fields cr.
Proof.
  rewrite scan_unfold.
  destruct (e && (zlen (bdy s data) =? 0)); [left; reflexivity|].
  destruct (skip_lines c e _ _ _ _) as [| |line d adv1 skip] eqn:Sk.
  - left. reflexivity.
  - exfalso. eapply skip_enough; [|exact Sk]. lia.
  - pose proof (skip_lines_size _ _ _ _ _ _ _ _ _ _ Sk) as Hsz.
    destruct (parse_field c e _ _ _ _ _ _) as [|adv fields cr|] eqn:P.
    + left. reflexivity.
    + right. exists line, d, adv1, skip, adv, fields, cr. auto.
    + exfalso. eapply (proj1 (parse_enough c e _)); [|exact P]. lia.
Qed.

(* ... and, conversely, whatever fuel the two loops found the row with *)
Lemma scan_intro c s data stale nz e f f' line d adv1 skip adv fields cr :
  e && (zlen (bdy s data) =? 0) = false ->
  skip_lines c e f (bdy s data) (a0 s data) (a0 s data) = SkLine line d adv1 skip ->
  parse_field c e f' line d adv1 [] false = PDone adv fields cr ->
  scan c s data stale nz e = scan_done c s data stale nz skip adv fields cr.
Proof.
  intros Hz Sk P. pose proof (skip_lines_size _ _ _ _ _ _ _ _ _ _ Sk) as Hsz.
  rewrite scan_unfold, Hz.
  rewrite (skip_at_fuel c e f _ _ _ _ _ Sk) by (discriminate || lia).
  rewrite (parse_at_fuel c e f' _ _ _ _ _ _ _ P) by (discriminate || lia).
  reflexivity.
Qed.

Lemma scan_done_out c s data stale nz skip adv fields cr :
  match snd (scan_done c s data stale nz skip adv fields cr) with
  | OHeader a _ | ORecord a _ _ => a = adv
  | OPanic => True
  | ONeed | OFuel => False
  end.
Proof.
  unfold scan_done. cbn [snd]. destruct ((st_row s =? 0) && c_header c); [reflexivity|].
  destruct (slice_cap (data ++ stale) nz skip adv); [reflexivity | exact I ..].
Qed.

Theorem scan_never_fuel c s data stale nz e : snd (scan c s data stale nz e) <> OFuel.
Proof.
  destruct (scan_cases c s data stale nz e) as [-> | (line & d & adv1 & skip & adv & fields & cr & _ & _ & _ & ->)];
    [discriminate|].
  intros E. pose proof (scan_done_out c s data stale nz skip adv fields cr) as H. rewrite E in H. exact H.
Qed.
