(* C12: run-level consequences — a denied attempt ends the run (every form, plain
   getline included since the repair of F-C12-1), an ordinary open error of an operand
   still gives getline -1, provenance of every open stream, reuse of open names,
   availability of standard input. *)
From Verif Require Import Lib.Base Gen.Consts Model.Sandbox Proofs.Sandbox.

(* a denied attempt ends the run: all histories, all request forms *)
Theorem denied_attempt_ends_run : forall c e s h1 r h2,
  all_continue (run_log c e s h1) = true ->
  attempts c e (run_state c e s h1) r ->
  exists effs x,
    run_log c e s (h1 ++ r :: h2) = run_log c e s h1 ++ [(effs, Stop x)] /\
    is_sandbox_err x = true /\ forallb is_std effs = true.
Proof.
  intros c e s h1 r h2 Hc Ha.
  destruct (denied_attempt_stops c e _ r Ha) as [x [Ho [Hx Hstd]]].
  rewrite run_log_app, Hc. cbn [run_log].
  destruct (io_step c e (run_state c e s h1) r) as [[effs o] s'].
  cbn in Ho, Hstd. subst o. exists effs, x. cbn [is_continue]. auto.
Qed.

(* the former witness of F-C12-1 (NoFileReads, operand in1, BEGIN { getline; print > "out" }) *)
Definition wit_cfg : config := mkConfig false false true false.           (* NoFileReads only *)
Definition wit_env : env := env_of_tables [OsOk; OsOk] [] true.
Definition wit_in1 : bytes := [105; 110; 49].                             (* "in1" *)
Definition wit_out : bytes := [111; 117; 116].                            (* "out" *)
Definition wit_state : state := init_state [wit_in1] 0.

(* the run now ends at the getline with the sandbox error; "out" is never opened *)
Theorem plain_getline_denial_ends_run :
  run_log wit_cfg wit_env wit_state [NextLine ViaGetline; OpenWrite wit_out]
  = [([], Stop ENoFileReads)].
Proof. vm_compute. reflexivity. Qed.

(* the two callers of nextLine treat the denial alike *)
Theorem plain_getline_denied_like_main_loop : forall c e s,
  attempts c e s (NextLine ViaGetline) ->
  snd (fst (io_step c e s (NextLine ViaGetline))) = Stop ENoFileReads /\
  snd (fst (io_step c e s (NextLine ViaMain))) = Stop ENoFileReads.
Proof.
  intros c e s Ha.
  destruct (denied_attempt_stops c e s _ Ha) as [x [Ho _]].
  cbn [io_step] in *. unfold next_line_via in *.
  destruct (next_line c e s) as [[e1 o1] s1].
  destruct o1 as [| |y|]; cbn in Ho; try discriminate.
  destruct y; cbn in Ho; try discriminate. split; reflexivity.
Qed.

(* only the denial is propagated: a failing open of the operand still makes plain getline
   yield -1 and the program goes on (POSIX) *)
Theorem plain_getline_open_error_is_minus1 : forall c e s,
  snd (fst (next_line c e s)) = NLErr EOpen ->
  snd (fst (io_step c e s (NextLine ViaGetline))) = Continue RNeg1.
Proof.
  intros c e s H. cbn [io_step]. unfold next_line_via.
  destruct (next_line c e s) as [[e1 o1] s1]. cbn in H. subst o1. reflexivity.
Qed.

Lemma lookup_remove n m t :
  lookup n (remove m t) = if bytes_eqb n m then None else lookup n t.
Proof.
  induction t as [|[m' k'] t IH]; cbn [remove lookup].
  - destruct (bytes_eqb n m); reflexivity.
  - destruct (bytes_eqb m m') eqn:Hmm.
    + apply bytes_eqb_eq in Hmm. subst m'. rewrite IH. destruct (bytes_eqb n m); reflexivity.
    + cbn [lookup]. rewrite IH. destruct (bytes_eqb n m) eqn:Hnm; [|reflexivity].
      apply bytes_eqb_eq in Hnm. subst n. rewrite Hmm. reflexivity.
Qed.

Lemma lookup_insert n m k t :
  lookup n (insert m k t) = if bytes_eqb n m then Some k else lookup n t.
Proof.
  unfold insert. cbn [lookup]. destruct (bytes_eqb n m) eqn:H; [reflexivity|].
  rewrite lookup_remove, H. reflexivity.
Qed.

(* provenance: every stream in the tables was obtained through the open function or a process start
   that appears in the trace *)
Definition just_in (E : list effect) (n : bytes) (k : skind) : Prop :=
  match k with KFile => In (CallOpenFile n ORead) E | KCmd => In (StartProcess n) E | KNull => False end.

Definition just_out (E : list effect) (n : bytes) (k : skind) : Prop :=
  match k with KFile => In (CallOpenFile n OTrunc) E \/ In (CallOpenFile n OAppend) E | _ => In (StartProcess n) E end.

Definition tbl_ok (J : bytes -> skind -> Prop) (t : list (bytes * skind)) : Prop :=
  forall n k, lookup n t = Some k -> J n k.

Definition prov (E : list effect) (s : state) : Prop :=
  tbl_ok (just_in E) (ins s) /\ tbl_ok (just_out E) (outs s).

Lemma tbl_ok_insert (J : bytes -> skind -> Prop) t n k : J n k -> tbl_ok J t -> tbl_ok J (insert n k t).
Proof.
  intros Hj Ht m k' H. rewrite lookup_insert in H. destruct (bytes_eqb m n) eqn:He; [|auto].
  apply bytes_eqb_eq in He. injection H as <-. subst m. exact Hj.
Qed.

Lemma tbl_ok_remove (J : bytes -> skind -> Prop) t n : tbl_ok J t -> tbl_ok J (remove n t).
Proof. intros Ht m k H. rewrite lookup_remove in H. destruct (bytes_eqb m n); [discriminate|auto]. Qed.

Lemma tbl_in_grow E effs t : tbl_ok (just_in E) t -> tbl_ok (just_in (E ++ effs)) t.
Proof. intros H n k Hl. specialize (H n k Hl). destruct k; cbn in *; rewrite ?in_app_iff; tauto. Qed.

Lemma tbl_out_grow E effs t : tbl_ok (just_out E) t -> tbl_ok (just_out (E ++ effs)) t.
Proof. intros H n k Hl. specialize (H n k Hl). destruct k; cbn in *; rewrite ?in_app_iff; tauto. Qed.

Local Hint Resolve tbl_ok_insert tbl_ok_remove tbl_in_grow tbl_out_grow in_elt : prov.
Local Hint Extern 1 (just_in _ _ _) => cbn : prov.
Local Hint Extern 1 (just_out _ _ _) => cbn : prov.

Lemma io_step_prov c e s r E :
  prov E s -> prov (E ++ fst (fst (io_step c e s r))) (snd (io_step c e s r)).
Proof.
  intros [Hi Ho]. destruct r; cbn [io_step]; gates;
    try solve [destruct_matches; split;
               cbn [fst snd ins outs set_ins set_outs set_stdin_scanner set_stdin_left set_argv set_argc bump_open bump_start];
               auto with prov].
  destruct (next_line_via_ok c e s v) as (_ & Ti & To). split; [rewrite Ti|rewrite To]; auto with prov.
Qed.

Lemma run_prov c e : forall h s E,
  prov E s -> prov (E ++ run_effects c e s h) (run_state c e s h).
Proof.
  unfold run_effects, effects_of.
  induction h as [|r h IH]; intros s E HP.
  - cbn. rewrite app_nil_r. exact HP.
  - cbn [run_log run_state]. pose proof (io_step_prov c e s r E HP) as HP'.
    destruct (io_step c e s r) as [[effs o] s']. cbn [fst snd map concat] in *. destruct (is_continue o).
    + rewrite app_assoc. apply IH. exact HP'.
    + cbn [map concat]. rewrite app_nil_r. exact HP'.
Qed.

(* every file the program holds open was opened by a call of the configured open function,
   every command stream by a process start, both recorded in the trace of the run *)
Theorem all_opens_via_hook : forall c e args k h,
  let s' := run_state c e (init_state args k) h in
  let E := run_effects c e (init_state args k) h in
  (forall n, lookup n (ins s') = Some KFile -> In (CallOpenFile n ORead) E) /\
  (forall n, lookup n (outs s') = Some KFile -> In (CallOpenFile n OTrunc) E \/ In (CallOpenFile n OAppend) E) /\
  (forall n, lookup n (ins s') = Some KCmd -> In (StartProcess n) E) /\
  (forall n k', lookup n (outs s') = Some k' -> k' <> KFile -> In (StartProcess n) E).
Proof.
  intros c e args k h s' E.
  assert (H0 : prov [] (init_state args k)) by (split; intros n k' H; discriminate).
  destruct (run_prov c e h (init_state args k) [] H0) as [Hi Ho]. cbn [app] in *.
  repeat split; intros n; [apply (Hi n KFile)|apply (Ho n KFile)|apply (Hi n KCmd)|].
  intros k' H Hk. specialize (Ho n k' H). destruct k'; [contradiction|exact Ho..].
Qed.

(* consequently: under the flags the tables never hold such a stream *)
Corollary nofilewrites_no_file_writer : forall c e args k h n,
  noFileWrites c = true -> lookup n (outs (run_state c e (init_state args k) h)) <> Some KFile.
Proof.
  intros c e args k h n Hf Hl.
  destruct (all_opens_via_hook c e args k h) as (_ & H2 & _).
  destruct (H2 n Hl) as [Hin | Hin]; apply (nofilewrites_confines c e _ h Hf) in Hin; discriminate.
Qed.

Corollary nofilereads_no_file_reader : forall c e args k h n,
  noFileReads c = true -> lookup n (ins (run_state c e (init_state args k) h)) <> Some KFile.
Proof.
  intros c e args k h n Hf Hl.
  destruct (all_opens_via_hook c e args k h) as (H1 & _).
  exact (nofilereads_confines c e _ h Hf n (H1 n Hl)).
Qed.

Corollary noexec_no_command_stream : forall c e args k h n,
  noExec c = true ->
  lookup n (ins (run_state c e (init_state args k) h)) <> Some KCmd /\
  lookup n (outs (run_state c e (init_state args k) h)) <> Some KCmd /\
  lookup n (outs (run_state c e (init_state args k) h)) <> Some KNull.
Proof.
  intros c e args k h n Hf.
  destruct (all_opens_via_hook c e args k h) as (_ & _ & H3 & H4).
  repeat split; intros Hl.
  - exact (noexec_confines c e _ h Hf n (H3 n Hl)).
  - exact (noexec_confines c e _ h Hf n (H4 n KCmd Hl ltac:(discriminate))).
  - exact (noexec_confines c e _ h Hf n (H4 n KNull Hl ltac:(discriminate))).
Qed.

(* names already open are reused: no flag test, no open, no start *)
Theorem open_name_reused_out : forall c e s n k r,
  lookup n (ins s) = None -> lookup n (outs s) = Some k ->
  r = OpenWrite n \/ r = OpenAppend n \/ r = PipeTo n ->
  io_step c e s r = ([Reuse n k], Continue RNone, s).
Proof.
  intros c e s n k r Hi Ho [-> | [-> | ->]]; cbn [io_step]; unfold get_output_stream; rewrite Hi, Ho; reflexivity.
Qed.

Theorem open_name_reused_in : forall c e s n k r,
  lookup n (outs s) = None -> lookup n (ins s) = Some k ->
  r = ReadFile n \/ r = ReadCmd n ->
  io_step c e s r = ([Reuse n k], Continue RNonNeg, s).
Proof.
  intros c e s n k r Ho Hi [-> | ->]; cbn [io_step];
    unfold get_input_scanner_file, get_input_scanner_pipe; rewrite Hi, Ho; reflexivity.
Qed.

(* after close the name is gone from both tables' view of it, so the next use is gated again *)
Theorem close_forgets : forall s n effs o s',
  builtin_close s n = (effs, o, s') ->
  (lookup n (ins s) <> None -> lookup n (ins s') = None) /\
  (lookup n (ins s) = None -> lookup n (outs s') = None).
Proof.
  intros s n effs o s' H. unfold builtin_close in H.
  destruct (lookup n (ins s)) eqn:Hi.
  - injection H as <- <- <-. split; [intros _|congruence]. cbn. rewrite lookup_remove, bytes_eqb_refl. reflexivity.
  - destruct (lookup n (outs s)) eqn:Ho; injection H as <- <- <-; (split; [congruence | intros _]).
    + cbn. rewrite lookup_remove, bytes_eqb_refl. reflexivity.
    + exact Ho.
Qed.

(* standard input stays available, whatever the flags *)
Theorem stdin_dash_available : forall c e s,
  lookup dash (outs s) = None -> lookup dash (ins s) = None ->
  exists s', io_step c e s (ReadFile dash) = ([UseStd StdIn], Continue RNonNeg, s').
Proof.
  intros c e s Ho Hi. cbn [io_step]. unfold get_input_scanner_file. rewrite Ho, Hi. cbn. eexists. reflexivity.
Qed.

Theorem stdin_main_available : forall c e k v,
  exists s', io_step c e (init_state [] k) (NextLine v) = ([UseStd StdInMain], Continue RNonNeg, s').
Proof.
  intros c e k v. destruct k; destruct v; vm_compute; eexists; reflexivity.
Qed.

Theorem stdin_operand_dash_available : forall c e k v,
  exists s', io_step c e (init_state [dash] k) (NextLine v) = ([UseStd StdInMain], Continue RNonNeg, s').
Proof.
  intros c e k v. destruct c as [f1 f2 f3 f4]; destruct f4; destruct k; destruct v; vm_compute; eexists; reflexivity.
Qed.

(* "-" as output, /dev/stdout and /dev/stderr are never opened: existing streams are used *)
Theorem std_names_never_opened : forall c e s r n,
  (r = OpenWrite n \/ r = OpenAppend n) ->
  n = dash \/ n = dev_stdout \/ n = dev_stderr ->
  forall x, In x (fst (fst (io_step c e s r))) -> is_write_open x = false /\ is_read_open x = false /\ is_start x = false.
Proof.
  intros c e s r n Hr Hn x Hin.
  destruct Hr as [-> | ->]; cbn [io_step] in Hin; unfold get_output_stream in Hin;
    (destruct (lookup n (ins s)); [contradiction|]); (destruct (lookup n (outs s)); [destruct Hin as [<-|[]]; auto|]);
    destruct Hn as [-> | [-> | ->]]; cbn in Hin; destruct (noFileWrites c); cbn in Hin; intuition (subst; auto).
Qed.

(* all three flags: from empty tables a run touches nothing but standard streams *)
Definition tables_empty (s : state) : Prop := ins s = [] /\ outs s = [].

Lemma sandboxed_step c e s r :
  noExec c = true -> noFileWrites c = true -> noFileReads c = true -> tables_empty s ->
  forallb is_std (fst (fst (io_step c e s r))) = true /\ tables_empty (snd (io_step c e s r)).
Proof.
  intros Hx Hw Hr [Hi Ho]. unfold tables_empty.
  destruct r; cbn [io_step]; gates;
    rewrite ?Hi, ?Ho; cbn [lookup]; rewrite ?Hx, ?Hw, ?Hr; try solve [destruct_matches; cbn; auto].
  destruct (next_line_via_ok c e s v) as (H & Ti & To). rewrite Ti, To. split; [|auto].
  exact (forallb_impl _ _ _ (fun x => nl_eff_std c x Hr) H).
Qed.

Theorem sandboxed_only_std : forall c e h s,
  noExec c = true -> noFileWrites c = true -> noFileReads c = true -> tables_empty s ->
  forallb is_std (run_effects c e s h) = true.
Proof.
  intros c e h s Hx Hw Hr. apply run_effects_all.
  intros s0 r. apply sandboxed_step; assumption.
Qed.
