(* C05: number to string.  The integer special case of value.str is taken exactly
   for the integral doubles in [-2^63, 2^63), and then prints the exact decimal
   integer; every other finite number goes through the format. *)
From Verif Require Import Lib.Base Lib.Dyadic Lib.Utf8 Model.Value.

(* the test v.n == float64(int64(v.n)) *)
Lemma fin_cmp_eq_int m e t :
  fin_cmp m e t 0 = Eq <-> (if 0 <=? e then m * 2 ^ e = t else m = t * 2 ^ (- e)).
Proof.
  unfold fin_cmp. rewrite Z.compare_eq_iff.
  destruct (0 <=? e) eqn:E.
  - apply Z.leb_le in E. rewrite Z.min_r by lia. rewrite Z.sub_0_r, Z.sub_diag, Z.pow_0_r, Z.mul_1_r. reflexivity.
  - apply Z.leb_gt in E. rewrite Z.min_l by lia. rewrite Z.sub_diag, Z.pow_0_r, Z.mul_1_r.
    replace (0 - e) with (- e) by lia. reflexivity.
Qed.

Lemma int_path_iff m e :
  int_path (FFin m e) = true <-> is_integral m e = true /\ in_i64 (ftrunc m e) = true.
Proof.
  unfold int_path, feq, f2i64.
  set (t := ftrunc m e).
  assert (Hcmp : forall u, (match fin_cmp m e u 0 with Eq => true | _ => false end) = true <-> fin_cmp m e u 0 = Eq).
  { intro u. destruct (fin_cmp m e u 0); split; congruence. }
  rewrite Hcmp, fin_cmp_eq_int.
  unfold is_integral, ftrunc in *.
  destruct (0 <=? e) eqn:E.
  - (* e >= 0: x is the integer m * 2^e *)
    subst t. destruct (in_i64 (m * 2 ^ e)) eqn:R.
    + split; [intros _; split; reflexivity | intros _; reflexivity].
    + split; [|intros [_ H]; discriminate].
      intro H. exfalso. rewrite H in R. vm_compute in R. discriminate.
  - (* e < 0: x = m / 2^(-e) *)
    apply Z.leb_gt in E.
    pose proof (Z.pow_pos_nonneg 2 (- e) ltac:(lia) ltac:(lia)) as Hd. set (d := 2 ^ (- e)) in *.
    pose proof (Z.quot_rem' m d) as Hqr.
    destruct (in_i64 t) eqn:R; subst t.
    + split.
      * intro H. split; [|reflexivity]. apply Z.eqb_eq. lia.
      * intros [H _]. apply Z.eqb_eq in H. lia.
    + split; [|intros [_ H]; discriminate].
      intro H. exfalso.
      assert (Z.quot m d = - two63) as Hq.
      { rewrite H. rewrite Z.quot_mul by lia. reflexivity. }
      rewrite Hq in R. vm_compute in R. discriminate.
Qed.

(* the branch value.str takes, for every finite double *)
Lemma num_to_str_finite fmt m e :
  num_to_str fmt (FFin m e) =
    if is_integral m e && in_i64 (ftrunc m e) then Ok (format_int (ftrunc m e))
    else format_float fmt m e.
Proof.
  cbn [num_to_str].
  destruct (int_path (FFin m e)) eqn:P.
  - apply int_path_iff in P as [H1 H2]. rewrite H1, H2. cbn [andb f2i64]. rewrite H2. reflexivity.
  - destruct (is_integral m e && in_i64 (ftrunc m e)) eqn:Q; [|reflexivity].
    apply andb_true_iff in Q. apply int_path_iff in Q. congruence.
Qed.

(* the integer a string of decimal digit characters denotes *)
Definition dec_chars_value (s : bytes) : Z := fold_left (fun a c => a * 10 + (c - 48)) s 0.

(* optional '-' then digits *)
Definition int_text_value (s : bytes) : Z :=
  match s with
  | c :: t => if c =? 45 then - dec_chars_value t else dec_chars_value s
  | [] => 0
  end.

Fixpoint value_rev (l : list Z) : Z :=
  match l with [] => 0 | d :: t => d + 10 * value_rev t end.

Lemma digs_rev_value fuel n :
  0 <= n < 2 ^ Z.of_nat fuel -> value_rev (digs_rev fuel n) = n.
Proof.
  revert n; induction fuel as [|f IH]; intros n Hn.
  - change (2 ^ Z.of_nat 0) with 1 in Hn. cbn [digs_rev value_rev]. lia.
  - cbn [digs_rev]. destruct (n <? 10) eqn:E.
    + cbn [value_rev]. lia.
    + apply Z.ltb_ge in E. cbn [value_rev]. rewrite IH.
      * pose proof (Z.div_mod n 10 ltac:(lia)). lia.
      * split; [apply Z.div_pos; lia|].
        rewrite Nat2Z.inj_succ, Z.pow_succ_r in Hn by lia.
        apply Z.div_lt_upper_bound; lia.
Qed.

Lemma digs_rev_digits fuel n : 0 <= n -> Forall (fun d => 0 <= d <= 9) (digs_rev fuel n).
Proof.
  revert n; induction fuel as [|f IH]; intros n Hn; cbn [digs_rev]; [constructor|].
  destruct (n <? 10) eqn:E.
  - apply Z.ltb_lt in E. repeat constructor; lia.
  - constructor.
    + pose proof (Z.mod_pos_bound n 10). lia.
    + apply IH. apply Z.div_pos; lia.
Qed.

Lemma fold_left_dec_app l a :
  fold_left (fun a c => a * 10 + (c - 48)) (map (fun x => 48 + x) l) a =
  fold_left (fun a d => a * 10 + d) l a.
Proof. revert a; induction l as [|d l IH]; intro a; cbn [map fold_left]; [reflexivity|]. rewrite IH. f_equal. lia. Qed.

Lemma fold_left_rev_value l : fold_left (fun a d => a * 10 + d) (rev l) 0 = value_rev l.
Proof.
  induction l as [|d l IH]; cbn [rev value_rev]; [reflexivity|].
  rewrite fold_left_app. cbn [fold_left]. rewrite IH. lia.
Qed.

(* the fuel ndigits gives digs_rev is enough *)
Lemma log2_fuel n : 0 < n -> n < 2 ^ Z.of_nat (S (Z.to_nat (Z.log2 n))).
Proof. intro H. rewrite Nat2Z.inj_succ, Z2Nat.id by apply Z.log2_nonneg. apply Z.log2_spec. exact H. Qed.

Lemma ndigits_value n : 0 <= n -> dec_chars_value (digit_chars (ndigits n)) = n.
Proof.
  intro Hn. unfold dec_chars_value, digit_chars, ndigits.
  rewrite fold_left_dec_app, fold_left_rev_value. apply digs_rev_value.
  split; [lia|]. destruct (Z.eq_dec n 0) as [->|Hnz]; [cbn; lia|apply log2_fuel; lia].
Qed.

(* no leading zero except for 0 itself, digits only: the text is the canonical numeral *)
Lemma digs_rev_last_nonzero fuel n :
  0 < n < 2 ^ Z.of_nat fuel -> exists d t, rev (digs_rev fuel n) = d :: t /\ 1 <= d <= 9.
Proof.
  revert n; induction fuel as [|f IH]; intros n Hn.
  - change (2 ^ Z.of_nat 0) with 1 in Hn. lia.
  - cbn [digs_rev]. destruct (n <? 10) eqn:E.
    + apply Z.ltb_lt in E. exists n, []. split; [reflexivity|lia].
    + apply Z.ltb_ge in E. cbn [rev].
      destruct (IH (n / 10)) as [d [t [Hr Hd]]].
      * split; [apply Z.div_str_pos; lia|].
        rewrite Nat2Z.inj_succ, Z.pow_succ_r in Hn by lia.
        apply Z.div_lt_upper_bound; lia.
      * rewrite Hr. exists d, (t ++ [n mod 10]). split; [reflexivity|exact Hd].
Qed.

Lemma ndigits_canonical n :
  0 <= n -> exists d t, ndigits n = d :: t /\ 0 <= d <= 9 /\
    Forall (fun x => 0 <= x <= 9) t /\ (d = 0 -> t = [] /\ n = 0).
Proof.
  intros Hn. destruct (Z.eq_dec n 0) as [->|Hnz].
  - exists 0, []. repeat split; try lia; constructor.
  - unfold ndigits.
    destruct (digs_rev_last_nonzero (S (Z.to_nat (Z.log2 n))) n) as [d [t [Hr Hd]]]; [split; [lia|apply log2_fuel; lia]|].
    pose proof (digs_rev_digits (S (Z.to_nat (Z.log2 n))) n Hn) as HF. apply Forall_rev in HF.
    rewrite Hr in HF. inversion HF; subst.
    exists d, t. repeat split; try lia; try assumption.
Qed.

Lemma format_int_exact z : int_text_value (format_int z) = z.
Proof.
  unfold format_int. destruct (z <? 0) eqn:E.
  - apply Z.ltb_lt in E. cbn [int_text_value]. rewrite Z.eqb_refl. rewrite ndigits_value by lia. lia.
  - apply Z.ltb_ge in E. pose proof (ndigits_value z E) as Hv.
    destruct (ndigits_canonical z E) as (d & t & Hn & Hd & _). rewrite Hn in Hv |- *.
    cbn [digit_chars map int_text_value] in Hv |- *. destruct (Z.eqb_spec (48 + d) 45); [lia|exact Hv].
Qed.

Lemma format_int_canonical z :
  exists sg d t, format_int z = sg ++ (48 + d) :: digit_chars t /\
    (sg = [] \/ sg = [45] /\ z < 0) /\ 0 <= d <= 9 /\ Forall (fun x => 0 <= x <= 9) t /\
    (d = 0 -> t = [] /\ z = 0).
Proof.
  unfold format_int. destruct (z <? 0) eqn:E.
  - apply Z.ltb_lt in E. destruct (ndigits_canonical (- z)) as [d [t [Hn [Hd [Ht H0]]]]]; [lia|].
    exists [45], d, t. rewrite Hn. cbn [digit_chars map app].
    split; [reflexivity|]. split; [right; split; [reflexivity|exact E]|].
    split; [exact Hd|]. split; [exact Ht|].
    intro H. destruct (H0 H) as [_ Hz]. lia.
  - apply Z.ltb_ge in E. destruct (ndigits_canonical z E) as [d [t [Hn [Hd [Ht H0]]]]].
    exists [], d, t. rewrite Hn. cbn [digit_chars map app].
    split; [reflexivity|]. split; [left; reflexivity|].
    split; [exact Hd|]. split; [exact Ht|exact H0].
Qed.
