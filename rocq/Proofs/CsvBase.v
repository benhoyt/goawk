(* C08: basic facts about the byte-string helpers of Model/Csv.v and about the UTF-8
   encoding of a valid separator. *)
From Verif Require Import Lib.Base Lib.Utf8 Model.Csv Proofs.Utf8Facts.
From Coq Require Import ZifyBool.

Definition nob (b : Z) (u : bytes) : Prop := Forall (fun x => x <> b) u.

Lemma nob_nil b : nob b []. Proof. constructor. Qed.
Lemma nob_cons b x u : nob b (x :: u) <-> x <> b /\ nob b u.
Proof. split; [intros H; inversion H; auto | intros [H1 H2]; constructor; auto]. Qed.
Lemma nob_app b u v : nob b (u ++ v) <-> nob b u /\ nob b v.
Proof. unfold nob. apply Forall_app. Qed.

Ltac zl := repeat (rewrite ?zlen_app, ?zlen_cons, ?zlen_nil in *).

Lemma cut_byte_skip b u s : nob b u ->
  cut_byte b (u ++ s) = match cut_byte b s with Some (l, d) => Some (u ++ l, d) | None => None end.
Proof.
  induction u as [|x u IH]; intros H; cbn [app cut_byte].
  - destruct (cut_byte b s) as [[l d]|]; reflexivity.
  - apply nob_cons in H as [Hx Hu]. destruct (Z.eqb_spec x b); [contradiction|].
    rewrite IH by assumption. destruct (cut_byte b s) as [[l d]|]; reflexivity.
Qed.

Lemma cut_byte_app b u s : nob b u -> cut_byte b (u ++ b :: s) = Some (u, s).
Proof. intros H. rewrite cut_byte_skip by exact H. cbn [cut_byte]. rewrite Z.eqb_refl, app_nil_r. reflexivity. Qed.

Lemma cut_byte_none b u : nob b u -> cut_byte b u = None.
Proof. intros H. rewrite <- (app_nil_r u), cut_byte_skip by exact H. reflexivity. Qed.

Lemma cut_byte_some_inv b s u v : cut_byte b s = Some (u, v) -> s = u ++ b :: v /\ nob b u.
Proof.
  revert u v; induction s as [|x s IH]; intros u v H; cbn [cut_byte] in H; [discriminate|].
  destruct (Z.eqb_spec x b) as [->|Hx].
  - injection H as <- <-. split; [reflexivity | apply nob_nil].
  - destruct (cut_byte b s) as [[u' v']|]; [|discriminate]. injection H as <- <-.
    destruct (IH _ _ eq_refl) as [-> Hn]. split; [reflexivity | apply nob_cons; auto].
Qed.

Lemma cut_byte_none_inv b s : cut_byte b s = None -> nob b s.
Proof.
  induction s as [|x s IH]; intros H; [apply nob_nil|]. cbn [cut_byte] in H.
  destruct (Z.eqb_spec x b); [discriminate|].
  destruct (cut_byte b s) as [[u v]|]; [discriminate|]. apply nob_cons; auto.
Qed.

Lemma cut_nl_cut_byte s :
  cut_nl s = match cut_byte 10 s with Some (u, v) => Some (u ++ [10], v) | None => None end.
Proof.
  induction s as [|x s IH]; [reflexivity|]. cbn [cut_nl cut_byte].
  destruct (Z.eqb_spec x 10) as [->|]; [reflexivity|]. rewrite IH.
  destruct (cut_byte 10 s) as [[u v]|]; reflexivity.
Qed.

Lemma cut_nl_nl s : cut_nl (10 :: s) = Some ([10], s).
Proof. reflexivity. Qed.

Lemma cut_nl_cons x s : x <> 10 ->
  cut_nl (x :: s) = match cut_nl s with Some (u, v) => Some (x :: u, v) | None => None end.
Proof. intros H. cbn [cut_nl]. destruct (Z.eqb_spec x 10); [contradiction | reflexivity]. Qed.

Lemma cut_nl_app u s : nob 10 u ->
  cut_nl (u ++ s) = match cut_nl s with Some (l, d) => Some (u ++ l, d) | None => None end.
Proof.
  intros H. rewrite !cut_nl_cut_byte, cut_byte_skip by exact H.
  destruct (cut_byte 10 s) as [[l d]|]; [rewrite app_assoc|]; reflexivity.
Qed.

Lemma cut_nl_none u : nob 10 u -> cut_nl u = None.
Proof. intros H. rewrite cut_nl_cut_byte, cut_byte_none by exact H. reflexivity. Qed.

Lemma cut_nl_some_inv s l d : cut_nl s = Some (l, d) ->
  exists u, l = u ++ [10] /\ nob 10 u /\ s = l ++ d.
Proof.
  rewrite cut_nl_cut_byte. destruct (cut_byte 10 s) as [[u v]|] eqn:E; [|discriminate].
  intros H. injection H as <- <-. apply cut_byte_some_inv in E as [-> Hu].
  exists u. rewrite <- app_assoc. auto.
Qed.

Lemma cut_nl_none_inv s : cut_nl s = None -> nob 10 s.
Proof.
  rewrite cut_nl_cut_byte. destruct (cut_byte 10 s) as [[u v]|] eqn:E; [discriminate|].
  intros _. apply cut_byte_none_inv. exact E.
Qed.

Lemma prefix_of_app p s : prefix_of p (p ++ s) = true.
Proof. induction p as [|x p IH]; cbn [app prefix_of]; [reflexivity|]. rewrite Z.eqb_refl. exact IH. Qed.

Lemma prefix_of_inv p s : prefix_of p s = true -> exists t, s = p ++ t.
Proof.
  revert s; induction p as [|x p IH]; intros s H; cbn [prefix_of] in H.
  - exists s. reflexivity.
  - destruct s as [|y s]; [discriminate|]. apply andb_true_iff in H as [H1 H2].
    apply Z.eqb_eq in H1 as ->. destruct (IH _ H2) as [t ->]. exists t. reflexivity.
Qed.

Lemma prefix_of_nil_r p : p <> [] -> prefix_of p [] = false.
Proof. destruct p; [congruence | reflexivity]. Qed.

(* no occurrence of [p] starts inside [u] when [u] is followed by [T] *)
Fixpoint no_occ (p u T : bytes) : Prop :=
  match u with
  | [] => True
  | _ :: u' => prefix_of p (u ++ T) = false /\ no_occ p u' T
  end.

Lemma cut_sub_unfold p s :
  cut_sub p s = if prefix_of p s then Some ([], zdrop (zlen p) s)
                else match s with
                     | [] => None
                     | x :: t => match cut_sub p t with
                                 | Some (u, v) => Some (x :: u, v)
                                 | None => None
                                 end
                     end.
Proof. destruct s; reflexivity. Qed.

Lemma cut_sub_app p u T : no_occ p u T ->
  cut_sub p (u ++ T) = match cut_sub p T with Some (a, b) => Some (u ++ a, b) | None => None end.
Proof.
  induction u as [|x u IH]; intros H.
  - cbn [app]. destruct (cut_sub p T) as [[a b]|]; reflexivity.
  - cbn [no_occ] in H. destruct H as [H1 H2]. rewrite cut_sub_unfold. rewrite H1. cbn [app].
    rewrite IH by assumption. destruct (cut_sub p T) as [[a b]|]; reflexivity.
Qed.

Lemma cut_sub_here p s : cut_sub p (p ++ s) = Some ([], s).
Proof. rewrite cut_sub_unfold. rewrite prefix_of_app. rewrite zdrop_zlen_app. reflexivity. Qed.

Lemma cut_sub_found p u s : no_occ p u (p ++ s) -> cut_sub p (u ++ p ++ s) = Some (u, s).
Proof. intros H. rewrite cut_sub_app by assumption. rewrite cut_sub_here. rewrite app_nil_r. reflexivity. Qed.

Lemma cut_sub_none p u T : no_occ p u T -> cut_sub p T = None -> cut_sub p (u ++ T) = None.
Proof. intros H E. rewrite cut_sub_app by assumption. rewrite E. reflexivity. Qed.

Lemma cut_sub_short p T : prefix_of p T = false -> (forall x t, T = x :: t -> cut_sub p t = None) ->
  cut_sub p T = None.
Proof.
  intros H1 H2. rewrite cut_sub_unfold, H1. destruct T as [|x t]; [reflexivity|].
  rewrite (H2 x t eq_refl). reflexivity.
Qed.

Lemma cut_sub_some_inv p s u v : cut_sub p s = Some (u, v) -> s = u ++ p ++ v.
Proof.
  revert u v; induction s as [|x s IH]; intros u v H; rewrite cut_sub_unfold in H.
  - destruct p as [|y p]; [|discriminate]. cbn in H. injection H as <- <-. reflexivity.
  - destruct (prefix_of p (x :: s)) eqn:E.
    + injection H as <- <-. destruct (prefix_of_inv _ _ E) as [t Ht]. rewrite Ht.
      rewrite zdrop_zlen_app. reflexivity.
    + destruct (cut_sub p s) as [[u' v']|]; [|discriminate]. injection H as <- <-.
      rewrite (IH _ _ eq_refl) at 1. reflexivity.
Qed.

Lemma cut_sub_byte b : forall s, cut_sub [b] s = cut_byte b s.
Proof.
  induction s as [|x s IH]; [reflexivity|]. rewrite cut_sub_unfold. cbn [prefix_of cut_byte].
  rewrite Z.eqb_sym. destruct (x =? b); cbn [andb]; [reflexivity|]. rewrite IH. reflexivity.
Qed.

Lemma prefix_of_split p v T : prefix_of p (v ++ T) = true ->
  prefix_of p v = true \/ exists p2, p = v ++ p2 /\ p2 <> [] /\ prefix_of p2 T = true.
Proof.
  revert v; induction p as [|x p IH]; intros v H.
  - left. reflexivity.
  - destruct v as [|y v].
    + right. exists (x :: p). repeat split; [discriminate | exact H].
    + cbn [app prefix_of] in H. apply andb_true_iff in H as [H1 H2]. apply Z.eqb_eq in H1 as ->.
      destruct (IH _ H2) as [Hl | (p2 & -> & Hne & Hp)].
      * left. cbn [prefix_of]. rewrite Z.eqb_refl. exact Hl.
      * right. exists p2. repeat split; assumption.
Qed.

Lemma has_sub_cons p x u : has_sub p (x :: u) = prefix_of p (x :: u) || has_sub p u.
Proof. reflexivity. Qed.

(* the text that follows a field starts with a byte that is not a UTF-8 continuation byte
   (a separator's first byte, a newline) or is empty *)
Definition tstart_ok (T : bytes) : Prop :=
  match T with [] => True | t0 :: _ => is_cont t0 = false end.

Lemma no_occ_of_has_sub b0 cs u T :
  forallb is_cont cs = true -> has_sub (b0 :: cs) u = false -> tstart_ok T ->
  no_occ (b0 :: cs) u T.
Proof.
  intros Hcs. induction u as [|x u IH]; intros Hs HT; cbn [no_occ]; [exact I|].
  rewrite has_sub_cons in Hs. apply orb_false_iff in Hs as [Hp Hs]. split; [|auto].
  destruct (prefix_of (b0 :: cs) ((x :: u) ++ T)) eqn:E; [|reflexivity]. exfalso.
  destruct (prefix_of_split _ _ _ E) as [Hl | (p2 & Heq & Hne & Hp2)]; [congruence|].
  (* p2 is a non-empty proper suffix of b0 :: cs: its head is a continuation byte *)
  cbn [app] in Heq. injection Heq as -> Hcs'. subst cs.
  rewrite forallb_app in Hcs. apply andb_true_iff in Hcs as [_ Hc2].
  destruct p2 as [|c p2]; [congruence|]. cbn [forallb] in Hc2. apply andb_true_iff in Hc2 as [Hc _].
  destruct T as [|t0 T]; [discriminate|]. cbn [prefix_of] in Hp2. apply andb_true_iff in Hp2 as [Hc0 _].
  apply Z.eqb_eq in Hc0 as ->. cbn [tstart_ok] in HT. congruence.
Qed.

Lemma starts_quote_inv line : starts_quote line = true -> exists t, line = 34 :: t.
Proof.
  destruct line as [|x t]; [discriminate|]. cbn. intros H. apply Z.eqb_eq in H as ->. eauto.
Qed.

Lemma last_is_app b u v : v <> [] -> last_is b (u ++ v) = last_is b v.
Proof.
  intros Hv. induction u as [|x u IH]; [reflexivity|]. cbn [app last_is].
  destruct (u ++ v) eqn:E; [|exact IH]. destruct u; [cbn in E; congruence | discriminate].
Qed.

Lemma last_is_snoc b u x : last_is b (u ++ [x]) = (x =? b).
Proof. rewrite last_is_app by discriminate. reflexivity. Qed.

Lemma last_is_split b u : last_is b u = true -> exists u', u = u' ++ [b].
Proof.
  intros H. destruct (@exists_last _ u) as (u' & y & ->); [intros ->; discriminate|].
  rewrite last_is_snoc in H. apply Z.eqb_eq in H as ->. eauto.
Qed.

Lemma last_is_nob b u : nob b u -> last_is b u = false.
Proof.
  induction u as [|x u IH]; intros H; [reflexivity|]. apply nob_cons in H as [Hx Hu]. cbn [last_is].
  destruct u as [|y u]; [apply Z.eqb_neq; exact Hx | apply IH; exact Hu].
Qed.

Lemma nob_removelast b (l : bytes) : nob b l -> nob b (removelast l).
Proof.
  induction l as [|x [|y l] IH]; intros H; cbn [removelast]; try apply nob_nil.
  apply nob_cons in H as [Hx H]. apply nob_cons. split; [exact Hx | apply IH; exact H].
Qed.

Lemma len_newline_cons x u : 2 <= zlen u -> len_newline (x :: u) = len_newline u.
Proof.
  destruct u as [|y [|z u]]; intros H; [cbn in H; lia | cbn in H; lia | reflexivity].
Qed.

Lemma len_newline_range u : 0 <= len_newline u <= 2 /\ len_newline u <= zlen u.
Proof.
  induction u as [|x u IH]; [cbn; lia|].
  destruct u as [|y [|z u]].
  - cbn. destruct (x =? 10); cbn; lia.
  - cbn. destruct (y =? 10); [destruct (x =? 13)|]; cbn; lia.
  - rewrite len_newline_cons by (zl; pose proof (zlen_nonneg u); lia).
    rewrite (zlen_cons x). lia.
Qed.

Lemma len_newline_crlf u : len_newline (u ++ [13; 10]) = 2.
Proof.
  induction u as [|x u IH]; [reflexivity|]. rewrite <- app_comm_cons.
  rewrite len_newline_cons; [exact IH|]. zl. pose proof (zlen_nonneg u). lia.
Qed.

Lemma len_newline_bare_lf u : last_is 13 u = false -> len_newline (u ++ [10]) = 1.
Proof.
  induction u as [|x u IH]; intros H; [reflexivity|]. destruct u as [|y u].
  - cbn in *. rewrite H. reflexivity.
  - rewrite <- app_comm_cons. rewrite len_newline_cons; [apply IH; exact H|].
    zl. pose proof (zlen_nonneg u). lia.
Qed.

Lemma len_newline_lf u : nob 13 u -> len_newline (u ++ [10]) = 1.
Proof. intros H. apply len_newline_bare_lf, last_is_nob, H. Qed.

Lemma len_newline_last u : last_is 10 u = false -> len_newline u = 0.
Proof.
  induction u as [|x u IH]; intros H; [reflexivity|]. destruct u as [|y [|z u]].
  - cbn in *. rewrite H. reflexivity.
  - cbn in *. rewrite H. reflexivity.
  - rewrite len_newline_cons by (zl; pose proof (zlen_nonneg u); lia). apply IH. exact H.
Qed.

Lemma len_newline_no_lf u : nob 10 u -> len_newline u = 0.
Proof. intros H. apply len_newline_last, last_is_nob, H. Qed.

Lemma len_newline_head x l : x <> 10 -> x <> 13 -> len_newline (x :: l) < zlen (x :: l).
Proof.
  intros H10 H13. destruct l as [|y [|z l]].
  - cbn. destruct (Z.eqb_spec x 10); [contradiction | lia].
  - cbn. destruct (y =? 10); [destruct (Z.eqb_spec x 13); [contradiction|]|]; lia.
  - rewrite len_newline_cons by (zl; pose proof (zlen_nonneg l); lia).
    pose proof (len_newline_range (y :: z :: l)). rewrite (zlen_cons x). lia.
Qed.

Lemma len_newline_all l : len_newline l = zlen l -> l = [] \/ l = [10] \/ l = [13; 10].
Proof.
  destruct l as [|x [|y [|z l]]]; intros H; auto.
  - cbn in H. destruct (Z.eqb_spec x 10); [subst; auto | cbn in H; lia].
  - cbn in H. destruct (Z.eqb_spec y 10); [|cbn in H; lia]. destruct (Z.eqb_spec x 13); [subst; auto|cbn in H; lia].
  - pose proof (len_newline_range (x :: y :: z :: l)) as [Hr _]. rewrite H in Hr. zl. pose proof (zlen_nonneg l). lia.
Qed.

(* a line that starts with neither LF nor CR is not blank *)
Lemma kept_line x l : x <> 10 -> x <> 13 ->
  (zlen (x :: l) =? 0) = false /\ (zlen (x :: l) =? len_newline (x :: l)) = false.
Proof.
  intros H10 H13. pose proof (len_newline_head x l H10 H13). pose proof (len_newline_range (x :: l)). lia.
Qed.

Definition suffix_of (d data : bytes) : Prop := exists pre, data = pre ++ d.

Lemma suffix_refl d : suffix_of d d.
Proof. exists []. reflexivity. Qed.
Lemma suffix_trans a b d : suffix_of a b -> suffix_of b d -> suffix_of a d.
Proof. intros [p ->] [q ->]. exists (q ++ p). rewrite app_assoc. reflexivity. Qed.
Lemma suffix_nil d : suffix_of [] d.
Proof. exists d. rewrite app_nil_r. reflexivity. Qed.
Lemma suffix_of_nil d : suffix_of d [] -> d = [].
Proof. intros [p H]. symmetry in H. apply app_eq_nil in H as [_ H]. exact H. Qed.

Lemma zdrop_suffix_of (d data : bytes) k : suffix_of d data -> k + zlen d = zlen data -> zdrop k data = d.
Proof. intros [p ->] H. rewrite zlen_app in H. replace k with (zlen p) by lia. apply zdrop_zlen_app. Qed.

Lemma zlen_removelast (l : bytes) : l <> [] -> zlen (removelast l) + 1 = zlen l.
Proof.
  intros H. destruct (exists_last H) as (u & x & ->). rewrite removelast_last. zl. lia.
Qed.

Lemma last_is_nonempty b l : last_is b l = true -> l <> [].
Proof. destruct l; [discriminate | discriminate]. Qed.

Lemma read_line_acct data e l d inc : read_line data e = Some (l, d, inc) ->
  zlen l + zlen d + inc = zlen data /\ suffix_of d data /\ 0 <= inc.
Proof.
  unfold read_line. destruct (cut_nl data) as [[l0 d0]|] eqn:E.
  - intros H. injection H as <- <- <-. destruct (cut_nl_some_inv _ _ _ E) as (u & _ & _ & Hd).
    split; [rewrite Hd; zl; lia|]. split; [exists l0; exact Hd | lia].
  - destruct e; [|discriminate]. destruct (last_is 13 data) eqn:L; intros H; injection H as <- <- <-.
    + pose proof (zlen_removelast data (last_is_nonempty _ _ L)). split; [zl; lia|].
      split; [apply suffix_nil | lia].
    + split; [zl; lia|]. split; [apply suffix_nil | lia].
Qed.

Definition valid_sep (r : Z) : Prop := valid_csv_separator r = true.

Lemma valid_sep_iff r : valid_sep r <->
  r <> 0 /\ r <> 34 /\ r <> 13 /\ r <> 10 /\ r <> 65533 /\
  (0 <= r < 55296 \/ 57343 < r <= 1114111).
Proof. unfold valid_sep, valid_csv_separator, valid_rune, rune_error. lia. Qed.

Lemma is_cont_iff b : is_cont b = true <-> 128 <= b <= 191.
Proof. unfold is_cont. lia. Qed.

Lemma encode_seq r : valid_rune r = true -> utf8_seq r (encode_rune r).
Proof. intros H. apply encode_rune_seq. unfold valid_rune in H. lia. Qed.

Lemma decode_prefix l r : next_rune l = r -> valid_rune r = true -> r <> rune_error ->
  exists t, l = encode_rune r ++ t.
Proof.
  unfold next_rune. intros H Hv He. destruct (decode_rune l) as [r' w] eqn:E. cbn [fst] in H. subst r'.
  destruct (decode_rune_inv l r w E (or_introl He)) as (s & t & -> & Hs & _).
  exists t. f_equal. exact (seq_unique r _ _ Hs (encode_seq r Hv)).
Qed.

Lemma valid_sep_rune r : valid_sep r -> valid_rune r = true /\ r <> rune_error.
Proof. unfold valid_sep, valid_csv_separator. lia. Qed.

(* the two runes a quoted field looks for behind a quote *)
Lemma next_rune_34 l : next_rune l = 34 -> exists t, l = 34 :: t.
Proof. intros H. exact (decode_prefix l 34 H eq_refl ltac:(discriminate)). Qed.

Lemma next_rune_sep c l : valid_sep (c_sep c) -> next_rune l = c_sep c -> exists t, l = sep_bytes c ++ t.
Proof. intros Hv H. destruct (valid_sep_rune _ Hv) as [V1 V2]. exact (decode_prefix l _ H V1 V2). Qed.

Lemma enc_ascii r : valid_sep r -> r < 128 -> encode_rune r = [r].
Proof.
  intros Hv Hr. exact (seq_unique r _ _ (encode_seq r (proj1 (valid_sep_rune r Hv))) (Seq1 r Hr)).
Qed.

Lemma next_rune_ascii x s : x < 128 -> next_rune (x :: s) = x.
Proof. intros H. exact (f_equal fst (decode_seq x [x] s (Seq1 x H))). Qed.

Lemma enc_shape r : valid_sep r ->
  exists b0 cs, encode_rune r = b0 :: cs /\ is_cont b0 = false /\ forallb is_cont cs = true /\
    b0 <> 10 /\ b0 <> 13 /\ b0 <> 34.
Proof.
  intros H. destruct (encode_seq r (proj1 (valid_sep_rune r H))); apply valid_sep_iff in H;
    eexists _, _; (split; [reflexivity|]); unfold is_cont; cbn [forallb]; lia.
Qed.

Lemma nob_enc b r : valid_sep r -> b < 128 -> b <> r -> nob b (encode_rune r).
Proof.
  intros Hv Hb Hne. destruct (encode_seq r (proj1 (valid_sep_rune r Hv)));
    repeat (constructor; [lia|]); constructor.
Qed.

Lemma rune_len_enc r : valid_sep r -> rune_len r = zlen (encode_rune r).
Proof.
  intros H. apply valid_sep_iff in H. unfold encode_rune, rune_len.
  replace ((r <? 0) || (1114111 <? r) || ((55296 <=? r) && (r <=? 57343))) with false by lia.
  replace (r <? 0) with false by lia.
  destruct (Z.ltb_spec r 128); [reflexivity|].
  destruct (Z.ltb_spec r 2048); [reflexivity|].
  replace ((55296 <=? r) && (r <=? 57343)) with false by lia.
  destruct (Z.ltb_spec r 65536); [reflexivity|].
  replace (r <=? 1114111) with true by lia. reflexivity.
Qed.

Lemma sep_len_zlen c : valid_sep (c_sep c) -> sep_len c = zlen (sep_bytes c).
Proof. apply rune_len_enc. Qed.

Lemma decode_encode r X : valid_sep r -> fst (decode_rune (encode_rune r ++ X)) = r.
Proof.
  intros H. rewrite (decode_seq r _ X (encode_seq r (proj1 (valid_sep_rune r H)))). reflexivity.
Qed.

Lemma encode_nonempty r : 1 <= zlen (encode_rune r).
Proof.
  unfold encode_rune. cbv zeta.
  generalize (if (r <? 0) || (1114111 <? r) || ((55296 <=? r) && (r <=? 57343)) then rune_error else r).
  intros r'.
  destruct (r' <? 128); [cbn; lia|]. destruct (r' <? 2048); [cbn; lia|].
  destruct (r' <? 65536); cbn; lia.
Qed.

Lemma validate_csv_input_iff sep com :
  validate_csv_input sep com = true <-> valid_sep sep /\ (com = 0 \/ valid_sep com) /\ sep <> com.
Proof.
  unfold validate_csv_input, valid_sep.
  destruct (valid_csv_separator sep), (valid_csv_separator com), (Z.eqb_spec sep com), (Z.eqb_spec com 0);
    cbn; intuition (try lia; try congruence).
Qed.
