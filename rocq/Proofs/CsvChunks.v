(* C08: the CSV splitter's decisions do not depend on how the input arrives: a row decided
   before EOF is decided identically when more data follows, and "need more data" leaves the
   state alone.  Hence bufio.Scanner's loop ([arun]) delivers, for every chunking, the
   records of the reader run over the whole input. *)
From Verif Require Import Lib.Base Lib.Utf8 Model.Csv Proofs.CsvBase Proofs.CsvFuel
  Proofs.CsvAccount.
From Coq Require Import ZifyBool.

Lemma cut_nl_more data l d more : cut_nl data = Some (l, d) -> cut_nl (data ++ more) = Some (l, d ++ more).
Proof.
  intros H. destruct (cut_nl_some_inv _ _ _ H) as (u & -> & Hu & ->).
  rewrite <- !app_assoc. rewrite cut_nl_app by exact Hu. cbn [app]. rewrite cut_nl_nl. reflexivity.
Qed.

Lemma read_line_false data l d inc : read_line data false = Some (l, d, inc) ->
  cut_nl data = Some (l, d) /\ inc = 0.
Proof.
  unfold read_line. destruct (cut_nl data) as [[l0 d0]|]; [|discriminate].
  intros H. injection H as <- <- <-. auto.
Qed.

Lemma read_line_cut data l d e : cut_nl data = Some (l, d) -> read_line data e = Some (l, d, 0).
Proof. intros H. unfold read_line. rewrite H. reflexivity. Qed.

Lemma read_line_more data l d more e : cut_nl data = Some (l, d) ->
  read_line (data ++ more) e = Some (l, d ++ more, 0).
Proof. intros H. apply read_line_cut, cut_nl_more, H. Qed.

(* without a newline there is no line before EOF, and at EOF the rest is the last line *)
Lemma read_line_last data : cut_nl data = None ->
  read_line data false = None /\ exists l inc, read_line data true = Some (l, [], inc).
Proof.
  intros H. unfold read_line. rewrite H. split; [reflexivity|]. destruct (last_is 13 data); eauto.
Qed.

Section Stable.
Variable c : csv_cfg.

Lemma parse_stable : forall f,
  (forall line data adv done cr adv' fields cr' more e',
     parse_field c false f line data adv done cr = PDone adv' fields cr' ->
     parse_field c e' f line (data ++ more) adv done cr = PDone adv' fields cr') /\
  (forall line data adv cur done cr adv' fields cr' more e',
     parse_quoted c false f line data adv cur done cr = PDone adv' fields cr' ->
     parse_quoted c e' f line (data ++ more) adv cur done cr = PDone adv' fields cr').
Proof.
  induction f as [|f [IHf IHq]]; split; intros until e'; intros H; try discriminate.
  - rewrite parse_field_S in *. destruct (starts_quote line); [apply IHq; exact H|].
    destruct (cut_sub (sep_bytes c) line) as [[field rest]|]; [apply IHf; exact H | exact H].
  - rewrite parse_quoted_S in *. destruct (cut_byte 34 line) as [[pre line1]|].
    + cbv zeta in *. destruct (next_rune line1 =? 34); [apply IHq; exact H|].
      destruct (next_rune line1 =? c_sep c); [apply IHf; exact H|].
      destruct (len_newline line1 =? zlen line1); [exact H | apply IHq; exact H].
    + destruct line as [|x line]; [exact H|]. cbv zeta in *.
      destruct (read_line data false) as [[[l d] inc]|] eqn:R; [|discriminate].
      apply read_line_false in R as [R ->]. rewrite (read_line_more _ _ _ more e' R).
      apply IHq. exact H.
Qed.

Lemma skip_stable : forall f data adv skip line data' adv' skip' more e',
  skip_lines c false f data adv skip = SkLine line data' adv' skip' ->
  skip_lines c e' f (data ++ more) adv skip = SkLine line (data' ++ more) adv' skip'.
Proof.
  induction f as [|f IH]; intros until e'; intros H; [discriminate|].
  rewrite skip_lines_S in *. destruct (read_line data false) as [[[l d] inc]|] eqn:R; [|discriminate].
  apply read_line_false in R as [R ->]. rewrite (read_line_more _ _ _ more e' R). cbv zeta in *.
  destruct (zlen l =? 0); [discriminate|].
  destruct (negb (c_comment c =? 0) && (next_rune l =? c_comment c)); [apply IH; exact H|].
  destruct (zlen l =? len_newline l); [apply IH; exact H|].
  injection H as <- <- <- <-. reflexivity.
Qed.

End Stable.

Lemma prefix_of_app_false p d more : prefix_of p (d ++ more) = false -> prefix_of p d = false.
Proof.
  intros H. destruct (prefix_of p d) eqn:E; [|reflexivity].
  apply prefix_of_inv in E as [t ->]. rewrite <- app_assoc, prefix_of_app in H. discriminate.
Qed.

Lemma scan_need_state c s data stale nz e s' :
  scan c s data stale nz e = (s', ONeed) -> s' = s.
Proof.
  destruct (scan_cases c s data stale nz e) as [-> | (line & d & adv1 & skip & adv & fields & cr & _ & _ & _ & ->)].
  - intros H. injection H as <-. reflexivity.
  - intros E. pose proof (scan_done_out c s data stale nz skip adv fields cr) as H. rewrite E in H. contradiction.
Qed.

Definition decided (o : scan_out) : Prop :=
  match o with ORecord _ _ _ | OHeader _ _ => True | _ => False end.

Definition out_adv (o : scan_out) : Z :=
  match o with ORecord adv _ _ | OHeader adv _ => adv | _ => 0 end.

(* more data cannot turn the beginning of the data into a BOM once a row was decided: a
   proper prefix of the BOM holds no complete line *)
Lemma isbom_stable c s data stale nz more :
  decided (snd (scan c s data stale nz false)) -> isbom s (data ++ more) = isbom s data.
Proof.
  intros Hd. unfold isbom. destruct (st_noBOM s) eqn:Nb; [reflexivity|]. cbn [negb andb].
  destruct (prefix_of bom data) eqn:B.
  - apply prefix_of_inv in B as [t ->]. rewrite <- app_assoc. apply prefix_of_app.
  - destruct (prefix_of bom (data ++ more)) eqn:B2; [|reflexivity]. exfalso.
    destruct (prefix_of_split _ _ _ B2) as [E | (p2 & E & _ & _)]; [congruence|].
    assert (H10 : nob 10 data).
    { assert (Hb : nob 10 bom) by (repeat constructor; lia). rewrite E in Hb. apply nob_app in Hb as [Hb _]. exact Hb. }
    rewrite scan_unfold in Hd. unfold bdy, a0, isbom in Hd. rewrite Nb, B in Hd. cbn [negb andb] in Hd.
    rewrite skip_lines_S in Hd. unfold read_line in Hd. rewrite (cut_nl_none _ H10) in Hd. exact Hd.
Qed.

(* Stability: whatever arrives later (and whatever the buffer holds behind the data), the
   call returns the same advance, token, fields and state. *)
Theorem scan_stable c s data stale nz more stale' nz' e' :
  valid_sep (c_sep c) -> 0 <= nz -> 0 <= nz' ->
  decided (snd (scan c s data stale nz false)) ->
  scan c s (data ++ more) stale' nz' e' = scan c s data stale nz false.
Proof.
  intros Hv Hnz Hnz' Hd.
  pose proof (isbom_stable c s data stale nz more Hd) as Hib.
  destruct (scan_cases c s data stale nz false)
    as [E | (line & d & adv1 & skip & adv & fields & cr & _ & Sk & P & E)]; rewrite E in *; [contradiction|].
  clear Hd E.
  pose proof (row_acct c false Hv _ _ _ _ _ _ _ _ _ _ _ Sk P) as [H1 H2].
  pose proof (bdy_len s data) as [HBA HA]. pose proof (zlen_nonneg (bdy s data)).
  assert (HB : bdy s (data ++ more) = bdy s data ++ more).
  { unfold bdy. rewrite Hib. destruct (isbom s data) eqn:B; [|reflexivity].
    rewrite zdrop_app_le; [reflexivity|]. unfold a0 in HBA. rewrite B in HBA. lia. }
  assert (HA' : a0 s (data ++ more) = a0 s data) by (unfold a0; rewrite Hib; reflexivity).
  rewrite (scan_intro c s (data ++ more) stale' nz' e' (S (length (bdy s data))) (S (length (bdy s data)))
             line (d ++ more) adv1 skip adv fields cr).
  - unfold scan_done. rewrite <- app_assoc. rewrite !slice_cap_inside by lia. reflexivity.
  - rewrite HB, zlen_app. pose proof (zlen_nonneg more).
    replace (zlen (bdy s data) + zlen more =? 0) with false by lia. apply andb_false_r.
  - rewrite HB, HA'. apply skip_stable. exact Sk.
  - apply (proj1 (parse_stable c _)). exact P.
Qed.

Section EofAll.
Variable c : csv_cfg.
Hypothesis Hsep : valid_sep (c_sep c).

Lemma parse_eof_all : forall f,
  (forall line data adv done cr adv' fields cr',
     parse_field c true f line data adv done cr = PDone adv' fields cr' ->
     parse_field c false f line data adv done cr = PNeed ->
     adv' = adv + zlen line + zlen data) /\
  (forall line data adv cur done cr adv' fields cr',
     parse_quoted c true f line data adv cur done cr = PDone adv' fields cr' ->
     parse_quoted c false f line data adv cur done cr = PNeed ->
     adv' = adv + zlen line + zlen data).
Proof.
  induction f as [|f [IHf IHq]]; split; intros until cr'; intros H N; try discriminate.
  - rewrite parse_field_S in *. destruct (starts_quote line) eqn:Q.
    + destruct (starts_quote_inv _ Q) as [t ->]. rewrite zdrop_1_cons in *.
      rewrite (IHq _ _ _ _ _ _ _ _ _ H N). zl. lia.
    + destruct (cut_sub (sep_bytes c) line) as [[field rest]|] eqn:E; [|discriminate].
      apply cut_sub_some_inv in E. subst line. rewrite (IHf _ _ _ _ _ _ _ _ H N).
      rewrite (sep_len_zlen c Hsep). zl. lia.
  - rewrite parse_quoted_S in *. destruct (cut_byte 34 line) as [[pre line1]|] eqn:E.
    + apply cut_byte_some_inv in E as [-> _]. cbv zeta in *.
      destruct (Z.eqb_spec (next_rune line1) 34) as [R34|_].
      { destruct (next_rune_34 _ R34) as [t ->]. rewrite zdrop_1_cons in *.
        rewrite (IHq _ _ _ _ _ _ _ _ _ H N). zl. lia. }
      destruct (Z.eqb_spec (next_rune line1) (c_sep c)) as [Rs|_].
      { destruct (next_rune_sep c _ Hsep Rs) as [t ->]. rewrite (sep_len_zlen c Hsep), zdrop_zlen_app in *.
        rewrite (IHf _ _ _ _ _ _ _ _ H N). zl. lia. }
      destruct (len_newline line1 =? zlen line1); [discriminate|].
      rewrite (IHq _ _ _ _ _ _ _ _ _ H N). zl. lia.
    + destruct line as [|x line]; [discriminate|]. cbv zeta in *.
      destruct (cut_nl data) as [[l d]|] eqn:R.
      * rewrite (read_line_cut _ _ _ true R) in H. rewrite (read_line_cut _ _ _ false R) in N.
        rewrite (IHq _ _ _ _ _ _ _ _ _ H N).
        destruct (cut_nl_some_inv _ _ _ R) as (u & _ & _ & ->). zl. lia.
      * (* only the EOF call sees the unterminated last line: it then consumes everything *)
        destruct (read_line_last _ R) as (_ & l & inc & RT). rewrite RT in H.
        apply read_line_acct in RT as (Rz & _).
        destruct (proj2 (parse_acct c true Hsep _) _ _ _ _ _ _ _ _ _ H) as (dF & Hs & Ha).
        apply suffix_of_nil in Hs. subst dF. rewrite zlen_nil in *. lia.
Qed.

Lemma skip_eof_all : forall f data adv skip line d adv1 skip1,
  skip_lines c true f data adv skip = SkLine line d adv1 skip1 ->
  skip_lines c false f data adv skip = SkNeed -> d = [].
Proof.
  induction f as [|f IH]; intros until skip1; intros H N; [discriminate|].
  rewrite skip_lines_S in *. destruct (cut_nl data) as [[l d0]|] eqn:R.
  - rewrite (read_line_cut _ _ _ true R) in H. rewrite (read_line_cut _ _ _ false R) in N. cbv zeta in *.
    destruct (zlen l =? 0); [discriminate|].
    destruct (negb (c_comment c =? 0) && (next_rune l =? c_comment c)); [eapply IH; eassumption|].
    destruct (zlen l =? len_newline l); [eapply IH; eassumption | discriminate].
  - (* the EOF call reads the last line: nothing is left behind it, whatever it then does *)
    assert (G : forall a k, skip_lines c true f [] a k = SkLine line d adv1 skip1 -> d = []).
    { intros a k G. apply (skip_acct c true) in G as (Hs & _). exact (suffix_of_nil _ Hs). }
    destruct (read_line_last _ R) as (_ & l & inc & RT). rewrite RT in H. cbv zeta in H.
    destruct (zlen l =? 0); [discriminate|].
    destruct (negb (c_comment c =? 0) && (next_rune l =? c_comment c)); [exact (G _ _ H)|].
    destruct (zlen l =? len_newline l); [exact (G _ _ H)|]. injection H as _ <- _ _. reflexivity.
Qed.

(* a row that the call before EOF could not decide and the call at EOF does decide extends
   to the end of the data *)
Lemma scan_eof_all s data stale nz stale' nz' s' o :
  snd (scan c s data stale nz false) = ONeed ->
  scan c s data stale' nz' true = (s', o) -> decided o -> out_adv o = zlen data.
Proof.
  intros N H Hd.
  destruct (scan_cases c s data stale' nz' true)
    as [E | (line & d & adv1 & skip & adv & fields & cr & _ & SkT & PT & E)]; rewrite E in H.
  { injection H as _ <-. contradiction. }
  pose proof (scan_done_out c s data stale' nz' skip adv fields cr) as Ho. rewrite H in Ho. cbn [snd] in Ho.
  assert (Ha : out_adv o = adv) by (destruct o; try contradiction; exact Ho).
  rewrite Ha. clear H Hd Ho Ha E o s'.
  pose proof (bdy_len s data) as [HBA _].
  pose proof (skip_acct c true _ _ _ _ _ _ _ _ SkT) as (_ & Sa & _).
  rewrite scan_unfold in N. cbn [andb] in N.
  destruct (skip_lines c false _ _ _ _) as [| |line0 d0 adv0 skip0] eqn:SkF; [| discriminate |].
  - (* the non-EOF call ran out of complete lines while skipping *)
    pose proof (skip_eof_all _ _ _ _ _ _ _ _ SkT SkF) as ->.
    destruct (proj1 (parse_acct c true Hsep _) _ _ _ _ _ _ _ _ PT) as (dF & Hs & Pa).
    apply suffix_of_nil in Hs. subst dF. rewrite zlen_nil in *. lia.
  - (* same first line in both calls; the non-EOF call ran out inside a quoted field *)
    pose proof (skip_stable c _ _ _ _ _ _ _ _ [] true SkF) as SkT'. rewrite !app_nil_r in SkT'.
    rewrite SkT in SkT'. injection SkT' as <- <- <- <-.
    destruct (parse_field c false _ _ _ _ _ _) as [|a b cc|] eqn:PF; [| | discriminate].
    + pose proof (proj1 (parse_eof_all _) _ _ _ _ _ _ _ _ PT PF) as Ha. lia.
    + pose proof (scan_done_out c s data stale nz skip a b cc) as Ho. rewrite N in Ho. contradiction.
Qed.

End EofAll.

Definition is_header (o : scan_out) : Prop := match o with OHeader _ _ => True | _ => False end.

Lemma scan_decided_facts c s data stale nz e s' o : valid_sep (c_sep c) ->
  scan c s data stale nz e = (s', o) -> decided o ->
  1 <= out_adv o <= zlen data /\ st_noBOM s' = true /\ st_row s' = st_row s + 1 /\
  (is_header o -> st_row s = 0 /\ c_header c = true) /\ (o <> ONeed).
Proof.
  intros Hv H Hd.
  destruct (scan_cases c s data stale nz e)
    as [E | (line & d & adv1 & skip & adv & fields & cr & _ & Sk & P & E)]; rewrite E in H.
  { injection H as _ <-. contradiction. }
  pose proof (row_acct c e Hv _ _ _ _ _ _ _ _ _ _ _ Sk P) as [H1 H2].
  pose proof (bdy_len s data) as [HBA HA]. unfold scan_done in H.
  destruct ((st_row s =? 0) && c_header c) eqn:Hh.
  - injection H as <- <-. cbn. repeat split; try lia; try discriminate.
  - destruct (slice_cap (data ++ stale) nz skip adv); injection H as <- <-; try contradiction.
    cbn. repeat split; try lia; try discriminate; contradiction.
Qed.

Lemma read_all_nil f c s : read_all f c s [] = [].
Proof.
  destruct f as [|f]; [reflexivity|]. cbn [read_all]. unfold scan. cbn [prefix_of bom].
  rewrite andb_false_r. reflexivity.
Qed.

Section ChunkIndependence.
Variable c : csv_cfg.
Hypothesis Hsep : valid_sep (c_sep c).

Lemma arun_read_all : forall f1 s pend chunks eof,
  0 <= st_row s ->
  (eof = true -> chunks = []) ->
  (eof = true -> st_row s = 0 -> pend <> [] -> snd (scan c s pend [] 0 false) = ONeed) ->
  (msr pend chunks eof < f1)%nat ->
  forall f2, (length (pend ++ concat chunks) < f2)%nat ->
  arun f1 c s pend chunks eof = read_all f2 c s (pend ++ concat chunks).
Proof.
  induction f1 as [|f IH]; intros s pend chunks eof Hrow Heof Hprev Hm f2 Hf2; [lia|].
  destruct f2 as [|f2]; [lia|].
  (* reading once more: both sides keep talking about the same whole input *)
  assert (Hmore : forall s1 pend1, eof = false ->
            0 <= st_row s1 ->
            (chunks = [] -> st_row s1 = 0 -> pend1 <> [] -> snd (scan c s1 pend1 [] 0 false) = ONeed) ->
            (length pend1 <= length pend)%nat ->
            forall f3, (length (pend1 ++ concat chunks) < f3)%nat ->
            match chunks with
            | [] => arun f c s1 pend1 [] true
            | ch :: rest => arun f c s1 (pend1 ++ ch) rest false
            end = read_all f3 c s1 (pend1 ++ concat chunks)).
  { intros s1 pend1 -> Hrow1 Hprev1 Hlen f3 Hf3. unfold msr in Hm.
    destruct chunks as [|ch rest].
    - apply IH; auto. unfold msr. cbn [concat length] in *. lia.
    - cbn [concat] in *. rewrite app_assoc in *. apply IH; auto; try discriminate.
      unfold msr. cbn [length] in *. rewrite !app_length in *. lia. }
  cbn [arun]. destruct (scan c s pend [] 0 eof) as [s' o] eqn:Sc.
  (* a decided row: both sides go on behind it, in the state the call left *)
  assert (Hdec : decided o ->
            1 <= out_adv o <= zlen pend /\ (length (zdrop (out_adv o) pend) < length pend)%nat /\
            0 <= st_row s' /\ st_row s' <> 0 /\ (is_header o -> st_row s = 0) /\
            scan c s (pend ++ concat chunks) [] 0 true = (s', o)).
  { intros Hd. destruct (scan_decided_facts c s pend [] 0 eof s' o Hsep Sc Hd) as (Ha & _ & Hr & Hh & _).
    split; [exact Ha|]. split; [apply length_zdrop_lt; lia|]. split; [lia|]. split; [lia|].
    split; [intros Ho; apply Hh, Ho|]. rewrite <- Sc. destruct eof.
    - rewrite (Heof eq_refl). cbn [concat]. rewrite app_nil_r. reflexivity.
    - apply scan_stable; try lia; [exact Hsep | rewrite Sc; exact Hd]. }
  destruct (nonempty pend || eof) eqn:Hne.
  2:{ apply orb_false_iff in Hne as [Hp ->]. destruct pend; [|discriminate].
      apply Hmore; auto; try (intros _ _ Hc; congruence). }
  pose proof (scan_accounting c s pend [] 0 eof Hsep ltac:(lia)) as Hacc. rewrite Sc in Hacc. cbn [snd] in Hacc.
  pose proof (scan_never_fuel c s pend [] 0 eof) as Hnf. rewrite Sc in Hnf. cbn [snd] in Hnf.
  destruct o as [|adv names|adv tok fields| |]; [| | |contradiction|congruence].
  - (* need more data: the state is unchanged; at EOF both sides stop, before EOF read on *)
    pose proof (scan_need_state _ _ _ _ _ _ _ Sc) as ->. destruct eof.
    + rewrite (Heof eq_refl). cbn [concat read_all]. rewrite app_nil_r, Sc. reflexivity.
    + apply Hmore; auto. intros _ _ _. rewrite Sc. reflexivity.
  - destruct (Hdec I) as (Ha & Hlt & Hr & Hr0 & Hh & Hst). cbn [out_adv] in *.
    cbn [read_all]. rewrite Hst. f_equal. rewrite zdrop_app_le by lia. destruct eof.
    + (* a header row decided only at EOF reaches the end of the input *)
      rewrite (Heof eq_refl). cbn [concat]. rewrite app_nil_r.
      assert (Hp : pend <> []) by (intros ->; cbn in Ha; lia).
      pose proof (scan_eof_all c Hsep s pend [] 0 [] 0 s' _ (Hprev eq_refl (Hh I) Hp) Sc I) as Hall.
      cbn [out_adv] in Hall. rewrite Hall, zdrop_all by lia. rewrite read_all_nil. reflexivity.
    + apply Hmore; auto.
      * intros _ E. contradiction.
      * lia.
      * rewrite app_length in *. lia.
  - destruct (Hdec I) as (Ha & Hlt & Hr & Hr0 & _ & Hst). cbn [out_adv] in *.
    cbn [read_all]. rewrite Hst. f_equal. rewrite zdrop_app_le by lia. apply IH.
    + lia.
    + exact Heof.
    + intros _ E. contradiction.
    + unfold msr in *. lia.
    + rewrite app_length in *. lia.
Qed.

(* Chunk independence: however the reader cuts the input into reads, the Scanner loop delivers
   the records (fields, $0, header names) of the reader run over the whole input. *)
Theorem csv_chunk_independent chunks :
  arun (S (msr [] chunks false)) c (mkSt false 0) [] chunks false = read_file c (concat chunks).
Proof.
  unfold read_file.
  pose proof (arun_read_all (S (msr [] chunks false)) (mkSt false 0) [] chunks false) as H.
  cbn [app] in H. apply H; try discriminate.
  - cbn. lia.
  - lia.
Qed.

End ChunkIndependence.
