(* C11: end-to-end range theorem: the one-rule program  "p1, p2"  (no action) with side-effect-free
   patterns prints exactly the segments selected by range_select over the records the loop reads. *)
From Verif Require Import Lib.Base Model.Input Proofs.Input Proofs.InputHist Proofs.InputCtl Proofs.InputMain.

(* [s'] is reached from [s]; the records handed out in between are [rs] *)
Definition delivers (s s' : st) (rs : list record) : Prop :=
  exists new, log s' = new ++ log s /\ map snd (delivered (rev new)) = rs.

Lemma delivered_app a b : delivered (a ++ b) = delivered a ++ delivered b.
Proof. unfold delivered. apply flat_map_app. Qed.

Lemma delivers_trans a b c r1 r2 : delivers a b r1 -> delivers b c r2 -> delivers a c (r1 ++ r2).
Proof.
  intros (n1 & L1 & D1) (n2 & L2 & D2). exists (n2 ++ n1). split.
  - rewrite L2, L1, app_assoc. reflexivity.
  - rewrite rev_app_distr, delivered_app, map_app, D1, D2. reflexivity.
Qed.

Lemma delivers_nil_l a b c r : delivers a b [] -> delivers b c r -> delivers a c r.
Proof. intros H1 H2. change r with ([] ++ r). eapply delivers_trans; eassumption. Qed.

Lemma delivers_same s s' : log s' = log s -> delivers s s' [].
Proof. intros H. exists []. split; [exact H|reflexivity]. Qed.

Lemma delivers_one s s' v : log s' = v :: log s -> delivers s s' (map snd (delivered [v])).
Proof. intros H. exists [v]. split; [exact H|reflexivity]. Qed.

Definition recs_of_res (res : nlres) : list record := match res with NLRec r => [r] | _ => [] end.

Lemma next_line_delivers e s : delivers s (snd (next_line e s)) (recs_of_res (fst (next_line e s))).
Proof.
  revert s. apply (next_line_moves e (fun s x => delivers s (snd x) (recs_of_res (fst x))));
    try solve [intros; eapply delivers_nil_l; [|eassumption]; apply delivers_same; reflexivity].
  - intros s res H. destruct res; [destruct (H r); reflexivity|apply delivers_same; reflexivity..].
  - intros name r rest s. apply (delivers_one _ _ (EvRec name r)). reflexivity.
  - intros name s x. apply delivers_nil_l, (delivers_one _ _ (EvSetFile name)). reflexivity.
  - intros v val s s2 x H. apply set_var_by_name_some in H as (_ & HL & _).
    apply delivers_nil_l, (delivers_one _ _ (EvAssign v val)). sst. rewrite HL. reflexivity.
  - intros name s x. apply delivers_nil_l, (delivers_one _ _ (EvNoFile name)). reflexivity.
Qed.

(* the records whose flag is set *)
Fixpoint select (bs : list bool) (recs : list record) : list record :=
  match bs, recs with
  | b :: bs', r :: recs' => if b then r :: select bs' recs' else select bs' recs'
  | _, _ => []
  end.

Section RangeProgram.
  Variable U : Type.
  Variable step : U -> st -> req * U.
  Variable enter : blk -> U -> U.
  Variable e : env.
  Variable fuel : nat.
  Variables p1 p2 : record -> bool.
  Hypothesis Hp1 : pure_pat U step enter e fuel (BPat 0 false) p1.
  Hypothesis Hp2 : pure_pat U step enter e fuel (BPat 0 true) p2.

  Theorem range_program_prints : forall n f u s u' s' fl',
    main_loop U step enter e fuel n [mkRule PRange false] [f] u s = LCont u' s' fl' ->
    exists recs, delivers s s' recs /\
      out s' = rev (map OPrint (select (range_select p1 p2 f recs) recs)) ++ out s.
  Proof.
    induction n as [|n IH]; intros f u s u' s' fl' H; [discriminate|].
    rewrite main_loop_unfold in H.
    destruct (next_line e s) as [res s1] eqn:HN.
    pose proof (next_line_delivers e s) as HD. rewrite HN in HD. cbn [fst snd] in HD.
    pose proof (next_line_frame _ _ _ _ HN) as (_ & _ & Hout & _).
    destruct res as [r| | | |]; try discriminate.
    - cbn [exec_rules] in H.
      destruct (eval_pat_range U step enter e fuel (mkRule PRange false) 0 f u (set_line e r s1) p1 p2 eq_refl Hp1 Hp2) as [u1 HE].
      rewrite HE in H. cbn [has_body negb] in H.
      assert (Hl : line (set_line e r s1) = r) by reflexivity. rewrite Hl in H.
      destruct (range_step (p1 r) (p2 r) f) as [m f'] eqn:HR. cbn [fst snd] in H.
      destruct m; cbn [negb rev app] in H; apply IH in H as (recs & HD2 & HO); exists (r :: recs);
        (split; [exact (delivers_trans _ _ _ [r] recs HD HD2)|]);
        rewrite HO; cbn [range_select]; rewrite HR; cbn [select map rev]; sst; rewrite Hout, <- ?app_assoc; reflexivity.
    - injection H as _ <- _. exists []. split; [exact HD|]. cbn [range_select select map rev app]. exact Hout.
  Qed.
End RangeProgram.
