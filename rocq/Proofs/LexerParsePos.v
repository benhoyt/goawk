(* C03: the tables extracted from the repository by translator/gen_c03.go
   (rocq/Gen/ParsePos.v, regenerated on every check).
   (1) where the positions of parse errors come from: every position handed to ast.PosErrorf in
       parser.go and resolve.go is the current token's position p.pos, a copy of it saved
       earlier, a ...Pos field of an AST node, a value of the p.multiExprs map, or the literal
       {1,1}; every stored position (node field, map entry, expectName's result) is p.pos or
       such a copy; p.pos itself is only ever assigned from lexer.Scan / lexer.ScanRegex.
       Hence every ParseError position is a position the lexer reported (or 1:1).
   (2) the token numbers and the keyword table of Model/Lexer.v are those of lexer/token.go. *)
From Coq Require Import String Ascii List ZArith Bool.
From Verif Require Import Lib.Base Model.Lexer Gen.ParsePos.
Import ListNotations.
Open Scope Z_scope.

Definition field_ok (f : string) : bool :=
  (String.eqb f "Pos" || String.eqb f "VarPos" || String.eqb f "ArrayPos")%string.

Definition origin_ok (o : origin) : bool :=
  match o with
  | OCur => true
  | OExpectName => true
  | OField f => field_ok f
  | OLit l c => (l =? 1) && (c =? 1)
  | OMapValue m => String.eqb m "multiExprs"
  | OScan f => String.eqb f "Scan" || String.eqb f "ScanRegex"
  | OUnknown _ => false
  end.

(* checkMultiExprs starts its minimum search at {1000000000, 1000000000}; it returns before
   the search when the map is empty, so the literal is always replaced by a map value *)
Definition min_seed (s : site) (o : origin) : bool :=
  String.eqb (s_func s) "checkMultiExprs" &&
  match o with OLit l c => (l =? 1000000000) && (c =? 1000000000) | _ => false end &&
  existsb (fun o' => match o' with OMapValue _ => true | _ => false end) (s_origins s).

Definition site_ok (s : site) : bool :=
  negb (length (s_origins s) =? 0)%nat && forallb (fun o => origin_ok o || min_seed s o) (s_origins s).

Definition scan_only (s : site) : bool :=
  negb (length (s_origins s) =? 0)%nat &&
  forallb (fun o => match o with OScan _ => origin_ok o | _ => false end) (s_origins s).

Theorem parser_reports_lexer_positions :
  forallb site_ok pos_error_sites = true /\
  forallb site_ok pos_store_sites = true /\
  forallb scan_only cur_assign_sites = true /\
  (10 <=? length pos_error_sites)%nat = true /\ (10 <=? length pos_store_sites)%nat = true /\
  (2 <=? length cur_assign_sites)%nat = true.
Proof. vm_compute. repeat split; reflexivity. Qed.

(* ---- type assertions without comma-ok behind ParseProgram ------------------------------------
   A failing x.(T) is a runtime.Error; neither compiler.Compile's nor ParseProgram's recover
   converts it, so it would escape ParseProgram as a panic.  Every such assertion in internal/ast,
   internal/compiler, internal/resolver and parser (table unchecked_asserts, regenerated on every
   check) must fall into one of three classes:
     CRepanic        the assertion on the recovered value inside a deferred recover(): foreign
                     panics are re-raised on purpose;
     CParserBuilds   split()'s second argument: the parser builds it as &ast.VarExpr{...}
                     (table split_args_init);
     CResolverGuard  the compiler's assertion that arg is an ast.VarExpr under `if f.Arrays[i]` for a user call:
                     the resolver has checked THE SAME expression (the un-reassigned range
                     variable over n.Args, table array_arg_checks) with a comma-ok assertion and
                     rejects a non-variable in an array slot ("can't pass scalar ... as array
                     param"); that the slot types f.Arrays are the resolver's final, consistent
                     typing is property C16 (theorem C16_sound).
   A new unchecked assertion, or a change of one of the protecting facts, breaks the theorem. *)
Inductive aclass : Type := CRepanic | CParserBuilds | CResolverGuard (thm : string).

Definition classify (s : assert_site) : option aclass :=
  if a_in_recover s && String.eqb (a_expr s) "r" then Some CRepanic
  else if String.eqb (a_typ s) "*ast.VarExpr" && String.eqb (a_case s) "lexer.F_SPLIT" &&
          (String.eqb (a_expr s) "e.Args[1]" || String.eqb (a_expr s) "n.Args[1]") then Some CParserBuilds
  else if String.eqb (a_file s) "internal/compiler/compiler.go" && String.eqb (a_typ s) "*ast.VarExpr" &&
          String.eqb (a_case s) "*ast.UserCallExpr" && String.eqb (a_guard s) "f.Arrays[i]" &&
          String.eqb (a_expr s) "arg" && (a_assigns s =? 0)%nat then Some (CResolverGuard "C16_sound")
  else None.

Definition check_ok (k : arg_check) : bool :=
  String.eqb (k_range_over k) "n.Args" && k_has_check k && (k_reassigned k =? 0)%nat && k_rejects k.

Definition class_ok (c : aclass) : bool :=
  match c with
  | CRepanic => true
  | CParserBuilds => String.eqb (nth 1 split_args_init "") "lit:ast.VarExpr"
  | CResolverGuard thm => String.eqb thm "C16_sound" && negb (length array_arg_checks =? 0)%nat && forallb check_ok array_arg_checks
  end.

Definition assert_ok (s : assert_site) : bool :=
  match classify s with Some c => class_ok c | None => false end.

Theorem unchecked_assertions_classified :
  forallb assert_ok unchecked_asserts = true /\ (2 <=? length unchecked_asserts)%nat = true.
Proof. vm_compute. split; reflexivity. Qed.

(* ---- the parser's context counters are balanced ------------------------------------------------
   Every function of parser.go that raises a counter (p.loopDepth++) lowers it as often and has no
   return between the first increment and the last decrement: after every complete construct the
   counter has the value it had before, so a later break/continue is judged by its own nesting. *)
Definition counter_ok (c : counter_site) : bool :=
  (c_incs c =? c_decs c)%nat && (c_returns_between c =? 0)%nat.

Definition has_loop_depth : bool := existsb (fun c => String.eqb (c_field c) "loopDepth") counter_sites.

Theorem context_counters_balanced :
  forallb counter_ok counter_sites = true /\ has_loop_depth = true.
Proof. vm_compute. split; reflexivity. Qed.

(* ---- token.go ------------------------------------------------------------------------------ *)
Definition lit (s : string) : bytes :=
  List.map (fun a => Z.of_N (N_of_ascii a)) (list_ascii_of_string s).

Definition model_tokens : list (string * Z) := [
  ("ILLEGAL", T_ILLEGAL);
  ("EOF", T_EOF);
  ("NEWLINE", T_NEWLINE);
  ("CONCAT", T_CONCAT);
  ("ADD", T_ADD);
  ("ADD_ASSIGN", T_ADD_ASSIGN);
  ("AND", T_AND);
  ("APPEND", T_APPEND);
  ("ASSIGN", T_ASSIGN);
  ("AT", T_AT);
  ("COLON", T_COLON);
  ("COMMA", T_COMMA);
  ("DECR", T_DECR);
  ("DIV", T_DIV);
  ("DIV_ASSIGN", T_DIV_ASSIGN);
  ("DOLLAR", T_DOLLAR);
  ("EQUALS", T_EQUALS);
  ("GTE", T_GTE);
  ("GREATER", T_GREATER);
  ("INCR", T_INCR);
  ("LBRACE", T_LBRACE);
  ("LBRACKET", T_LBRACKET);
  ("LESS", T_LESS);
  ("LPAREN", T_LPAREN);
  ("LTE", T_LTE);
  ("MATCH", T_MATCH);
  ("MOD", T_MOD);
  ("MOD_ASSIGN", T_MOD_ASSIGN);
  ("MUL", T_MUL);
  ("MUL_ASSIGN", T_MUL_ASSIGN);
  ("NOT_MATCH", T_NOT_MATCH);
  ("NOT", T_NOT);
  ("NOT_EQUALS", T_NOT_EQUALS);
  ("OR", T_OR);
  ("PIPE", T_PIPE);
  ("POW", T_POW);
  ("POW_ASSIGN", T_POW_ASSIGN);
  ("QUESTION", T_QUESTION);
  ("RBRACE", T_RBRACE);
  ("RBRACKET", T_RBRACKET);
  ("RPAREN", T_RPAREN);
  ("SEMICOLON", T_SEMICOLON);
  ("SUB", T_SUB);
  ("SUB_ASSIGN", T_SUB_ASSIGN);
  ("BEGIN", T_BEGIN);
  ("BREAK", T_BREAK);
  ("CONTINUE", T_CONTINUE);
  ("DELETE", T_DELETE);
  ("DO", T_DO);
  ("ELSE", T_ELSE);
  ("END", T_END);
  ("EXIT", T_EXIT);
  ("FOR", T_FOR);
  ("FUNCTION", T_FUNCTION);
  ("GETLINE", T_GETLINE);
  ("IF", T_IF);
  ("IN", T_IN);
  ("NEXT", T_NEXT);
  ("NEXTFILE", T_NEXTFILE);
  ("PRINT", T_PRINT);
  ("PRINTF", T_PRINTF);
  ("RETURN", T_RETURN);
  ("WHILE", T_WHILE);
  ("F_ATAN2", T_F_ATAN2);
  ("F_CLOSE", T_F_CLOSE);
  ("F_COS", T_F_COS);
  ("F_EXP", T_F_EXP);
  ("F_FFLUSH", T_F_FFLUSH);
  ("F_GSUB", T_F_GSUB);
  ("F_INDEX", T_F_INDEX);
  ("F_INT", T_F_INT);
  ("F_LENGTH", T_F_LENGTH);
  ("F_LOG", T_F_LOG);
  ("F_MATCH", T_F_MATCH);
  ("F_RAND", T_F_RAND);
  ("F_SIN", T_F_SIN);
  ("F_SPLIT", T_F_SPLIT);
  ("F_SPRINTF", T_F_SPRINTF);
  ("F_SQRT", T_F_SQRT);
  ("F_SRAND", T_F_SRAND);
  ("F_SUB", T_F_SUB);
  ("F_SUBSTR", T_F_SUBSTR);
  ("F_SYSTEM", T_F_SYSTEM);
  ("F_TOLOWER", T_F_TOLOWER);
  ("F_TOUPPER", T_F_TOUPPER);
  ("NAME", T_NAME);
  ("NUMBER", T_NUMBER);
  ("STRING", T_STRING);
  ("REGEX", T_REGEX) ]%string.

Theorem token_numbers_agree : gen_tokens = model_tokens.
Proof. vm_compute. reflexivity. Qed.

Fixpoint tok_value (tbl : list (string * Z)) (name : string) : Z :=
  match tbl with
  | [] => -1
  | (n, v) :: rest => if String.eqb n name then v else tok_value rest name
  end.

(* the keyword table of the model is the keywordTokens map of token.go, entry by entry *)
Theorem keywords_agree :
  List.map (fun kv => (lit (fst kv), tok_value gen_tokens (snd kv))) gen_keywords = keywords.
Proof. vm_compute. reflexivity. Qed.
