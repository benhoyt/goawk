(* C15 at program level: ExecuteContext with a context that is never cancelled (and a script
   that does not cancel it) returns what Execute returns and leaves the same interpreter state.
   Both are [execute_all]; they differ in the counter state only (checkCtx, ctxOps). *)
From Verif Require Import Lib.Base Model.Ast Model.Instr Model.Compiler Model.Prims Model.VM Model.Cancel
  Proofs.CodeAt Proofs.VMLemmas Proofs.Cancel Gen.Consts.

Set Implicit Arguments.

Section CancelTransparent.
  Variables value St err : Type.
  Variable P : prims value St err.
  Variable F : list cfunc.
  Variable cancel_req : St -> bool.
  Variable IO : ioprims value St err.
  Hypothesis never_req : forall s, cancel_req s = false.

  Notation run := (run P F).
  Notation run_ctx := (run_ctx P F cancel_req).
  Notation eval_pattern := (eval_pattern P F cancel_req).
  Notation match_pattern := (match_pattern P F cancel_req).
  Notation run_rules := (run_rules P F cancel_req IO).
  Notation exec_actions := (exec_actions P F cancel_req IO).
  Notation execute_all := (execute_all P F cancel_req IO).
  Notation mstate := (mstate value St).
  Notation cres := (cres value St err).

  (* the same answer from two silent counter states *)
  Definition same {A : Type} (f : cstate -> A * cstate) (cs cs0 : cstate) : Prop :=
    exists a cs' cs0', f cs = (a, cs') /\ f cs0 = (a, cs0') /\ silent cs' /\ silent cs0'.

  Lemma same_ret {A} (a : A) cs cs0 : silent cs -> silent cs0 -> same (fun c => (a, c)) cs cs0.
  Proof. intros Hs Hs0. exists a, cs, cs0. auto. Qed.

  Lemma same_bind {A B} (f : cstate -> A * cstate) (g : A -> cstate -> B * cstate) cs cs0 :
    same f cs cs0 -> (forall a c c0, silent c -> silent c0 -> same (g a) c c0) ->
    same (fun c => let '(a, c') := f c in g a c') cs cs0.
  Proof.
    intros (a & c & c0 & E & E0 & Hc & Hc0) Hg. destruct (Hg a c c0 Hc Hc0) as (b & c' & c0' & G & G0 & H).
    exists b, c', c0'. rewrite E, E0. auto.
  Qed.

  Lemma run_ctx_same k C ip stk m cs cs0 :
    silent cs -> silent cs0 -> same (run_ctx k C ip stk m) cs cs0.
  Proof.
    intros Hs Hs0.
    destruct (run_ctx_silent value St err P F cancel_req never_req k C ip stk m cs Hs) as (cs' & E & Hs').
    destruct (run_ctx_silent value St err P F cancel_req never_req k C ip stk m cs0 Hs0) as (cs0' & E0 & Hs0').
    exists (CRes (run k C ip stk m)), cs', cs0'. auto.
  Qed.

  Lemma eval_pattern_same f pat stk m cs cs0 :
    silent cs -> silent cs0 -> same (eval_pattern f pat stk m) cs cs0.
  Proof.
    intros Hs Hs0. unfold Cancel.eval_pattern.
    apply same_bind; [apply run_ctx_same; assumption|]. intros a c c0 Hc Hc0.
    destruct a as [r|mb]; [destruct r as [stk' m'|v stk' m'|stk' m'|x0 m'| |]; [destruct stk'| | |destruct x0| |]|];
      apply same_ret; assumption.
  Qed.

  Lemma match_pattern_same f pats ir stk m cs cs0 :
    silent cs -> silent cs0 -> same (match_pattern f pats ir stk m) cs cs0.
  Proof.
    intros Hs Hs0. unfold Cancel.match_pattern.
    destruct pats as [|p0 [|p1 [|p2 ps]]]; try (apply same_ret; assumption).
    - apply same_bind; [apply eval_pattern_same; assumption|]. intros a c c0 Hc Hc0.
      destruct a; apply same_ret; assumption.
    - apply same_bind; [destruct ir; [apply same_ret|apply eval_pattern_same]; assumption|]. intros a c c0 Hc Hc0.
      destruct a as [[|] stk' m'|fl stk' m'|r]; try (apply same_ret; assumption).
      apply same_bind; [apply eval_pattern_same; assumption|]. intros a1 c1 c01 Hc1 Hc01.
      destruct a1; apply same_ret; assumption.
  Qed.

  Lemma run_rules_same f : forall acts inr stk m cs cs0,
    silent cs -> silent cs0 -> same (run_rules f acts inr stk m) cs cs0.
  Proof.
    induction acts as [|[pats body] rest IH]; intros inr stk m cs cs0 Hs Hs0; cbn [Cancel.run_rules].
    - apply same_ret; assumption.
    - destruct inr as [|ir inr0]; [apply same_ret; assumption|].
      apply same_bind; [apply match_pattern_same; assumption|]. intros a cs1 cs01 Hs1 Hs01.
      destruct a as [matched ir' stk1 m1|fl ir' stk1 m1|r];
        [|destruct fl; apply same_ret; assumption|apply same_ret; assumption].
      assert (Hgo : forall stk2 m2 c c0, silent c -> silent c0 ->
                same (fun c => let '(o, inr'', cs3) := run_rules f rest inr0 stk2 m2 c in (o, ir' :: inr'', cs3)) c c0).
      { intros stk2 m2 c c0 Hc Hc0. apply same_bind; [apply IH; assumption|].
        intros [o inr2] c' c0' Hc' Hc0'. apply same_ret; assumption. }
      destruct matched; [cbv zeta|apply Hgo; assumption].
      destruct body as [[|i b]|].
      1, 3: (* no body, or an empty one: print the record *)
        destruct (io_print_line IO (ms m1)) as [s [u|e]]; [apply Hgo|apply same_ret]; assumption.
      apply same_bind; [apply run_ctx_same; assumption|]. intros x cs2 cs02 Hs2 Hs02.
      destruct x as [[stk2 m2|v stk2 m2|stk2 m2|[| | |e] m2| |]|mb]; try (apply same_ret; assumption).
      apply Hgo; assumption.
  Qed.

  Lemma exec_actions_same f : forall n acts inr stk m cs cs0,
    silent cs -> silent cs0 -> same (exec_actions n f acts inr stk m) cs cs0.
  Proof.
    induction n as [|n IH]; intros acts inr stk m cs cs0 Hs Hs0.
    - cbn. apply same_ret; assumption.
    - unfold same. cbn [Cancel.exec_actions].
      destruct (poll_silent cs Hs) as (c1 & -> & Hs1%tick_silent).
      destruct (poll_silent cs0 Hs0) as (c01 & -> & Hs01%tick_silent).
      destruct (io_next_line IO (ms m)) as [s [[line|]|e]]; try (apply same_ret; assumption).
      destruct (run_rules_same f acts inr stk (with_ms m (io_set_record IO s line)) Hs1 Hs01)
        as ([o inr'] & cs1 & cs01 & Er & Er0 & Hs2 & Hs02).
      rewrite Er, Er0.
      destruct o as [stk' m'|stk' m'|r].
      + apply IH; assumption.
      + apply IH; assumption.
      + apply same_ret; assumption.
  Qed.

  Lemma ctx_now_silent cs : silent cs -> ctx_now cs = false.
  Proof.
    intros [H|H]; unfold ctx_now, closed; rewrite H; [reflexivity|]. apply andb_false_r.
  Qed.

  Lemma classify_silent (r : cres) cs cs0 : silent cs -> silent cs0 -> classify r cs = classify r cs0.
  Proof.
    intros Hs Hs0. destruct r as [r|mb]; [|reflexivity].
    destruct r as [stk m|v stk m|stk m|x0 m| |]; cbn [classify];
      rewrite ?(ctx_now_silent Hs), ?(ctx_now_silent Hs0); try reflexivity.
  Qed.

  Lemma finish_end_same fuel cp stk m cs cs0 :
    silent cs -> silent cs0 -> same (finish_end P F cancel_req IO fuel cp stk m) cs cs0.
  Proof.
    intros Hs Hs0. unfold finish_end.
    destruct (run_ctx_same fuel (c_end cp) 0 stk m Hs Hs0) as (re & c3 & c03 & Ee & Ee0 & Hc3 & Hc03).
    unfold same. rewrite Ee, Ee0, (classify_silent re Hc3 Hc03).
    destruct (classify re c03); apply same_ret; assumption.
  Qed.

  Lemma run_records_same fuel cp stk m cs cs0 :
    silent cs -> silent cs0 -> same (run_records P F cancel_req IO fuel cp stk m) cs cs0.
  Proof.
    intros Hs Hs0. unfold run_records.
    destruct (exec_actions_same fuel fuel (c_actions cp) (repeat false (length (c_actions cp))) stk m Hs Hs0)
      as (ra & c2 & c02 & Ex & Ex0 & Hc2 & Hc02).
    unfold same. rewrite Ex, Ex0, (classify_silent ra Hc2 Hc02).
    destruct (classify ra c02); [apply finish_end_same|apply finish_end_same|apply same_ret]; assumption.
  Qed.

  Theorem execute_all_same fuel cp m0 cs cs0 :
    silent cs -> silent cs0 -> same (execute_all fuel cp m0) cs cs0.
  Proof.
    intros Hs Hs0. unfold same. rewrite !execute_all_eq.
    destruct (run_ctx_same fuel (c_begin cp) 0 [] m0 Hs Hs0) as (rb & cs1 & cs01 & Eb & Eb0 & Hs1 & Hs01).
    rewrite Eb, Eb0, (classify_silent rb Hs1 Hs01).
    destruct (classify rb cs01) as [stk m1|m1|r fin0]; [destruct (begin_only cp)|destruct (begin_only cp)|];
      [apply same_ret|apply run_records_same|apply same_ret|apply finish_end_same|apply same_ret]; assumption.
  Qed.

  (* ExecuteContext with context.Background()/TODO() (cancellable = false) or with a context that is
     never cancelled (d = None) returns what Execute returns and leaves the same state *)
  Corollary execute_context_is_execute fuel cp m0 cancellable d stale :
    cancellable = false \/ d = None ->
    fst (execute_all fuel cp m0 (cs_execute_context cancellable d)) = fst (execute_all fuel cp m0 (cs_execute stale)).
  Proof.
    intros Hs.
    assert (H1 : silent (cs_execute_context cancellable d)) by (destruct Hs; [left|right]; assumption).
    assert (H2 : silent (cs_execute stale)) by (left; reflexivity).
    destruct (execute_all_same fuel cp m0 H1 H2) as (a & cs' & cs0' & E & E0 & _).
    rewrite E, E0. reflexivity.
  Qed.

  (* a call depends on its own context only: whatever counter state the previous call on the same
     Interpreter left behind, the call returns the same result and leaves the same state *)
  Theorem call_independent_of_previous fuel cp m0 prev1 prev2 c :
    fst (execute_all fuel cp m0 (call_cs prev1 c)) = fst (execute_all fuel cp m0 (call_cs prev2 c)).
  Proof.
    destruct c as [|b d]; [|reflexivity].
    assert (H1 : silent (call_cs prev1 CallExecute)) by (left; reflexivity).
    assert (H2 : silent (call_cs prev2 CallExecute)) by (left; reflexivity).
    destruct (execute_all_same fuel cp m0 H1 H2) as (a & cs' & cs0' & E & E0 & _).
    rewrite E, E0. reflexivity.
  Qed.

  (* hence a whole history of calls does not depend on the counter state it starts from, and every
     call of it is [execute_all] from the initial state of that call alone *)
  Theorem run_calls_independent_of_previous fuel cp reset : forall cs s prev1 prev2,
    run_calls P F cancel_req IO fuel cp reset s prev1 cs = run_calls P F cancel_req IO fuel cp reset s prev2 cs.
  Proof.
    induction cs as [|c t IH]; intros s prev1 prev2; [reflexivity|].
    cbn [Cancel.run_calls].
    pose proof (call_independent_of_previous fuel cp {| ms := reset s; frame := []; depth := 0 |} prev1 prev2 c) as H.
    destruct (execute_all fuel cp {| ms := reset s; frame := []; depth := 0 |} (call_cs prev1 c)) as [[r1 f1] c1].
    destruct (execute_all fuel cp {| ms := reset s; frame := []; depth := 0 |} (call_cs prev2 c)) as [[r2 f2] c2].
    cbn [fst] in H. inversion H; subst. f_equal.
    destruct f2 as [s'|]; [apply IH|reflexivity].
  Qed.

  (* closeAll is deferred: it has run whenever the call returns *)

  Definition closed_out (o : xres value St err * option St * cstate) : Prop :=
    let '(x, fin, _) := o in x <> RStuck -> x <> RFuel -> exists m : mstate, fin = Some (io_close_all IO (ms m)).

  Lemma classify_closes (r : cres) c :
    match classify r c with
    | KFail x fin => closed_out (x, option_map (close IO) fin, c)
    | KNil _ m | KExit m => closed_out (RStatus (io_exit_status IO (ms m)), Some (close IO m), c)
    end.
  Proof.
    destruct r as [[stk m|v stk m|stk m|[| | |e] m| |]|mb]; cbn [classify closed_out option_map];
      intros H1 H2; try contradiction; eexists; reflexivity.
  Qed.

  Lemma finish_end_closes fuel cp stk m c : closed_out (finish_end P F cancel_req IO fuel cp stk m c).
  Proof.
    unfold finish_end. destruct (run_ctx fuel (c_end cp) 0 stk m c) as [re c3].
    pose proof (classify_closes re c3) as Hc. destruct (classify re c3); exact Hc.
  Qed.

  Lemma run_records_closes fuel cp stk m c : closed_out (run_records P F cancel_req IO fuel cp stk m c).
  Proof.
    unfold run_records.
    destruct (exec_actions fuel fuel (c_actions cp) (repeat false (length (c_actions cp))) stk m c) as [ra c2].
    pose proof (classify_closes ra c2) as Hc.
    destruct (classify ra c2); [apply finish_end_closes|apply finish_end_closes|exact Hc].
  Qed.

  Theorem execute_all_closes fuel cp m0 cs x fin cs' :
    execute_all fuel cp m0 cs = (x, fin, cs') ->
    x <> RStuck -> x <> RFuel -> exists m : mstate, fin = Some (io_close_all IO (ms m)).
  Proof.
    clear never_req.
    intros H. change (closed_out (x, fin, cs')). rewrite <- H, execute_all_eq.
    destruct (run_ctx fuel (c_begin cp) 0 [] m0 cs) as [rb cs1].
    pose proof (classify_closes rb cs1) as Hc.
    destruct (classify rb cs1); [destruct (begin_only cp)|destruct (begin_only cp)|];
      [exact Hc|apply run_records_closes|exact Hc|apply finish_end_closes|exact Hc].
  Qed.

End CancelTransparent.
