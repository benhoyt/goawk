(* C09: the parts of sprintf around one conversion specification: parseFmtTypes on
   pre ++ render d ++ post, the directive fmt sees after sprintf's patch of a negative
   '*' precision, single steps of the argument conversion loop, and what an integer
   argument is converted to and printed as. *)
From Verif Require Import Lib.Base Lib.Dyadic Lib.Utf8 Model.Printf
  Proofs.PrintfSpec Proofs.Utf8Facts Proofs.PrintfBase Proofs.PrintfInt Proofs.PrintfDir Proofs.PrintfScan.

(* the AWK way to an integer: truncation toward zero of a finite number *)
Definition awk_int (x : fnum) : option Z :=
  match x with FFin m e => Some (ftrunc m e) | _ => None end.

Lemma f2i64_awk_int x v : awk_int x = Some v -> - two63 <= v < two63 -> f2i64 x = v.
Proof.
  destruct x as [| |m e]; cbn [awk_int]; try discriminate. intros [= <-] H.
  unfold f2i64, in_i64. replace (- two63 <=? ftrunc m e) with true by lia.
  replace (ftrunc m e <? two63) with true by lia. reflexivity.
Qed.

Lemma i64_to_u64_mod v : - two63 <= v < two63 -> i64_to_u64 v = v mod two64.
Proof.
  intros H. unfold i64_to_u64. unfold two63, two64 in *. destruct (v <? 0) eqn:E.
  - apply Z.ltb_lt in E. apply Z.mod_unique with (q := -1); lia.
  - apply Z.ltb_ge in E. symmetry. apply Z.mod_small. lia.
Qed.

Lemma index_0 {A} (x : A) l : index (x :: l) 0 = Ok x.
Proof. unfold index. rewrite zlen_cons. pose proof (zlen_nonneg l).
  replace (0 <? 1 + zlen l) with true by lia. reflexivity. Qed.
Lemma index_1 {A} (x y : A) l : index (x :: y :: l) 1 = Ok y.
Proof. unfold index. rewrite !zlen_cons. pose proof (zlen_nonneg l).
  replace (1 <? 1 + (1 + zlen l)) with true by lia. reflexivity. Qed.

Definition go_render (d : dir) : bytes := 37 :: go_tail d.

Theorem parse_render d pre post : wf_dir d = true -> no_pct pre = true -> no_pct post = true ->
  parse_fmt_types (pre ++ render d ++ post)
  = Ok (pre ++ go_render d ++ post, dir_tys d ++ [conv_ty (d_conv d)], dir_stars d (zlen pre + 1)).
Proof.
  intros Hwf Hpre Hpost. unfold parse_fmt_types. rewrite render_tail. cbn [app].
  rewrite (pft_lit_pct _ _ _ Hpre), (pft_dir _ d post Hwf), (pft_lit post _ Hpost).
  cbn [prepend]. rewrite !app_nil_r, <- app_assoc. reflexivity.
Qed.

Lemma span_lit_app pre x : no_pct pre = true -> (match x with c :: _ => c = 37 | [] => True end) ->
  span_lit (pre ++ x) = (pre, x).
Proof.
  intros H Hx. induction pre as [|c t IH]; [destruct x as [|c x']; [|subst c]; reflexivity|].
  cbn [no_pct forallb] in H. apply andb_true_iff in H as [Hc Ht]. apply negb_true_iff in Hc.
  cbn [app span_lit]. rewrite Hc, (IH Ht). reflexivity.
Qed.

Lemma span_lit_all s : no_pct s = true -> span_lit s = (s, []).
Proof. intros H. rewrite <- (app_nil_r s) at 1. exact (span_lit_app s [] H I). Qed.

Definition set_dprec (d : dir) (p : pr) : dir := mkDir (d_flags d) (d_width d) p (d_conv d).
Definition is_float_conv (c : conv) : bool := match c with Ce | CE | Cf | Cg | CG => true | _ => false end.

(* g/G without precision carry .6; a negative '*' precision is dropped (for the
   floating conversions: replaced by the value 6) *)
Definition eff_dir (d : dir) (pv : Z) : dir :=
  match d_prec d with
  | PrNone => if is_g (d_conv d) then set_dprec d (PrLit [54]) else d
  | PrStar => if (pv <? 0) && negb (is_float_conv (d_conv d)) then set_dprec d PrNone else d
  | PrLit _ => d
  end.
Definition eff_pv (d : dir) (pv : Z) : Z :=
  match d_prec d with PrStar => if (pv <? 0) && is_float_conv (d_conv d) then 6 else pv | _ => pv end.

Lemma ins_true cv : ins cv true = [].
Proof. unfold ins. rewrite andb_false_r. reflexivity. Qed.

Definition args_for (d : dir) (aw ap a : value) (extra : list value) : list value :=
  (match d_width d with WStar => [aw] | _ => [] end)
  ++ (match d_prec d with PrStar => [ap] | _ => [] end) ++ a :: extra.

Lemma conv_ty_not_p cv : conv_ty cv <> TyP.
Proof. destruct cv; discriminate. Qed.

Lemma conv_ty_float cv : (match conv_ty cv with TyF => true | _ => false end) = is_float_conv cv.
Proof. destruct cv; reflexivity. Qed.

Lemma conv_args_width chars ffmt ts aw wv i rest fm st rm :
  conv_arg chars ffmt TyD aw = Ok (GInt wv) -> index rest i = Ok aw ->
  conv_args chars ffmt (TyD :: ts) rest i fm st rm
  = cons_arg (GInt wv) (conv_args chars ffmt ts rest (i + 1) fm st rm).
Proof. intros Hw Hi. cbn [conv_args]. rewrite Hi. cbn [rbind]. rewrite Hw. reflexivity. Qed.

Lemma conv_args_p_step chars ffmt ts rest i fm off stars' rm :
  conv_args chars ffmt (TyP :: ts) rest i fm (off :: stars') rm
  = (do a <- index rest i;
     let n := f2i64 (v_num a) in
     if n <? 0 then
       match ts with
       | [] => Panic
       | TyF :: _ => cons_arg (GInt 6) (conv_args chars ffmt ts rest (i + 1) fm stars' rm)
       | _ => do f1 <- slice fm 0 (off - rm);
              do f2 <- slice fm (off - rm + 2) (zlen fm);
              conv_args chars ffmt ts rest (i + 1) (f1 ++ f2) stars' (rm + 2)
       end
     else cons_arg (GInt n) (conv_args chars ffmt ts rest (i + 1) fm stars' rm)).
Proof. reflexivity. Qed.

Definition is_int_conv (c : conv) : bool :=
  match c with Cd | Ci | Co | Cu | Cx | CX => true | _ => false end.

(* the combinations of flags / precision / value in which fmt and C still differ *)
Definition int_ok (d : dir) (r : rspec) (v : Z) : Prop :=
  match d_conv d with
  | Cd | Ci => ~ (r_prec r = Some 0 /\ v = 0 /\ r_plus r || r_space r = true)
  | c => unsigned_ok r c (v mod two64)
  end.

(* width / precision within fmt's limit of 10^6; a '*' precision may be negative *)
Definition lim (d : dir) (wv pv : Z) : Prop :=
  match d_width d with
  | WLit ds => dval ds <= 1000000 | WStar => -1000000 <= wv <= 1000000 | WNone => True end /\
  match d_prec d with
  | PrLit ds => dval ds <= 1000000 | PrStar => - two63 <= pv <= 1000000 | PrNone => True end.

Lemma conv_arg_d_in_range chars ffmt a v : awk_int (v_num a) = Some v -> - two63 <= v < two63 ->
  conv_arg chars ffmt TyD a = Ok (GInt v).
Proof.
  intros Ha Hv. cbn [conv_arg]. destruct (v_num a) as [| |m e] eqn:E; cbn [awk_int] in Ha; try discriminate.
  injection Ha as Ha. cbv zeta. rewrite Ha.
  replace (two63 <=? v) with false by lia.
  replace (v <? - two63) with false by lia. cbn [orb].
  rewrite (f2i64_awk_int (FFin m e) v); [reflexivity | cbn [awk_int]; rewrite Ha; reflexivity | exact Hv].
Qed.

Lemma conv_arg_d_big chars ffmt a v : awk_int (v_num a) = Some v -> ~ (- two63 <= v < two63) ->
  conv_arg chars ffmt TyD a = Ok (GBig v).
Proof.
  intros Ha Hv. cbn [conv_arg]. destruct (v_num a) as [| |m e] eqn:E; cbn [awk_int] in Ha; try discriminate.
  injection Ha as Ha. cbv zeta. rewrite Ha.
  destruct (two63 <=? v) eqn:A; [reflexivity|]. destruct (v <? - two63) eqn:B; [reflexivity|].
  apply Z.leb_gt in A. apply Z.ltb_ge in B. exfalso. apply Hv. lia.
Qed.

Lemma conv_arg_u chars ffmt a v : awk_int (v_num a) = Some v -> - two63 <= v < two64 ->
  conv_arg chars ffmt TyU a = Ok (GUint (v mod two64)).
Proof.
  intros Ha Hv. cbn [conv_arg]. destruct (v_num a) as [| |m e] eqn:E; cbn [awk_int] in Ha; try discriminate.
  injection Ha as Ha. cbv zeta. rewrite Ha.
  destruct (two63 <=? v) eqn:A.
  - apply Z.leb_le in A. replace (v <? two64) with true by lia. cbn [andb].
    rewrite Z.mod_small by (unfold two63, two64 in *; lia). reflexivity.
  - apply Z.leb_gt in A. cbn [andb].
    rewrite (f2i64_awk_int (FFin m e) v); [| cbn [awk_int]; rewrite Ha; reflexivity | lia].
    rewrite i64_to_u64_mod by lia. reflexivity.
Qed.

Lemma wf_set_dprec d p : wf_dir d = true -> wf_p p = true -> wf_dir (set_dprec d p) = true.
Proof.
  unfold wf_dir, set_dprec. cbn [d_flags d_width d_prec]. intros H Hp.
  apply andb_true_iff in H as [H _]. rewrite H. destruct p; exact Hp.
Qed.

Lemma resolve_eff d wv pv : is_float_conv (d_conv d) = false -> is_g (d_conv d) = false ->
  resolve (eff_dir d pv) wv (eff_pv d pv) = resolve d wv pv.
Proof.
  intros Hf Hg. destruct d as [fl w p cv]. unfold eff_dir, eff_pv, set_dprec, resolve.
  cbn [d_flags d_width d_prec d_conv] in *. rewrite Hf, Hg, andb_false_r, andb_true_r.
  destruct p as [|ds|]; try reflexivity.
  destruct (pv <? 0) eqn:EN; cbn [d_flags d_width d_prec d_conv]; rewrite ?EN; reflexivity.
Qed.

(* the converted argument of an integer conversion and what fmt prints for it *)
Lemma int_arg_print chars ffmt d wv pv a v :
  is_int_conv (d_conv d) = true -> awk_int (v_num a) = Some v ->
  (conv_ty (d_conv d) = TyU -> - two63 <= v < two64) ->
  int_ok d (resolve d wv pv) v ->
  exists g, conv_arg chars ffmt (conv_ty (d_conv d)) a = Ok g /\
    forall f, st_matches f (resolve d wv pv) ->
      print_arg f g (go_conv_byte (d_conv d)) = Ok (c_directive chars d wv pv (AInt v)).
Proof.
  intros Hic Ha Hu Hok. unfold c_directive, int_ok in *.
  assert (Sg : exists g, conv_arg chars ffmt TyD a = Ok g /\
            forall f r, st_matches f r -> ~ (r_prec r = Some 0 /\ v = 0 /\ r_plus r || r_space r = true) ->
              print_arg f g 100 = Ok (c_signed r v)).
  { assert (D : - two63 <= v < two63 \/ ~ (- two63 <= v < two63)) by lia. destruct D as [R|R].
    - exists (GInt v). split; [exact (conv_arg_d_in_range chars ffmt a v Ha R)|].
      intros f r Hst Hk. cbn [print_arg int_verb Z.eqb Pos.eqb orb]. rewrite (fmt_integer_signed f _ v Hst Hk). reflexivity.
    - exists (GBig v). split; [exact (conv_arg_d_big chars ffmt a v Ha R)|].
      intros f r Hst Hk. cbn [print_arg Z.eqb Pos.eqb orb]. rewrite (big_format_signed f _ v Hst); [reflexivity | unfold two63 in *; lia]. }
  (* d and i are printed alike; o u x X take the same unsigned argument *)
  destruct (d_conv d) eqn:EC; try discriminate; cbn [conv_ty go_conv_byte] in *.
  1-2: destruct Sg as (g & G1 & G2); exists g; (split; [exact G1|]); intros f Hst; apply G2; assumption.
  all: exists (GUint (v mod two64)); (split; [apply conv_arg_u; [exact Ha | exact (Hu eq_refl)]|]);
       intros f Hst; cbn [print_arg int_verb Z.eqb Pos.eqb orb]; f_equal.
  - exact (fmt_integer_o f _ v Hst Hok).
  - exact (fmt_integer_u f _ v Hst Hok).
  - exact (fmt_integer_hex f _ v false Hst Hok).
  - exact (fmt_integer_hex f _ v true Hst Hok).
Qed.

(* fmt's limits hold for the directive it sees *)
Lemma eff_wf_lim d wv pv : wf_dir d = true -> lim d wv pv ->
  wf_dir (eff_dir d pv) = true /\ in_lim (eff_dir d pv) wv (eff_pv d pv).
Proof.
  intros Hwf [L1 L2]. destruct d as [fl w p cv]. unfold eff_dir, eff_pv, in_lim, set_dprec, wf_dir in *.
  cbn [d_flags d_width d_prec d_conv] in *.
  destruct p as [|ds|]; cbn [d_flags d_width d_prec d_conv].
  - destruct (is_g cv); cbn [d_flags d_width d_prec d_conv].
    + split; [|split; [exact L1 | vm_compute; discriminate]].
      apply andb_true_iff in Hwf as [H _]. rewrite H. reflexivity.
    + split; [exact Hwf | split; assumption].
  - split; [exact Hwf | split; assumption].
  - destruct (pv <? 0) eqn:EN; cbn [andb].
    + destruct (is_float_conv cv); cbn [negb d_flags d_width d_prec d_conv].
      * split; [exact Hwf | split; [exact L1 | lia]].
      * split; [|split; [exact L1 | exact I]].
        apply andb_true_iff in Hwf as [H _]. rewrite H. reflexivity.
    + apply Z.ltb_ge in EN. cbn [d_flags d_width d_prec d_conv]. split; [exact Hwf | split; [exact L1 | lia]].
Qed.
