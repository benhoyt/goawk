(* C15 at program level (interp.go executeAll / execActions as modelled in Model/Cancel.v):
   the counter invariant lifted through patterns, range patterns, rule bodies, the record loop,
   BEGIN and END. *)
From Verif Require Import Lib.Base Model.Ast Model.Instr Model.Compiler Model.Prims Model.VM Model.Cancel
  Proofs.CodeAt Proofs.VMLemmas Proofs.Cancel Proofs.CancelPrompt Gen.Consts.

Section CancelProgram.
  Variables value St err : Type.
  Variable P : prims value St err.
  Variable F : list cfunc.
  Variable cancel_req : St -> bool.
  Variable IO : ioprims value St err.

  Notation run_ctx := (run_ctx P F cancel_req).
  Notation eval_pattern := (eval_pattern P F cancel_req).
  Notation match_pattern := (match_pattern P F cancel_req).
  Notation run_rules := (run_rules P F cancel_req IO).
  Notation exec_actions := (exec_actions P F cancel_req IO).
  Notation execute_all := (execute_all P F cancel_req IO).
  Notation cres := (cres value St err).

  (* the result with which a layer stops the record loop, if it does *)
  Definition pstop (o : pout value St err) : option cres :=
    match o with POk _ _ _ | PNext _ _ _ => None | PStop r => Some r end.
  Definition mstop (o : mout value St err) : option cres :=
    match o with MOk _ _ _ _ | MNext _ _ _ _ => None | MStop r => Some r end.
  Definition lstop (o : lout value St err) : option cres :=
    match o with LNextLine _ _ | LNextFile _ _ => None | LStop r => Some r end.

  Lemma eval_pattern_inv {f pat stk m cs o cs'} :
    Inv cs -> eval_pattern f pat stk m cs = (o, cs') -> post (Z.of_nat f) (pstop o) cs cs'.
  Proof.
    intros HI H. unfold Cancel.eval_pattern in H.
    destruct (run_ctx f pat 0 stk m cs) as [x csb] eqn:E.
    pose proof (run_ctx_inv HI E) as Hb. pose proof Hb as (Hg & He & _).
    destruct x as [r|mb]; [destruct r as [stk' m'|v stk' m'|stk' m'|x0 m'| |]; [destruct stk'| | |destruct x0| |]|];
      inversion H; subst; try exact Hb; (split; [exact Hg|split; [exact He|discriminate]]).
  Qed.

  Lemma match_pattern_inv {f pats ir stk m cs o cs'} :
    Inv cs -> match_pattern f pats ir stk m cs = (o, cs') -> post (Z.of_nat f) (mstop o) cs cs'.
  Proof.
    intros HI H. unfold Cancel.match_pattern in H.
    destruct pats as [|p0 [|p1 [|p2 ps]]].
    - inversion H; subst. apply post_now; [exact HI|discriminate].
    - destruct (eval_pattern f p0 stk m cs) as [o0 cs0] eqn:E0.
      pose proof (eval_pattern_inv HI E0) as H0.
      destruct o0; inversion H; subst; exact H0.
    - assert (Hstart : forall o0 cs0,
                (if ir then (POk true stk m, cs) else eval_pattern f p0 stk m cs) = (o0, cs0) ->
                post (Z.of_nat f) (pstop o0) cs cs0).
      { intros o0 cs0 E. destruct ir.
        - inversion E; subst. apply post_now; [exact HI|discriminate].
        - eapply eval_pattern_inv; eassumption. }
      destruct (if ir then (POk true stk m, cs) else eval_pattern f p0 stk m cs) as [o0 cs0] eqn:E0.
      pose proof (Hstart _ _ eq_refl) as H0. pose proof H0 as (Hg0 & He0 & _).
      destruct o0 as [[|] stk' m'|fl stk' m'|r]; try (inversion H; subst; exact H0).
      destruct (eval_pattern f p1 stk' m' cs0) as [o1 cs1] eqn:E1.
      pose proof (eval_pattern_inv Hg0 E1) as H1.
      eapply post_ext; [exact He0|]. destruct o1; inversion H; subst; exact H1.
    - inversion H; subst. apply post_now; [exact HI|discriminate].
  Qed.

  Lemma run_rules_inv f : forall acts inr stk m cs o inr' cs',
    Inv cs -> run_rules f acts inr stk m cs = (o, inr', cs') -> post (Z.of_nat f) (lstop o) cs cs'.
  Proof.
    induction acts as [|[pats body] rest IH]; intros inr stk m cs o inr' cs' HI H.
    - cbn in H. inversion H; subst. apply post_now; [exact HI|discriminate].
    - cbn [Cancel.run_rules] in H.
      destruct inr as [|ir inr0]; [inversion H; subst; apply post_now; [exact HI|discriminate]|].
      destruct (match_pattern f pats ir stk m cs) as [om cs1] eqn:Em.
      pose proof (match_pattern_inv HI Em) as H1. pose proof H1 as (Hg1 & He1 & _).
      destruct om as [matched ir' stk1 m1|fl ir' stk1 m1|r];
        [|destruct fl; inversion H; subst; exact H1|inversion H; subst; exact H1].
      cbn [mstop goodo] in Hg1. eapply post_ext; [exact He1|]. clear H1 He1 Em HI cs.
      assert (Hgo : forall stk2 m2 cs2 o2 inr2 cs3, Inv cs2 ->
                (let '(o, inr'', cs3) := run_rules f rest inr0 stk2 m2 cs2 in (o, ir' :: inr'', cs3)) = (o2, inr2, cs3) ->
                post (Z.of_nat f) (lstop o2) cs2 cs3).
      { intros stk2 m2 cs2 o2 inr2 cs3 HI2 E.
        destruct (run_rules f rest inr0 stk2 m2 cs2) as [[o3 inr3] cs4] eqn:Er. inversion E; subst.
        exact (IH _ _ _ _ _ _ _ HI2 Er). }
      destruct matched; [|eapply Hgo; eassumption].
      destruct body as [[|i b]|].
      1, 3: (* no body, or an empty one: print the record *)
        destruct (io_print_line IO (ms m1)) as [s [u|e]];
          [eapply Hgo; eassumption|inversion H; subst; apply post_now; [exact Hg1|discriminate]].
      destruct (run_ctx f (i :: b) 0 stk1 m1 cs1) as [x cs2] eqn:Eb.
      pose proof (run_ctx_inv Hg1 Eb) as H2. pose proof H2 as (Hg2 & He2 & _).
      destruct x as [[stk2 m2|v stk2 m2|stk2 m2|[| | |e] m2| |]|mb]; try (inversion H; subst; exact H2).
      + eapply post_ext; [exact He2|]. eapply Hgo; eassumption.
      + inversion H; subst. split; [exact Hg2|split; [exact He2|discriminate]].
      + inversion H; subst. split; [exact Hg2|split; [exact He2|discriminate]].
  Qed.

  Lemma exec_actions_inv f : forall n acts inr stk m cs x cs',
    Inv cs -> exec_actions n f acts inr stk m cs = (x, cs') -> post (Z.of_nat (Nat.min n f)) (Some x) cs cs'.
  Proof.
    induction n as [|n IH]; intros acts inr stk m cs x cs' HI H.
    - cbn in H. inversion H; subst. split; [exact HI|split; [apply ext_refl|intros _; cbn; lia]].
    - cbn [Cancel.exec_actions] in H.
      destruct (poll cs) as [stop cs0] eqn:Ep. pose proof (poll_inv HI Ep) as Hp.
      destruct stop.
      { destruct Hp as (Hpost & Hcl & Hext). inversion H; subst.
        split; [split; assumption|split; [exact Hext|discriminate]]. }
      destruct Hp as (HI2 & Hext2 & Hclk).
      apply (post_le (Z.of_nat (Nat.min n f) + 1)); [lia|]. apply (post_tick Hext2 ltac:(lia)).
      remember (tick cs0) as cs2 eqn:Ecs2. clear Ecs2 Ep cs0 Hext2 Hclk HI cs.
      destruct (io_next_line IO (ms m)) as [s [[line|]|e]];
        try (inversion H; subst; apply post_now; [exact HI2|discriminate]).
      destruct (run_rules f acts inr stk (with_ms m (io_set_record IO s line)) cs2) as [[o inr'] cs1] eqn:Er.
      pose proof (run_rules_inv _ _ _ _ _ _ _ _ _ HI2 Er) as H1. pose proof H1 as (Hg & He & _).
      destruct o as [stk' m'|stk' m'|r].
      + eapply post_ext; [exact He|]. eapply IH; eassumption.
      + eapply post_ext; [exact He|]. eapply IH; eassumption.
      + inversion H; subst. apply (post_le (Z.of_nat f)); [lia|exact H1].
  Qed.

  (* what holds when Execute/ExecuteContext returns *)
  Definition fin_ok (x : xres value St err) (cs : cstate) : Prop :=
    Post cs /\
    (x = RCtx -> closed cs = true) /\
    (closed cs = true -> match x with RErr _ | RSentinel _ => False | _ => True end).

  Lemma classify_ok {r cs} :
    good r cs ->
    match classify r cs with
    | KNil _ _ | KExit _ => Inv cs
    | KFail x _ => fin_ok x cs
    end.
  Proof.
    intros Hg. destruct r as [r|mb].
    - cbn [CancelPrompt.good] in Hg. pose proof (Inv_Post Hg) as Hpost.
      assert (Hc : checkCtx cs = true) by (destruct Hg as (Hc & _); exact Hc).
      assert (Hf : forall (x : xres value St err),
                 (match x with RErr _ | RSentinel _ => True | _ => False end) ->
                 fin_ok (if ctx_now cs then RCtx else x) cs).
      { intros x Hx. unfold fin_ok, ctx_now. rewrite Hc. cbn [andb].
        destruct (closed cs) eqn:Ecl; repeat split; auto; try discriminate.
        intros E; subst x; contradiction. }
      destruct r as [stk m|v stk m|stk m|x0 m| |]; cbn [classify]; try exact Hg;
        try (apply Hf; exact I);
        try (unfold fin_ok; repeat split; auto; discriminate).
      destruct x0; try exact Hg; apply Hf; exact I.
    - cbn [CancelPrompt.good] in Hg. destruct Hg as (Hpost & Hcl). cbn [classify].
      unfold fin_ok. repeat split; auto.
  Qed.

  (* ... reached from [cs], RFuel only after [n] ticks of the clock *)
  Definition xpost (n : Z) (x : xres value St err) (cs cs' : cstate) : Prop :=
    fin_ok x cs' /\ ext cs cs' /\ (x = RFuel -> clock cs + n <= clock cs').

  Lemma xpost_ext n x a b c : ext a b -> xpost n x b c -> xpost n x a c.
  Proof.
    intros Hab (Hg & Hbc & Hf). split; [exact Hg|split; [eapply ext_trans; eassumption|]].
    intros E. specialize (Hf E). destruct Hab as (Hc & _). lia.
  Qed.

  Lemma xpost_status n st a c : Inv c -> ext a c -> xpost n (RStatus st) a c.
  Proof.
    intros HI He. split; [|split; [exact He|discriminate]].
    unfold fin_ok. repeat split; auto; try discriminate. apply Inv_Post; exact HI.
  Qed.

  Lemma classify_fuel (r : cres) cs x fin : classify r cs = KFail x fin -> x = RFuel -> r = CRes VFuel.
  Proof.
    intros H Hx. subst x. destruct r as [r|mb]; [|cbn in H; inversion H].
    destruct r as [stk m|v stk m|stk m|x0 m| |]; [| | |destruct x0| |]; cbn [classify] in H;
      try discriminate; try reflexivity; destruct (ctx_now cs); inversion H.
  Qed.

  Lemma classify_post {n r cs cs'} :
    post n (Some r) cs cs' ->
    match classify r cs' with
    | KNil _ _ | KExit _ => Inv cs' /\ ext cs cs'
    | KFail x _ => xpost n x cs cs'
    end.
  Proof.
    intros (Hg & He & Hf). pose proof (classify_ok Hg) as Hc.
    destruct (classify r cs') eqn:Ec; [split; assumption|split; assumption|].
    split; [exact Hc|split; [exact He|]]. intros Ex. apply Hf. f_equal. eapply classify_fuel; eassumption.
  Qed.

  Lemma finish_end_inv fuel cp stk m cs x fin cs' :
    Inv cs -> finish_end P F cancel_req IO fuel cp stk m cs = (x, fin, cs') -> xpost (Z.of_nat fuel) x cs cs'.
  Proof.
    intros HI H. unfold finish_end in H.
    destruct (run_ctx fuel (c_end cp) 0 stk m cs) as [re cs3] eqn:Ee.
    pose proof (classify_post (run_ctx_inv HI Ee)) as Hc.
    destruct (classify re cs3); inversion H; subst; try exact Hc; destruct Hc as [HI3 He3]; apply xpost_status; assumption.
  Qed.

  Lemma run_records_inv fuel cp stk m cs x fin cs' :
    Inv cs -> run_records P F cancel_req IO fuel cp stk m cs = (x, fin, cs') -> xpost (Z.of_nat fuel) x cs cs'.
  Proof.
    intros HI H. unfold run_records in H.
    destruct (exec_actions fuel fuel (c_actions cp) (repeat false (length (c_actions cp))) stk m cs) as [ra cs2] eqn:Ex.
    pose proof (exec_actions_inv _ _ _ _ _ _ _ _ _ HI Ex) as Ha. rewrite Nat.min_id in Ha.
    pose proof (classify_post Ha) as Hc.
    destruct (classify ra cs2).
    - destruct Hc as [HI2 He2]. eapply xpost_ext; [exact He2|]. eapply finish_end_inv; eassumption.
    - destruct Hc as [HI2 He2]. eapply xpost_ext; [exact He2|]. eapply finish_end_inv; eassumption.
    - inversion H; subst. exact Hc.
  Qed.

  Theorem execute_all_inv fuel cp m0 cs0 x fin cs' :
    Inv cs0 -> execute_all fuel cp m0 cs0 = (x, fin, cs') -> xpost (Z.of_nat fuel) x cs0 cs'.
  Proof.
    intros HI H. rewrite execute_all_eq in H.
    destruct (run_ctx fuel (c_begin cp) 0 [] m0 cs0) as [rb cs1] eqn:Eb.
    pose proof (classify_post (run_ctx_inv HI Eb)) as Hc.
    destruct (classify rb cs1) as [stk m1|m1|r fin0].
    - destruct Hc as [HI1 He1]. destruct (begin_only cp).
      + inversion H; subst. apply xpost_status; assumption.
      + eapply xpost_ext; [exact He1|]. eapply run_records_inv; eassumption.
    - destruct Hc as [HI1 He1]. destruct (begin_only cp).
      + inversion H; subst. apply xpost_status; assumption.
      + eapply xpost_ext; [exact He1|]. eapply finish_end_inv; eassumption.
    - inversion H; subst. exact Hc.
  Qed.

  (* ExecuteContext with a cancellable context, cancelled from outside at [d] (None: not at all) *)
  Corollary execute_context_prompt fuel cp m0 d x fin cs' :
    (forall t, d = Some t -> 0 <= t) ->
    execute_all fuel cp m0 (cs_execute_context true d) = (x, fin, cs') ->
    (forall t, done_at cs' = Some t -> clock cs' <= t + checkContextOps - 1) /\
    (x = RCtx -> closed cs' = true) /\
    (closed cs' = true -> match x with RErr _ | RSentinel _ => False | _ => True end).
  Proof.
    intros Hd H. destruct (execute_all_inv _ _ _ _ _ _ _ (Inv_init d Hd) H) as ((Hp & Hc & Hpref) & _).
    repeat split; assumption.
  Qed.

  Corollary execute_context_pre_cancelled fuel cp m0 x fin cs' :
    execute_all fuel cp m0 (cs_execute_context true (Some 0)) = (x, fin, cs') ->
    clock cs' <= checkContextOps - 1 /\ match x with RErr _ | RSentinel _ => False | _ => True end.
  Proof.
    intros H.
    destruct (execute_all_inv _ _ _ _ _ _ _ (Inv_init_at 0 (Z.le_refl 0)) H) as ((Hp & Hc & Hpref) & (Hclk & Hdone & _) & _).
    assert (E : done_at cs' = Some 0) by (apply Hdone; reflexivity).
    specialize (Hp 0 E). split; [lia|].
    apply Hpref. unfold closed. rewrite E. apply Z.leb_le. cbn in Hclk. exact Hclk.
  Qed.

End CancelProgram.
