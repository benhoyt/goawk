(* C01: unfolding equations of the fuel-indexed evaluator; the test and increment of while / for
   and the loop of for-in are given names. *)
From Verif Require Import Lib.Base Model.Ast Model.Instr Model.Compiler Model.Prims Model.VM Model.AstSem.

Section AstSemEq.
  Variables value St err : Type.
  Variable P : prims value St err.
  Variable FN : list func.
  Notation mstate := (mstate value St).

  Lemma eval_exprs_nil n m : eval_exprs P FN (S n) Enil m = ENormal [] m.
  Proof. reflexivity. Qed.
  Lemma eval_exprs_cons n e es m :
    eval_exprs P FN (S n) (Econs e es) m =
    ebind (eval P FN n e m) (fun v m1 => ebind (eval_exprs P FN n es m1) (fun vs m2 => ENormal (v :: vs) m2)).
  Proof. reflexivity. Qed.

  Lemma eval_index_S n es m :
    eval_index P FN (S n) es m =
    ebind (eval_exprs P FN n es m) (fun vs m1 =>
      match vs with
      | [] => EWrong
      | [v] => ENormal v m1
      | _ => ENormal (p_index_multi P (ms m1) vs) m1
      end).
  Proof. reflexivity. Qed.

  Lemma eval_lref_var n sc i m : eval_lref P FN (S n) (LVar sc i) m = ENormal (RVar sc i) m.
  Proof. reflexivity. Qed.
  Lemma eval_lref_field n e m :
    eval_lref P FN (S n) (LField e) m = ebind (eval P FN n e m) (fun idx m1 => ENormal (RField idx) m1).
  Proof. reflexivity. Qed.
  Lemma eval_lref_index n sc i idx m :
    eval_lref P FN (S n) (LIndex sc i idx) m = ebind (eval_index P FN n idx m) (fun key m1 => ENormal (RIndex sc i key) m1).
  Proof. reflexivity. Qed.

  Lemma eval_args_nil n m : eval_args P FN (S n) Anil m = ENormal [] m.
  Proof. reflexivity. Qed.
  Lemma eval_args_s n e a m :
    eval_args P FN (S n) (AconsS e a) m =
    ebind (eval P FN n e m) (fun v m1 => ebind (eval_args P FN n a m1) (fun vs m2 => ENormal (v :: vs) m2)).
  Proof. reflexivity. Qed.
  Lemma eval_args_a n sc i a m : eval_args P FN (S n) (AconsA sc i a) m = eval_args P FN n a m.
  Proof. reflexivity. Qed.

  Lemma exec_stmts_nil n l m : exec_stmts P FN (S n) l Snil m = RNormal m.
  Proof. reflexivity. Qed.
  Lemma exec_stmts_cons n l s ss m :
    exec_stmts P FN (S n) l (Scons s ss) m =
    match exec P FN n l s m with
    | RNormal m1 => exec_stmts P FN n l ss m1
    | other => other
    end.
  Proof. reflexivity. Qed.

  Definition test_cond (n : nat) (c : oexpr) (m : mstate) : eres value St err bool :=
    match c with
    | OEnone => ENormal true m
    | OEsome e => ebind (eval P FN n e m) (fun v m1 => ENormal (p_to_bool P v) m1)
    end.

  Definition eval_src (n : nat) (r : redir) (e : expr) (m : mstate) : eres value St err value :=
    match r with RNone => ENormal (p_null P) m | _ => eval P FN n e m end.

  Definition exec_ostmt (n : nat) (o : ostmt) (m : mstate) : xres value St err :=
    match o with OSnone => RNormal m | OSsome s1 => exec P FN n false s1 m end.

  Lemma exec_loop_S n c post body m :
    exec_loop P FN (S n) c post body m =
    sbind (test_cond n c m) (fun go m1 =>
      if negb go then RNormal m1 else
      match exec_stmts P FN n true body m1 with
      | RNormal m2 | RContinue m2 =>
          match exec_ostmt n post m2 with
          | RNormal m3 => exec_loop P FN n c post body m3
          | RBreak _ | RContinue _ => RWrong
          | other => other
          end
      | RBreak m2 => RNormal m2
      | other => other
      end).
  Proof. destruct c, post; reflexivity. Qed.

  Lemma eval_assign n lv r m :
    eval P FN (S n) (EAssign lv r) m =
    ebind (eval P FN n r m) (fun v m1 => ebind (eval_lref P FN n lv m1) (fun ref m2 => lref_write P v m2 ref v)).
  Proof. reflexivity. Qed.
  Lemma eval_augassign n lv op r m :
    eval P FN (S n) (EAugAssign lv op r) m =
    ebind (eval P FN n r m) (fun rv m1 =>
    ebind (eval_lref P FN n lv m1) (fun ref m2 =>
    ebind (lref_read P m2 ref) (fun old m3 =>
    ebind (of_pure_er m3 (p_arith P op old rv)) (fun nv m4 => lref_write P nv m4 ref nv)))).
  Proof. reflexivity. Qed.
  Lemma eval_incr n lv decr pre m :
    eval P FN (S n) (EIncr lv decr pre) m =
    ebind (eval_lref P FN n lv m) (fun ref m1 =>
    ebind (lref_read P m1 ref) (fun old m2 =>
      if pre then
        ebind (of_pure_er m2 (p_arith P (incr_arith decr) old (p_num P one_bits))) (fun nv m3 => lref_write P nv m3 ref nv)
      else
        ebind (of_pure_er m2 (p_arith P (incr_arith decr) (p_plus P old) (p_num P one_bits)))
              (fun nv m3 => lref_write P (p_plus P old) m3 ref nv))).
  Proof. reflexivity. Qed.

  Lemma exec_loop_no_brk n : forall c post body m,
    match exec_loop P FN n c post body m with
    | RBreak _ | RContinue _ => False
    | _ => True
    end.
  Proof.
    induction n as [|n IH]; intros c post body m; [exact I|].
    rewrite exec_loop_S.
    destruct (test_cond n c m) as [go m1|x m1| |]; cbn [sbind]; try exact I.
    destruct (negb go); [exact I|].
    destruct (exec_stmts P FN n true body m1) as [m2|m2|m2|v m2|x m2| |]; try exact I.
    - destruct (exec_ostmt n post m2); try exact I. apply IH.
    - destruct (exec_ostmt n post m2); try exact I. apply IH.
  Qed.

  Lemma exec_expr n l e m : exec P FN (S n) l (SExpr e) m = sbind (eval P FN n e m) (fun _ m1 => RNormal m1).
  Proof. reflexivity. Qed.
  Lemma exec_print n l (pf : bool) r dest args m :
    exec P FN (S n) l (if pf then SPrintf r dest args else SPrint r dest args) m =
    sbind (eval_src n r dest m) (fun dv m1 =>
    sbind (eval_exprs P FN n args m1) (fun vs m2 =>
    sbind (of_er m2 (p_print P pf (ms m2) r (redir_src r dv) vs)) (fun _ m3 => RNormal m3))).
  Proof. destruct pf; reflexivity. Qed.
  Lemma exec_if n l c body els m :
    exec P FN (S n) l (SIf c body els) m =
    sbind (eval P FN n c m) (fun vc m1 =>
      if p_to_bool P vc then exec_stmts P FN n l body m1 else exec_stmts P FN n l els m1).
  Proof. reflexivity. Qed.
  Lemma exec_for n l pre c post body m :
    exec P FN (S n) l (SFor pre c post body) m =
    match exec_ostmt n pre m with
    | RNormal m1 => exec_loop P FN n c post body m1
    | RBreak _ | RContinue _ => RWrong
    | other => other
    end.
  Proof. destruct pre; reflexivity. Qed.
  Lemma exec_while n l c body m :
    exec P FN (S n) l (SWhile c body) m = exec_loop P FN n (OEsome c) OSnone body m.
  Proof. reflexivity. Qed.
  Lemma exec_dowhile n l body c m :
    exec P FN (S n) l (SDoWhile body c) m =
    match exec_stmts P FN n true body m with
    | RNormal m1 | RContinue m1 =>
        sbind (eval P FN n c m1) (fun vc m2 =>
          if p_to_bool P vc then exec P FN n l (SDoWhile body c) m2 else RNormal m2)
    | RBreak m1 => RNormal m1
    | other => other
    end.
  Proof. reflexivity. Qed.

  Fixpoint forin_ast (n : nat) (vsc : scope) (vi : Z) (body : stmts) (ks : list value) (m : mstate) : xres value St err :=
    match ks with
    | [] => RNormal m
    | k :: ks' =>
        match var_write P m vsc vi k with
        | WStuck => RWrong
        | WErr e m1 => RAbort (XError e) m1
        | WOk m1 =>
            match exec_stmts P FN n true body m1 with
            | RNormal m2 | RContinue m2 => forin_ast n vsc vi body ks' m2
            | RBreak m2 => RNormal m2
            | other => other
            end
        end
    end.

  Lemma forin_ast_no_brk n vsc vi body ks : forall m,
    match forin_ast n vsc vi body ks m with
    | RBreak _ | RContinue _ => False
    | _ => True
    end.
  Proof.
    induction ks as [|k ks IH]; intros m; cbn [forin_ast]; [exact I|].
    destruct (var_write P m vsc vi k) as [m1|e m1|]; try exact I.
    destruct (exec_stmts P FN n true body m1); try exact I; apply IH.
  Qed.

  Lemma exec_forin n l vsc vi asc ai body m :
    exec P FN (S n) l (SForIn vsc vi asc ai body) m =
    forin_ast n vsc vi body (p_array_keys P (ms m) asc ai) m.
  Proof.
    set (L := fix loop (ks : list value) (m : mstate) : xres value St err :=
           match ks with
           | [] => RNormal m
           | k :: ks' =>
               match var_write P m vsc vi k with
               | WStuck => RWrong
               | WErr e m1 => RAbort (XError e) m1
               | WOk m1 =>
                   match exec_stmts P FN n true body m1 with
                   | RNormal m2 | RContinue m2 => loop ks' m2
                   | RBreak m2 => RNormal m2
                   | other => other
                   end
               end
           end).
    change (exec P FN (S n) l (SForIn vsc vi asc ai body) m) with (L (p_array_keys P (ms m) asc ai) m).
    generalize (p_array_keys P (ms m) asc ai). intros ks. revert m.
    induction ks as [|k ks IH]; intros m; cbn [forin_ast]; [reflexivity|].
    unfold L at 1; fold L.
    destruct (var_write P m vsc vi k) as [m1|e m1|]; try reflexivity.
    destruct (exec_stmts P FN n true body m1); try reflexivity; apply IH.
  Qed.

  Lemma exec_break n l m : exec P FN (S n) l SBreak m = if l then RBreak m else RWrong.
  Proof. reflexivity. Qed.
  Lemma exec_continue n l m : exec P FN (S n) l SContinue m = if l then RContinue m else RWrong.
  Proof. reflexivity. Qed.
  Lemma exec_next n l m : exec P FN (S n) l SNext m = RAbort XNext m.
  Proof. reflexivity. Qed.
  Lemma exec_nextfile n l m : exec P FN (S n) l SNextfile m = RAbort XNextfile m.
  Proof. reflexivity. Qed.
  Lemma exec_exit n l oe m :
    exec P FN (S n) l (SExit oe) m =
    match oe with
    | OEnone => RAbort XExit m
    | OEsome e => sbind (eval P FN n e m) (fun v m1 => RAbort XExit (with_ms m1 (p_set_exit P (ms m1) v)))
    end.
  Proof. reflexivity. Qed.
  Lemma exec_return n l oe m :
    exec P FN (S n) l (SReturn oe) m =
    match oe with
    | OEnone => RReturn (p_null P) m
    | OEsome e => sbind (eval P FN n e m) (fun v m1 => RReturn v m1)
    end.
  Proof. reflexivity. Qed.
  Lemma exec_delete n l sc i idx m :
    exec P FN (S n) l (SDelete sc i idx) m =
    sbind (eval_index P FN n idx m) (fun key m1 => RNormal (with_ms m1 (p_array_del P (ms m1) sc i key))).
  Proof. reflexivity. Qed.
  Lemma exec_deleteall n l sc i m :
    exec P FN (S n) l (SDeleteAll sc i) m = RNormal (with_ms m (p_array_clear P (ms m) sc i)).
  Proof. reflexivity. Qed.
  Lemma exec_block n l body m : exec P FN (S n) l (SBlock body) m = exec_stmts P FN n l body m.
  Proof. reflexivity. Qed.

End AstSemEq.

Arguments test_cond {value St err}.
Arguments eval_src {value St err}.
Arguments exec_ostmt {value St err}.
Arguments forin_ast {value St err}.
