(* C01: unfolding equations of the compiler model and size lemmas. *)
From Verif Require Import Lib.Base Lib.Dyadic Model.Ast Model.Instr Model.Compiler Proofs.CodeAt.

(* the code that evaluates the subscript / field index of an assignment target *)
Definition lv_code (lv : lval) : code :=
  match lv with
  | LVar _ _ => []
  | LField e => comp_expr e
  | LIndex _ _ idx => comp_index idx
  end.

Definition lv_get (lv : lval) : code :=
  match lv with
  | LVar sc i => [var_get sc i]
  | LField _ => [IDupe; IField]
  | LIndex sc i _ => [IDupe; IArray sc i]
  end.

Definition set_instr (lv : lval) : instr :=
  match lv with
  | LVar sc i => var_set sc i
  | LField _ => IAssignField
  | LIndex sc i _ => IAssignArray sc i
  end.

Lemma comp_assign_eq lv : comp_assign lv = lv_code lv ++ [set_instr lv].
Proof. destruct lv; reflexivity. Qed.

Lemma comp_dupe_lv_eq lv : comp_dupe_lv lv = lv_code lv ++ lv_get lv.
Proof. destruct lv; reflexivity. Qed.

(* the optional source / destination operand of getline, print and printf *)
Definition src_code (r : redir) (e : expr) : code := match r with RNone => [] | _ => comp_expr e end.

Definition getline_instr (lv : lval) (r : redir) : instr :=
  match lv with
  | LVar sc i => IGetlineVar sc r i
  | LField _ => IGetlineField r
  | LIndex sc i _ => IGetlineArray r sc i
  end.

(* the fused opcodes of the statement-position shortcuts *)
Definition aug_instr (lv : lval) (op : arith) : instr :=
  match lv with
  | LVar sc i => var_aug sc op i
  | LField _ => IAugField op
  | LIndex sc i _ => IAugArray sc op i
  end.

Definition incr_instr (lv : lval) (amt : Z) : instr :=
  match lv with
  | LVar sc i => var_incr sc amt i
  | LField _ => IIncrField amt
  | LIndex sc i _ => IIncrArray sc amt i
  end.

Lemma comp_stmt_assign lv r : comp_expr_stmt (EAssign lv r) = comp_expr r ++ lv_code lv ++ [set_instr lv].
Proof. destruct lv; reflexivity. Qed.
Lemma comp_stmt_aug lv op r : comp_expr_stmt (EAugAssign lv op r) = comp_expr r ++ lv_code lv ++ [aug_instr lv op].
Proof. destruct lv; reflexivity. Qed.
Lemma comp_stmt_incr lv decr pre : comp_expr_stmt (EIncr lv decr pre) = lv_code lv ++ [incr_instr lv (incr_amount decr)].
Proof. destruct lv; reflexivity. Qed.

(* the pieces of a while / for loop: increment, and the test with its jump (taken iff the
   test's outcome differs from inv; without a condition the outcome is true); then the loop
   without its init statement: top test, body, increment, bottom test *)
Definition ostmt_code (o : ostmt) : code := match o with OSnone => [] | OSsome s1 => comp_stmt LNone s1 end.
Definition test_code (c : oexpr) (inv : bool) (off : Z) : code :=
  match c with
  | OEsome ce => comp_cond ce inv off
  | OEnone => if inv then [] else [IJump off]
  end.

Definition loop_code (c : oexpr) (post : ostmt) (body : stmts) : code :=
  let body_sz := csize (comp_stmts (LLoop 0 0) body) in
  let tail := csize (ostmt_code post) + csize (test_code c false 0) in
  test_code c true (body_sz + tail) ++ comp_stmts (LLoop tail 0) body ++ ostmt_code post ++
  test_code c false (- (body_sz + tail)).

Lemma comp_stmt_for l pre c post body : comp_stmt l (SFor pre c post body) = ostmt_code pre ++ loop_code c post body.
Proof. destruct c; reflexivity. Qed.
Lemma comp_stmt_while l c body : comp_stmt l (SWhile c body) = loop_code (OEsome c) OSnone body.
Proof. reflexivity. Qed.

Lemma comp_index_eq es : comp_index es = comp_index_items es ++ index_multi_tail es.
Proof. reflexivity. Qed.

Lemma ce_field_int b n : fieldint_of b = Some n -> comp_expr (EField (ENum b)) = [IFieldInt n].
Proof. intros H. unfold comp_expr. cbn [comp_g]. rewrite H. reflexivity. Qed.

Lemma ce_field_num b : fieldint_of b = None -> comp_expr (EField (ENum b)) = comp_expr (ENum b) ++ [IField].
Proof. intros H. unfold comp_expr. cbn [comp_g]. rewrite H. reflexivity. Qed.

Lemma ce_field e : (forall b, e <> ENum b) -> comp_expr (EField e) = comp_expr e ++ [IField].
Proof. intros H. destruct e; try reflexivity. exfalso. eapply H. reflexivity. Qed.

Lemma ce_named e : (forall s, e <> EStr s) -> comp_expr (ENamedField e) = comp_expr e ++ [IFieldByName].
Proof. intros H. destruct e; try reflexivity. exfalso. eapply H. reflexivity. Qed.

Lemma ce_index sc i idx : comp_expr (EIndex sc i idx) = comp_index idx ++ [IArray sc i].
Proof. reflexivity. Qed.
Lemma ce_in idx sc i : comp_expr (EIn idx sc i) = comp_index idx ++ [IIn sc i].
Proof. reflexivity. Qed.
Lemma ce_bin op l r : comp_expr (EBin op l r) = comp_expr l ++ comp_expr r ++ [binop_instr op].
Proof. reflexivity. Qed.
Lemma ce_and l r :
  comp_expr (EAnd l r) = comp_expr l ++ [IDupe; IJumpFalse (1 + csize (comp_expr r)); IDrop] ++ comp_expr r ++ [IBoolean].
Proof. reflexivity. Qed.
Lemma ce_or l r :
  comp_expr (EOr l r) = comp_expr l ++ [IDupe; IJumpTrue (1 + csize (comp_expr r)); IDrop] ++ comp_expr r ++ [IBoolean].
Proof. reflexivity. Qed.
Lemma ce_concat l r :
  comp_expr (EConcat l r) =
  comp_cat l ++ comp_expr r ++ [if cat_count l + 1 =? 2 then IConcat else IConcatMulti (cat_count l + 1)].
Proof. reflexivity. Qed.
Lemma cc_concat l r : comp_cat (EConcat l r) = comp_cat l ++ comp_expr r.
Proof. reflexivity. Qed.
Lemma cc_other e : (forall l r, e <> EConcat l r) -> comp_cat e = comp_expr e.
Proof. intros H. destruct e; try reflexivity. exfalso. eapply H. reflexivity. Qed.
Lemma ce_unary op e : comp_expr (EUnary op e) = comp_expr e ++ [unop_instr op].
Proof. reflexivity. Qed.
Lemma ce_cond c t f :
  comp_expr (ECond c t f) =
  comp_cond c true (csize (comp_expr t) + 2) ++ comp_expr t ++ [IJump (csize (comp_expr f))] ++ comp_expr f.
Proof. reflexivity. Qed.
Lemma ce_assign lv r : comp_expr (EAssign lv r) = comp_expr r ++ [IDupe] ++ comp_assign lv.
Proof. reflexivity. Qed.
Lemma ce_group e : comp_expr (EGroup e) = comp_expr e.
Proof. reflexivity. Qed.
Lemma ce_call b es : comp_expr (ECall b es) = comp_exprs es ++ [ICallBuiltin b].
Proof. reflexivity. Qed.
Lemma ce_split s sc i : comp_expr (ESplit s sc i) = comp_expr s ++ [ICallSplit sc i].
Proof. reflexivity. Qed.
Lemma ce_splitsep s sc i sep isre :
  comp_expr (ESplitSep s sc i sep isre) = comp_expr s ++ comp_expr sep ++ [ICallSplitSep sc i isre].
Proof. reflexivity. Qed.
Lemma ce_sprintf es : comp_expr (ESprintf es) = comp_exprs es ++ [ICallSprintf (exprs_len es)].
Proof. reflexivity. Qed.
Lemma ce_native fi es : comp_expr (ENativeCall fi es) = comp_exprs es ++ [ICallNative fi (exprs_len es)].
Proof. reflexivity. Qed.
Lemma ce_usercall fi nsc a :
  comp_expr (EUserCall fi nsc a) =
  comp_args a ++ (if args_scalars a <? nsc then [INulls (nsc - args_scalars a)] else []) ++ [ICallUser fi (args_arrays a)].
Proof. reflexivity. Qed.
Lemma ce_augassign_var sc i op r :
  comp_expr (EAugAssign (LVar sc i) op r) =
  comp_expr r ++ lv_get (LVar sc i) ++ [ISwap; IArith op; IDupe; var_set sc i].
Proof. reflexivity. Qed.
Lemma ce_augassign lv op r :
  match lv with LVar _ _ => true | _ => false end = false ->
  comp_expr (EAugAssign lv op r) =
  comp_expr r ++ lv_code lv ++ lv_get lv ++ [IRote; IArith op; IDupe] ++ comp_assign_rote lv.
Proof.
  destruct lv; [discriminate| |]; intros _; unfold comp_expr; cbn [comp_g];
    rewrite comp_dupe_lv_eq, <- !app_assoc; reflexivity.
Qed.
Lemma ce_incr lv decr pre :
  comp_expr (EIncr lv decr pre) =
  lv_code lv ++ lv_get lv ++
  (if pre then [INum one_bits; IArith (incr_arith decr); IDupe]
   else [IUnaryPlus; IDupe; INum one_bits; IArith (incr_arith decr)]) ++ comp_assign_rote lv.
Proof.
  unfold comp_expr; cbn [comp_g]. rewrite comp_dupe_lv_eq. destruct pre; rewrite <- !app_assoc; reflexivity.
Qed.
Lemma ce_subvar g re repl sc i :
  comp_expr (ESubVar g re repl sc i) =
  comp_expr re ++ comp_expr repl ++ lv_get (LVar sc i) ++ [ICallBuiltin (if g then BGsub else BSub); var_set sc i].
Proof. reflexivity. Qed.
Lemma ce_sublv g re repl lv :
  comp_expr (ESubLv g re repl lv) =
  lv_code lv ++ lv_get lv ++ comp_expr re ++ comp_expr repl ++
  [IRote; ICallBuiltin (if g then BGsub else BSub); IRote] ++
  match lv with LIndex sc i _ => [IAssignArray sc i] | _ => [IAssignFieldSub] end.
Proof. unfold comp_expr; cbn [comp_g]. rewrite comp_dupe_lv_eq, <- !app_assoc. reflexivity. Qed.
Lemma ce_getline r src : comp_expr (EGetline r src) = src_code r src ++ [IGetline r].
Proof. destruct r; reflexivity. Qed.
Lemma ce_getline_lv r src lv :
  comp_expr (EGetlineLv r src lv) = lv_code lv ++ src_code r src ++ [getline_instr lv r].
Proof. destruct lv; reflexivity. Qed.
Lemma ce_exprs_cons e es : comp_exprs (Econs e es) = comp_expr e ++ comp_exprs es.
Proof. reflexivity. Qed.
Lemma ce_args_s e a : comp_args (AconsS e a) = comp_expr e ++ comp_args a.
Proof. reflexivity. Qed.
Lemma ce_args_a sc i a : comp_args (AconsA sc i a) = comp_args a.
Proof. reflexivity. Qed.

Lemma cond_size e inv off off' : csize (comp_cond e inv off) = csize (comp_cond e inv off').
Proof.
  unfold comp_cond, cond_code.
  destruct e; try (rewrite !csize_app; destruct inv; reflexivity).
  destruct op; try (rewrite !csize_app; destruct inv; reflexivity).
  destruct (inv && is_ordering c); rewrite !csize_app; reflexivity.
Qed.

Lemma test_size c inv off off' : csize (test_code c inv off) = csize (test_code c inv off').
Proof. destruct c; [destruct inv; reflexivity|apply cond_size]. Qed.

Definition same_kind (l l' : lctx) : Prop :=
  match l, l' with
  | LNone, LNone => True
  | LForIn _, LForIn _ => True
  | LLoop _ _, LLoop _ _ => True
  | _, _ => False
  end.

Lemma same_kind_shift l d : same_kind l (shift l d).
Proof. destruct l; exact I. Qed.
Lemma same_kind_sym l l' : same_kind l l' -> same_kind l' l.
Proof. destruct l, l'; auto. Qed.
Lemma same_kind_trans a b c : same_kind a b -> same_kind b c -> same_kind a c.
Proof. destruct a, b, c; auto; intros []. Qed.
Lemma same_kind_refl l : same_kind l l.
Proof. destruct l; exact I. Qed.

Scheme stmt_mind := Induction for stmt Sort Prop
  with stmts_mind := Induction for stmts Sort Prop
  with ostmt_mind := Induction for ostmt Sort Prop
  with oexpr_mind := Induction for oexpr Sort Prop.

Definition canon (l : lctx) : lctx :=
  match l with LNone => LNone | LForIn _ => LForIn 0 | LLoop _ _ => LLoop 0 0 end.

Lemma canon_shift l d : canon (shift l d) = canon l.
Proof. destruct l; reflexivity. Qed.
Lemma canon_idem l : canon (canon l) = canon l.
Proof. destruct l; reflexivity. Qed.
Lemma same_kind_canon l l' : same_kind l l' -> canon l = canon l'.
Proof. destruct l, l'; cbn; intros H; try contradiction; reflexivity. Qed.

(* both sides of a size equation are brought to one form: every sub-fragment in its canonical
   context (induction hypotheses), every condition with offset 0 *)
Ltac norm_sizes :=
  repeat match goal with
  | IH : (forall l, csize (comp_stmts l ?b) = csize (comp_stmts (canon l) ?b)) |- context [csize (comp_stmts ?l0 ?b)] =>
      lazymatch l0 with canon _ => fail | _ => rewrite (IH l0) end
  | IH : (forall l, csize (comp_stmt l ?b) = csize (comp_stmt (canon l) ?b)) |- context [csize (comp_stmt ?l0 ?b)] =>
      lazymatch l0 with canon _ => fail | _ => rewrite (IH l0) end
  end;
  rewrite ?canon_shift, ?canon_idem;
  repeat match goal with
  | |- context [csize (comp_cond ?e ?i ?off)] =>
      lazymatch off with 0 => fail | _ => rewrite (cond_size e i off 0) end
  end.

Ltac size_case :=
  intros; try exact I; cbn [comp_stmt comp_stmts]; try reflexivity;
  try match goal with |- context [stmts_is_nil ?e] => destruct (stmts_is_nil e) end;
  rewrite ?csize_app; norm_sizes; try reflexivity;
  try match goal with l : lctx |- _ => destruct l; reflexivity end.

Lemma stmts_size_canon ss : forall l, csize (comp_stmts l ss) = csize (comp_stmts (canon l) ss).
Proof.
  induction ss using stmts_mind with
    (P := fun s => forall l, csize (comp_stmt l s) = csize (comp_stmt (canon l) s))
    (P1 := fun _ => True) (P2 := fun _ => True); size_case.
Qed.

Lemma stmts_size_kind ss l l' : same_kind l l' -> csize (comp_stmts l ss) = csize (comp_stmts l' ss).
Proof. intros H. rewrite (stmts_size_canon ss l), (stmts_size_canon ss l'), (same_kind_canon _ _ H). reflexivity. Qed.
Lemma shift_0 l : shift l 0 = l.
Proof. destruct l; cbn [shift]; rewrite ?Z.add_0_r; reflexivity. Qed.

Lemma stmt_size_kind1 s l l' : same_kind l l' -> csize (comp_stmt l s) = csize (comp_stmt l' s).
Proof.
  intros H. pose proof (stmts_size_kind (Scons s Snil) l l' H) as E.
  cbn [comp_stmts csize] in E. rewrite !shift_0, !app_nil_r in E. exact E.
Qed.
