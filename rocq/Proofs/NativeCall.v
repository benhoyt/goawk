(* C17: callNative on a function that checkNativeFunc accepted: which Go arguments it
   builds, that no "unexpected type" arm / index / reflect.Call panic is reached, and
   how results and errors come back. *)
From Verif Require Import Lib.Base Lib.Dyadic Model.Native
  Proofs.NativeIndex Proofs.NativeCheck Proofs.NativeConv.

(* ---- list helpers ---- *)
Lemma skipn_nth_cons {A} (l : list A) k d : (k < length l)%nat -> skipn k l = nth k l d :: skipn (S k) l.
Proof.
  revert k. induction l as [|x l IH]; intros k H; cbn [length] in H; [lia|].
  destruct k as [|k]; [reflexivity|]. cbn [skipn nth]. apply IH. lia.
Qed.

Lemma nth_firstn_lt {A} (l : list A) d : forall n k, (k < n)%nat -> nth k (firstn n l) d = nth k l d.
Proof.
  induction l as [|x l IH]; intros n k H; [rewrite firstn_nil; reflexivity|].
  destruct n as [|n]; [lia|]. destruct k as [|k]; [reflexivity|]. cbn [firstn nth]. apply IH. lia.
Qed.

Lemma nth_skipn_add {A} (l : list A) d : forall n k, nth k (skipn n l) d = nth (n + k) l d.
Proof.
  induction l as [|x l IH]; intros n k; [rewrite skipn_nil; destruct k, n; reflexivity|].
  destruct n as [|n]; [reflexivity|]. cbn [skipn]. rewrite IH. reflexivity.
Qed.

Lemma nth_In_forallb (f : ty -> bool) l k d : forallb f l = true -> (k < length l)%nat -> f (nth k l d) = true.
Proof. intros F H. rewrite forallb_forall in F. apply F. apply nth_In. exact H. Qed.

Lemma assignable_refl t : assignable t t = true.
Proof. unfold assignable. rewrite ty_eqb_refl. reflexivity. Qed.

Section Prims.
  Variable parse_float : bytes -> option fnum.
  Variable parse_prefix : bytes -> fnum.
  Variable fmt_float : fnum -> bytes.

  Notation conv := (conv parse_float parse_prefix fmt_float).
  Notation to_native := (to_native parse_float parse_prefix fmt_float).
  Notation build_args := (build_args parse_float parse_prefix fmt_float).
  Notation call_native := (call_native parse_float parse_prefix fmt_float).

  (* ---- the specification of the argument list ---- *)
  (* the type that the i-th Go argument is converted to: parameter i, or the element type
     of the variadic parameter from its position on *)
  Definition param_ty (s : sig) (i : Z) : ty :=
    let n := zlen (params s) in
    if variadic s && (n - 1 <=? i) then nth (Z.to_nat (n - 1)) (eff_params s) TOther
    else nth (Z.to_nat i) (eff_params s) TOther.

  (* minIn *)
  Definition min_in (s : sig) : Z := zlen (params s) - (if variadic s then 1 else 0).

  Fixpoint spec_args (s : sig) (i : Z) (args : list value) : list gval :=
    match args with
    | [] => []
    | a :: rest => conv a (param_ty s i) :: spec_args s (i + 1) rest
    end.

  Definition spec_zeros (s : sig) (k : Z) : list gval :=
    map zero_value (firstn (Z.to_nat (min_in s - k)) (skipn (Z.to_nat k) (params s))).

  (* every AWK argument converted to its parameter's type, then zero values up to minIn *)
  Definition spec_values (s : sig) (args : list value) : list gval :=
    spec_args s 0 args ++ spec_zeros s (zlen args).

  Lemma spec_args_len s : forall args i, zlen (spec_args s i args) = zlen args.
  Proof. induction args as [|a r IH]; intros i; cbn [spec_args]; [reflexivity|]. rewrite !zlen_cons, IH. reflexivity. Qed.

  Lemma spec_zeros_len s k : 0 <= k -> zlen (spec_zeros s k) = Z.max 0 (min_in s - k).
  Proof.
    intros Hk. unfold spec_zeros, zlen, min_in. rewrite map_length, firstn_length, skipn_length.
    pose proof (zlen_nonneg (params s)) as Hn. unfold zlen in *. destruct (variadic s); lia.
  Qed.

  Theorem spec_values_len s args : zlen (spec_values s args) = Z.max (zlen args) (min_in s).
  Proof.
    unfold spec_values. rewrite zlen_app, spec_args_len, spec_zeros_len by apply zlen_nonneg. lia.
  Qed.

  Lemma eff_nth_fixed s i : wf_sig s -> 0 <= i < min_in s ->
    nth (Z.to_nat i) (params s) TOther = nth (Z.to_nat i) (eff_params s) TOther.
  Proof.
    intros W H. unfold eff_params, min_in in *. destruct (variadic s) eqn:V; [|reflexivity].
    destruct (W V) as (front & e & d & E). rewrite E in *. rewrite eff_var_snoc.
    rewrite zlen_app in H. change (zlen [TSlice e d]) with 1 in H.
    rewrite !app_nth1; [reflexivity| |]; unfold zlen in H; lia.
  Qed.

  Lemma param_ty_fixed s i : wf_sig s -> 0 <= i < min_in s -> param_ty s i = nth (Z.to_nat i) (params s) TOther.
  Proof.
    intros W H. unfold param_ty. rewrite (eff_nth_fixed s i W H). unfold min_in in H.
    destruct (variadic s); cbn [andb]; [|reflexivity].
    destruct (Z.leb_spec (zlen (params s) - 1) i) as [E|E]; [lia|reflexivity].
  Qed.

  (* position i of the Go argument list has a parameter type *)
  Definition has_param (s : sig) (i : Z) : Prop := 0 <= i /\ (variadic s = false -> i < zlen (params s)).

  Lemma arity_has_param s (args : list value) j : (variadic s = true \/ zlen args <= zlen (params s)) ->
    0 <= j < Z.max (zlen args) (min_in s) -> has_param s j.
  Proof.
    intros Har Hj. split; [lia|]. intros V. unfold min_in in Hj. rewrite V in Hj.
    destruct Har as [Hv|Hle]; [congruence|lia].
  Qed.

  Lemma wf_variadic_nonempty s : wf_sig s -> variadic s = true -> 1 <= zlen (params s).
  Proof.
    intros W V. destruct (W V) as (front & e & d & E). rewrite E, zlen_app.
    pose proof (zlen_nonneg front). change (zlen [TSlice e d]) with 1. lia.
  Qed.

  Lemma param_ty_valid s i : wf_sig s -> forallb valid_native_type (eff_params s) = true ->
    has_param s i -> valid_native_type (param_ty s i) = true.
  Proof.
    intros W A [Hi Hnv]. unfold param_ty. pose proof (eff_params_len s W) as L. unfold zlen in *.
    destruct (variadic s) eqn:V; cbn [andb].
    - pose proof (wf_variadic_nonempty s W V) as Hv. unfold zlen in Hv.
      destruct (Z.leb_spec (Z.of_nat (length (params s)) - 1) i) as [E|E];
        apply nth_In_forallb; try exact A; lia.
    - specialize (Hnv eq_refl). apply nth_In_forallb; [exact A|lia].
  Qed.

  (* the variadic type callNative computes: f.in[len(f.in)-1].Elem() *)
  Lemma variadic_type_ok s : wf_sig s -> variadic s = true ->
    (ndo l <- nindex (params s) (zlen (params s) - 1); elem l) =
    NOk (nth (Z.to_nat (zlen (params s) - 1)) (eff_params s) TOther).
  Proof.
    intros W V. unfold eff_params. rewrite V. destruct (W V) as (front & e & d & ->).
    rewrite eff_var_snoc, zlen_app. change (zlen [TSlice e d]) with 1.
    pose proof (zlen_nonneg front) as Hf.
    rewrite (nindex_nth _ _ TOther) by (rewrite zlen_app; change (zlen [TSlice e d]) with 1; lia).
    replace (Z.to_nat (zlen front + 1 - 1)) with (length front) by (unfold zlen; lia).
    rewrite !app_nth2 by lia. rewrite Nat.sub_diag. reflexivity.
  Qed.

  (* the type reflect.Value.Call wants at position i *)
  Lemma call_target_ok s i : wf_sig s -> has_param s i -> call_target s i = NOk (param_ty s i).
  Proof.
    intros W [Hi Hnv]. unfold call_target, param_ty. destruct (variadic s) eqn:V; cbn [andb].
    - destruct (Z.leb_spec (zlen (params s) - 1) i) as [E|E].
      + apply variadic_type_ok; assumption.
      + rewrite (nindex_nth _ _ TOther) by lia. f_equal. apply eff_nth_fixed; [exact W|].
        unfold min_in. rewrite V. lia.
    - specialize (Hnv eq_refl). rewrite (nindex_nth _ _ TOther) by lia. unfold eff_params. rewrite V. reflexivity.
  Qed.

  (* the argType selection of the loop (functions.go:33-39) picks the same type *)
  Lemma arg_type_ok s vt i : wf_sig s ->
    (variadic s = true -> vt = nth (Z.to_nat (zlen (params s) - 1)) (eff_params s) TOther) ->
    has_param s i ->
    (if negb (variadic s) || (i <? zlen (params s) - 1) then nindex (params s) i else NOk vt) = NOk (param_ty s i).
  Proof.
    intros W Hvt Hp. rewrite <- (call_target_ok s i W Hp). unfold call_target.
    destruct (variadic s) eqn:V; cbn [negb orb andb]; [|reflexivity].
    rewrite Z.leb_antisym. destruct (i <? zlen (params s) - 1); cbn [negb]; [reflexivity|].
    rewrite (variadic_type_ok s W V), (Hvt eq_refl). reflexivity.
  Qed.

  Lemma build_args_spec s vt : wf_sig s -> forallb valid_native_type (eff_params s) = true ->
    (variadic s = true -> vt = nth (Z.to_nat (zlen (params s) - 1)) (eff_params s) TOther) ->
    forall args i, (forall j, i <= j < i + zlen args -> has_param s j) ->
    build_args s vt i args = NOk (spec_args s i args).
  Proof.
    intros W A Hvt. induction args as [|a rest IH]; intros i Hp; [reflexivity|].
    cbn [Native.build_args spec_args]. rewrite zlen_cons in Hp. pose proof (zlen_nonneg rest) as Hr.
    assert (Hi : has_param s i) by (apply Hp; lia).
    rewrite (arg_type_ok s vt i W Hvt Hi). cbn [nbind].
    pose proof (to_native_conv parse_float parse_prefix fmt_float a (param_ty s i) (param_ty_valid s i W A Hi)) as Hc.
    destruct (to_native a (param_ty s i)) as [v0|k]; cbn [nbind] in Hc |- *; [|discriminate].
    rewrite Hc. cbn [nbind]. rewrite IH; [reflexivity|]. intros j Hj. apply Hp. lia.
  Qed.

  Lemma zero_fill_spec s : forall count i, 0 <= i -> (count <> 0%nat -> i + Z.of_nat count <= zlen (params s)) ->
    zero_fill s i count = NOk (map zero_value (firstn count (skipn (Z.to_nat i) (params s)))).
  Proof.
    induction count as [|c IH]; intros i Hi H; [reflexivity|]. specialize (H ltac:(discriminate)).
    cbn [zero_fill]. rewrite (nindex_nth _ _ TOther) by lia. cbn [nbind].
    rewrite IH by lia. cbn [nbind].
    rewrite (skipn_nth_cons (params s) (Z.to_nat i) TOther) by (unfold zlen in H; lia).
    cbn [firstn map]. replace (Z.to_nat (i + 1)) with (S (Z.to_nat i)) by lia. reflexivity.
  Qed.

  (* ---- what spec_values is, position by position ---- *)
  Lemma spec_args_nth s : forall args k j, 0 <= j < zlen args ->
    nth (Z.to_nat j) (spec_args s k args) (zero_value TOther) = conv (nth (Z.to_nat j) args VNull) (param_ty s (k + j)).
  Proof.
    induction args as [|a r IH]; intros k j Hj; [unfold zlen in Hj; cbn [length Z.of_nat] in Hj; lia|].
    rewrite zlen_cons in Hj. cbn [spec_args]. destruct (Z.eq_dec j 0) as [->|Hne].
    - cbn [Z.to_nat nth]. rewrite Z.add_0_r. reflexivity.
    - replace (Z.to_nat j) with (S (Z.to_nat (j - 1))) by lia. cbn [nth].
      rewrite IH by lia. do 2 f_equal. lia.
  Qed.

  Theorem spec_values_nth s args i :
    wf_sig s -> 0 <= i < Z.max (zlen args) (min_in s) ->
    nth (Z.to_nat i) (spec_values s args) (zero_value TOther) =
    if i <? zlen args then conv (nth (Z.to_nat i) args VNull) (param_ty s i)
    else zero_value (param_ty s i).
  Proof.
    intros W Hi. unfold spec_values.
    pose proof (spec_args_len s args 0) as L. pose proof (zlen_nonneg args) as Ha.
    destruct (Z.ltb_spec i (zlen args)) as [E|E].
    - rewrite app_nth1 by (unfold zlen in *; lia). apply (spec_args_nth s args 0). lia.
    - rewrite app_nth2 by (unfold zlen in *; lia).
      replace (Z.to_nat i - length (spec_args s 0 args))%nat with (Z.to_nat (i - zlen args)) by (unfold zlen in *; lia).
      unfold spec_zeros.
      assert (Hn : min_in s <= zlen (params s)) by (unfold min_in; destruct (variadic s); lia).
      rewrite (map_nth zero_value _ TOther). f_equal.
      rewrite nth_firstn_lt by lia. rewrite nth_skipn_add.
      rewrite param_ty_fixed by (try exact W; lia). f_equal. lia.
  Qed.

  (* ---- reflect.Value.Call's checks on that list ---- *)
  Lemma check_assign_typed s d : wf_sig s -> forall vals i,
    (forall j, 0 <= j < zlen vals -> has_param s (i + j) /\ gty (nth (Z.to_nat j) vals d) = param_ty s (i + j)) ->
    check_assign s i vals = NOk tt.
  Proof.
    intros W. induction vals as [|v rest IH]; intros i H; [reflexivity|].
    cbn [check_assign]. rewrite zlen_cons in H. pose proof (zlen_nonneg rest) as Hr.
    destruct (H 0) as [P T]; [lia|]. rewrite Z.add_0_r in P, T. cbn [Z.to_nat nth] in T.
    rewrite (call_target_ok s i W P). cbn [nbind]. rewrite T, assignable_refl.
    apply IH. intros j Hj. destruct (H (1 + j)) as [P' T']; [lia|].
    replace (Z.to_nat (1 + j)) with (S (Z.to_nat j)) in T' by lia.
    rewrite Z.add_assoc in P', T'. split; assumption.
  Qed.

  (* a value that is not assignable makes Call panic *)
  Lemma check_assign_first_bad s v rest : wf_sig s -> (variadic s = false -> 0 < zlen (params s)) ->
    assignable (gty v) (param_ty s 0) = false -> check_assign s 0 (v :: rest) = NPanic PkCallAssign.
  Proof.
    intros W Hnv Hb. cbn [check_assign]. rewrite (call_target_ok s 0 W (conj (Z.le_refl 0) Hnv)).
    cbn [nbind]. rewrite Hb. reflexivity.
  Qed.

  (* ---- the tail of callNative: Call, then the result / error dispatch ---- *)
  Definition finish (f : nfunc) (values : list gval) : nres call_result :=
    ndo outs <- reflect_call f values;
    match outs with
    | [] => NOk (CValue VNull values)
    | [o] => ndo r <- from_native o; NOk (CValue r values)
    | [o; e] =>
        match gdat e with
        | DErrNil => ndo r <- from_native o; NOk (CValue r values)
        | DErr id => NOk (CError id values)
        | _ => NPanic PkIsNil
        end
    | _ => NPanic PkNumOut
    end.

  (* valid_sig, part 1: for a function checkNativeFunc accepts, callNative reaches none of the
     "unexpected argument" arms and no index panic, and hands reflect.Call exactly spec_values *)
  Theorem call_native_builds tbl idx s body args :
    nindex tbl idx = NOk (s, body) -> wf_sig s -> forallb valid_native_type (eff_params s) = true ->
    (variadic s = true \/ zlen args <= zlen (params s)) ->
    call_native tbl idx args = finish (s, body) (spec_values s args).
  Proof.
    intros Hf W A Har. unfold Native.call_native, nfunc in *. rewrite Hf. cbn [nbind fst].
    set (vt := nth (Z.to_nat (zlen (params s) - 1)) (eff_params s) TOther).
    assert (Hvt : (if variadic s then ndo l <- nindex (params s) (zlen (params s) - 1); elem l else NOk TOther)
                  = NOk (if variadic s then vt else TOther)).
    { destruct (variadic s) eqn:V; [apply variadic_type_ok; assumption|reflexivity]. }
    rewrite Hvt. cbn [nbind].
    rewrite (build_args_spec s _ W A).
    - cbn [nbind].
      assert (Hz : zero_fill s (zlen args) (Z.to_nat ((if variadic s then zlen (params s) - 1 else zlen (params s)) - zlen args))
                   = NOk (spec_zeros s (zlen args))).
      { rewrite zero_fill_spec; [unfold spec_zeros, min_in; destruct (variadic s); do 4 f_equal; lia|apply zlen_nonneg|].
        pose proof (zlen_nonneg args). pose proof (zlen_nonneg (params s)). intros Hc. destruct (variadic s); lia. }
      rewrite Hz. cbn [nbind]. reflexivity.
    - intros V. rewrite V. reflexivity.
    - intros j Hj. apply (arity_has_param s args j Har). lia.
  Qed.

  (* part 2: reflect.Call accepts the list (every value has its parameter's own type) *)
  Theorem reflect_call_accepts s body args :
    wf_sig s -> forallb valid_native_type (eff_params s) = true ->
    (variadic s = true \/ zlen args <= zlen (params s)) ->
    reflect_call (s, body) (spec_values s args) = NOk (body (spec_values s args)).
  Proof.
    intros W A Har. unfold reflect_call.
    pose proof (spec_values_len s args) as L. pose proof (zlen_nonneg args) as Ha.
    assert (Hcount : (if variadic s then zlen (spec_values s args) <? zlen (params s) - 1
                      else negb (zlen (spec_values s args) =? zlen (params s))) = false).
    { rewrite L. unfold min_in. destruct (variadic s) eqn:V.
      - apply Z.ltb_ge. lia.
      - destruct Har as [Hv|Hle]; [discriminate|]. apply negb_false_iff, Z.eqb_eq. lia. }
    rewrite Hcount.
    rewrite (check_assign_typed s (zero_value TOther) W); [reflexivity|].
    intros j Hj. rewrite L in Hj. rewrite Z.add_0_l.
    pose proof (arity_has_param s args j Har Hj) as P. split; [exact P|].
    rewrite (spec_values_nth s args j W Hj).
    destruct (j <? zlen args); [|reflexivity].
    apply gty_conv, param_ty_valid; assumption.
  Qed.

  (* ---- the function's own results (Go's typing of the body) ---- *)
  Definition body_ok (s : sig) (body : list gval -> list gval) : Prop :=
    forall vals, Forall2 (fun t o => gty o = t /\ data_fits t (gdat o)) (results s) (body vals).

  (* the value/err dispatch, given what the body returns *)
  Inductive returns (s : sig) (outs : list gval) (values : list gval) : call_result -> Prop :=
  | ret_none : outs = [] -> returns s outs values (CValue VNull values)
  | ret_one o v : outs = [o] -> from_native o = NOk v -> returns s outs values (CValue v values)
  | ret_two_ok o e v : outs = [o; e] -> gdat e = DErrNil -> from_native o = NOk v -> returns s outs values (CValue v values)
  | ret_two_err o e id : outs = [o; e] -> gdat e = DErr id -> returns s outs values (CError id values).

  Theorem finish_ok s body args :
    wf_sig s -> acceptable_sig s = true -> body_ok s body ->
    (variadic s = true \/ zlen args <= zlen (params s)) ->
    exists r, finish (s, body) (spec_values s args) = NOk r /\
              returns s (body (spec_values s args)) (spec_values s args) r.
  Proof.
    intros W A B Har. unfold acceptable_sig in A. apply andb_true_iff in A as [A R].
    unfold finish. rewrite (reflect_call_accepts s body args W A Har). cbn [nbind].
    specialize (B (spec_values s args)).
    destruct (results s) as [|r [|e [|x rs]]]; cbn [results_ok] in R; try discriminate.
    - inversion B. eexists; split; [reflexivity|]. apply ret_none. reflexivity.
    - inversion B as [|? o ? tl [Ht Hd] Htl]; subst. inversion Htl; subst.
      destruct (from_native_ok o R Hd) as (v & Hv). rewrite Hv. cbn [nbind].
      eexists; split; [reflexivity|]. eapply ret_one; [reflexivity|exact Hv].
    - apply andb_true_iff in R as [R RE]. apply ty_eqb_eq in RE. subst e.
      inversion B as [|? o ? tl [Ht Hd] Htl]; subst. inversion Htl as [|? oe ? tl2 [Hte Hde] Htl2]; subst. inversion Htl2; subst.
      destruct (from_native_ok o R Hd) as (v & Hv).
      cbn [data_fits] in Hde. destruct Hde as [Hn|[id Hid]].
      + rewrite Hn, Hv. cbn [nbind]. eexists; split; [reflexivity|]. eapply ret_two_ok; [reflexivity|exact Hn|exact Hv].
      + rewrite Hid. eexists; split; [reflexivity|]. eapply ret_two_err; [reflexivity|exact Hid].
  Qed.

  (* valid_sig_no_panic: for every function checkNativeFunc accepts (user-defined types of the
     documented kinds included) and every permitted argument count, the call does not panic, the
     function receives exactly spec_values, and the outcome is the converted result or the
     function's own error *)
  Theorem valid_sig_no_panic tbl idx s body args :
    nindex tbl idx = NOk (s, body) -> wf_sig s -> acceptable_sig s = true -> body_ok s body ->
    (variadic s = true \/ zlen args <= zlen (params s)) ->
    exists r, call_native tbl idx args = NOk r /\
              returns s (body (spec_values s args)) (spec_values s args) r.
  Proof.
    intros Hf W A B Har.
    rewrite (call_native_builds tbl idx s body args Hf W); try assumption.
    - apply finish_ok; assumption.
    - unfold acceptable_sig in A. apply andb_true_iff in A as [A _]. exact A.
  Qed.
End Prims.
