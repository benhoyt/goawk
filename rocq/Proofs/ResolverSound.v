(* C16: the resolver model: whole passes, the pass loop,
   soundness (the accepted table solves the constraint system and is what the
   compiler relies on) and completeness (a type error refutes satisfiability). *)
From Verif Require Import Lib.Base Model.Resolver Proofs.Resolver.
Open Scope Z_scope.

Definition ext (t t' : vtable) : Prop :=
  forall k ty0, get t k = Some ty0 -> ty0 <> TUnknown -> get t' k = Some ty0.

Lemma ext_refl t : ext t t.
Proof. intros k ty0 H _. exact H. Qed.

Lemma ext_trans a b c : ext a b -> ext b c -> ext a c.
Proof. intros H1 H2 k ty0 G Hn. apply H2; [apply H1; assumption | exact Hn]. Qed.

Lemma ext_put t k v : get t k = None \/ get t k = Some TUnknown -> ext t (put t k v).
Proof.
  intros Hk k' ty0 G Hn. rewrite get_put. destruct (key_eqb k' k) eqn:E; [|exact G].
  apply key_eqb_eq in E. subst k'. destruct Hk; congruence.
Qed.

Lemma record_var_ext P s cur v typ s' :
  record_var P s cur v typ = ROk s' -> ext (st_vars s) (st_vars s').
Proof.
  intros H. pose proof (record_var_out P s cur v typ) as O. rewrite H in O.
  inversion O; subst; cbn [st_vars].
  - apply ext_refl.
  - apply ext_put. right. assumption.
  - apply ext_put. left. eapply lookup_var_None. eassumption.
Qed.

(* never backwards, known types stay, and nothing changes without an update *)
Definition grows (s s' : state) : Prop :=
  st_updates s <= st_updates s' /\ ext (st_vars s) (st_vars s') /\ (st_updates s' = st_updates s -> s' = s).

Lemma grows_refl s : grows s s.
Proof. split; [lia|]. split; [apply ext_refl | reflexivity]. Qed.

Lemma grows_trans a b c : grows a b -> grows b c -> grows a c.
Proof.
  intros [M1 [X1 Q1]] [M2 [X2 Q2]]. split; [lia|]. split; [eapply ext_trans; eassumption|].
  intros Hu. assert (Hb : b = a) by (apply Q1; lia). subst b. apply Q2. exact Hu.
Qed.

Lemma grows_antisym a b : grows a b -> grows b a -> a = b.
Proof. intros [M1 [_ Q1]] [M2 _]. symmetry. apply Q1. lia. Qed.

Notation sound P := (good (state_ok P) grows (fun e => is_type_error e = true -> ~ sat P) True True).

Section Walk.
Variable P : program.
Hypothesis Hnodup : NoDup (fnames P).
Hypothesis Hnonempty : forall fd, In fd (p_funcs P) -> f_name fd <> [].

Notation state_ok := (state_ok P).
Notation step_in := (step_in P).
Notation step_holds := (step_holds P).

Lemma body_steps_in fd : In fd (p_funcs P) -> Forall (step_in (f_name fd)) (flat_events (f_body fd)).
Proof.
  intros Hfd. apply Forall_forall. intros st Hst c Hc. unfold constraints.
  apply in_or_app. right. apply in_or_app. left.
  apply in_flat_map. exists fd. split; [exact Hfd|]. apply in_flat_map. exists st. split; assumption.
Qed.

Lemma main_steps_in : Forall (step_in []) (flat_events (p_main P)).
Proof.
  apply Forall_forall. intros st Hst c Hc. unfold constraints.
  apply in_or_app. right. apply in_or_app. right.
  apply in_flat_map. exists st. split; assumption.
Qed.

(* a run from a good state: a good state again, further on; a type error only
   if the constraints have no solution *)
Notation sound := (sound P).

Lemma record_var_sound s cur v typ :
  state_ok s ->
  (forall rho, solution P rho -> typ <> TUnknown -> rho (scope_key P cur v) = isarr typ) ->
  sound s (record_var P s cur v typ).
Proof.
  intros Hok Hj. destruct (record_var P s cur v typ) as [s'|e| |] eqn:E; cbn [good]; trivial.
  - destruct (record_var_ok P s cur v typ s' Hok Hj E) as [Hok' [Hm Hq]].
    split; [exact Hok'|]. split; [exact Hm|]. split; [apply (record_var_ext P _ _ _ _ _ E)|].
    intros Hu. apply Hq. exact Hu.
  - apply (record_var_err P s cur v typ e Hok Hj E).
Qed.

Lemma visit_step_sound cur st s : step_in cur st -> state_ok s -> sound s (visit_step P cur s st).
Proof.
  intros Hin Hok.
  destruct (visit_step_norm P Hnonempty cur s st Hok Hin) as [[E _]|[[e [E He]]|[E|[c [v [t [E [Hj _]]]]]]]];
    rewrite E; [apply good_ok; [apply grows_refl | exact Hok] | exact He | exact I | apply record_var_sound; assumption].
Qed.

Lemma visit_step_quiet cur st s :
  step_in cur st -> state_ok s -> visit_step P cur s st = ROk s -> step_holds (st_vars s) cur st.
Proof.
  intros Hin Hok E.
  destruct (visit_step_norm P Hnonempty cur s st Hok Hin) as [[_ Hh]|[[e [E' _]]|[E'|[c [v [t [E' [Hj Hh]]]]]]]];
    [exact Hh | congruence | congruence |].
  apply Hh. rewrite E' in E. apply (record_var_ok P s c v t s Hok Hj E). reflexivity.
Qed.

Lemma body_sound fd s :
  In fd (p_funcs P) -> state_ok s -> sound s (run_steps P (f_name fd) (flat_events (f_body fd)) s).
Proof.
  intros Hfd. apply (run_steps_good P _ _ _ _ _ grows_refl grows_trans step_in visit_step_sound).
  apply body_steps_in. exact Hfd.
Qed.

Lemma main_sound s : state_ok s -> sound s (run_steps P [] (flat_events (p_main P)) s).
Proof.
  apply (run_steps_good P _ _ _ _ _ grows_refl grows_trans step_in visit_step_sound). apply main_steps_in.
Qed.

Lemma walk_ordered_sound order s : state_ok s -> sound s (walk_ordered P order s).
Proof. apply (walk_ordered_good P _ _ _ _ _ grows_refl grows_trans body_sound main_sound). Qed.

Definition quiet (s : state) (cur : name) (st : step) : Prop :=
  visit_step P cur s st = ROk s /\ step_holds (st_vars s) cur st.

Lemma steps_quiet cur l s :
  state_ok s -> Forall (step_in cur) l -> run_steps P cur l s = ROk s -> Forall (quiet s cur) l.
Proof.
  intros Hok Hin H.
  pose proof (run_steps_fix P _ _ _ _ _ grows_refl grows_trans grows_antisym step_in visit_step_sound
                cur l s Hin Hok H) as Hfix.
  rewrite Forall_forall in *. intros st Hst. split; [apply Hfix; exact Hst|].
  apply visit_step_quiet; auto.
Qed.

Definition funcs_quiet (s : state) (order : list name) : Prop :=
  forall fn i fd, In fn order -> find_func P fn = Some (i, fd) ->
                  Forall (quiet s fn) (flat_events (f_body fd)).

Definition pass_quiet (s : state) (order : list name) : Prop :=
  funcs_quiet s order /\ Forall (quiet s []) (flat_events (p_main P)).

Lemma pass_quiet_fix order s : state_ok s -> walk_ordered P order s = ROk s -> pass_quiet s order.
Proof.
  intros Hok H.
  destruct (walk_ordered_fix P _ _ _ _ _ grows_refl grows_trans grows_antisym body_sound main_sound
              order s Hok H) as [Hf Hm].
  split; [|apply steps_quiet; [exact Hok | apply main_steps_in | exact Hm]].
  intros fn i fd Hin Hfind. destruct (find_func_In P fn i fd Hfind) as [Hfd Hname].
  apply steps_quiet; [exact Hok | rewrite <- Hname; apply body_steps_in; exact Hfd|].
  apply (walk_funcs_fix P _ _ _ _ _ grows_refl grows_trans grows_antisym body_sound order s Hok Hf fn i fd Hin);
    [|exact Hfind].
  apply is_empty_false. rewrite <- Hname. apply Hnonempty. exact Hfd.
Qed.

Lemma walk_ordered_ok order s s' :
  state_ok s -> walk_ordered P order s = ROk s' ->
  state_ok s' /\ st_updates s <= st_updates s' /\ ext (st_vars s) (st_vars s') /\
  (st_updates s' = st_updates s -> s' = s /\ pass_quiet s order).
Proof.
  intros Hok H. pose proof (walk_ordered_sound order s Hok) as G. rewrite H in G.
  destruct G as [Hok' [Hm [Hx Hq]]]. split; [exact Hok'|]. split; [exact Hm|]. split; [exact Hx|].
  intros Hu. specialize (Hq Hu). subst s'. split; [reflexivity|]. apply pass_quiet_fix; assumption.
Qed.

Lemma pass_loop_quiet order k : forall s u s5,
  state_ok s -> (st_updates s = u -> pass_quiet s order) ->
  pass_loop P order k s u = ROk s5 ->
  state_ok s5 /\ ext (st_vars s) (st_vars s5) /\ pass_quiet s5 order.
Proof.
  induction k as [|k IH]; intros s u s5 Hok Hex H; rewrite pass_loop_eq in H;
    (destruct (Z.eqb_spec (st_updates s) u) as [Eu|_]; [injection H as <-; auto using ext_refl|]);
    (destruct (walk_ordered P order s) as [s1| | |] eqn:Ew; cbn [rbind2] in H; try discriminate H).
  destruct (walk_ordered_ok order s s1 Hok Ew) as [Hok1 [_ [Hx1 Hq1]]].
  destruct (IH s1 (st_updates s) s5 Hok1) as [Hok5 [Hx5 Hpq]]; [|exact H|].
  - intros Hu. destruct (Hq1 Hu) as [-> Hpq]. exact Hpq.
  - split; [exact Hok5|]. split; [eapply ext_trans; eassumption | exact Hpq].
Qed.

Lemma get_fold_put_params t (f : name) ps k :
  get (fold_left (fun t p => put t (f, p) TUnknown) ps t) k =
  if existsb (fun p => key_eqb k (f, p)) ps then Some TUnknown else get t k.
Proof.
  revert t. induction ps as [|p ps IH]; intros t; cbn [fold_left existsb]; [reflexivity|].
  rewrite IH. rewrite get_put.
  destruct (existsb (fun p0 => key_eqb k (f, p0)) ps); [rewrite orb_true_r; reflexivity|].
  rewrite orb_false_r. reflexivity.
Qed.

Lemma get_init_vars_from fs t k :
  get (fold_left (fun t fd => fold_left (fun t p => put t (f_name fd, p) TUnknown) (f_params fd) t) fs t) k =
  if existsb (fun fd => existsb (fun p => key_eqb k (f_name fd, p)) (f_params fd)) fs then Some TUnknown else get t k.
Proof.
  revert t. induction fs as [|fd fs IH]; intros t; cbn [fold_left existsb]; [reflexivity|].
  rewrite IH. rewrite get_fold_put_params.
  destruct (existsb (fun fd0 => existsb (fun p => key_eqb k (f_name fd0, p)) (f_params fd0)) fs);
    [rewrite orb_true_r; reflexivity|].
  rewrite orb_false_r. reflexivity.
Qed.

Lemma init_vars_key k :
  get (init_vars P) k <> None ->
  exists fd p, In fd (p_funcs P) /\ In p (f_params fd) /\ k = (f_name fd, p).
Proof.
  unfold init_vars. rewrite get_init_vars_from. cbn [get]. intros H.
  destruct (existsb _ (p_funcs P)) eqn:E; [|congruence].
  apply existsb_exists in E. destruct E as [fd [Hfd E]]. apply existsb_exists in E. destruct E as [p [Hp E]].
  apply key_eqb_eq in E. eauto.
Qed.

Lemma init_vars_unknown k ty0 : get (init_vars P) k = Some ty0 -> ty0 = TUnknown.
Proof.
  unfold init_vars. rewrite get_init_vars_from. cbn [get]. destruct (existsb _ (p_funcs P)); congruence.
Qed.

Lemma init_vars_param fd p :
  In fd (p_funcs P) -> In p (f_params fd) -> get (init_vars P) (f_name fd, p) = Some TUnknown.
Proof.
  intros Hfd Hp. unfold init_vars. rewrite get_init_vars_from.
  replace (existsb _ (p_funcs P)) with true; [reflexivity|].
  symmetry. apply existsb_exists. exists fd. split; [exact Hfd|].
  apply existsb_exists. exists p. split; [exact Hp | apply key_eqb_refl].
Qed.

Lemma init_state_ok : state_ok (start_state P).
Proof.
  split; cbn [start_state st_vars].
  - split.
    + intros fn v Hfn. split.
      * intros H. destruct (init_vars_key _ H) as [fd [p [Hfd [Hp E]]]]. injection E as -> ->.
        rewrite (params_of_fd P Hnodup fd Hfd). exact Hp.
      * intros H. unfold params_of in H. destruct (find_func P fn) as [[i fd]|] eqn:Ef; [|destruct H].
        destruct (find_func_In P fn i fd Ef) as [Hfd <-]. rewrite (init_vars_param fd v Hfd H). discriminate.
    + intros v Hv. destruct (get (init_vars P) (gk v)) eqn:G; [|reflexivity].
      destruct (init_vars_key (gk v)) as [fd [p [Hfd [_ E]]]]; [congruence|].
      injection E as E _. exfalso. apply (Hnonempty fd Hfd). congruence.
  - intros rho Hs k ty0 G Hn. apply init_vars_unknown in G. contradiction.
Qed.

Definition defaulted (t : vtable) : vtable := map (fun e => (fst e, default_ty (snd e))) t.

Lemma get_defaulted t k : get (defaulted t) k = option_map default_ty (get t k).
Proof.
  induction t as [|[k' v] t IH]; cbn [defaulted map get fst snd option_map]; [reflexivity|].
  destruct (key_eqb k k'); [reflexivity | exact IH].
Qed.

Lemma assign_idx_ext types types' fn names : forall sc ar,
  (forall n, get_or_unknown types (fn, n) = get_or_unknown types' (fn, n)) ->
  assign_idx types fn names sc ar = assign_idx types' fn names sc ar.
Proof.
  induction names as [|n r IH]; intros sc ar He; cbn [assign_idx]; [reflexivity|].
  rewrite <- (He n). destruct (get_or_unknown types (fn, n)); rewrite IH by exact He; reflexivity.
Qed.

Lemma In_global_names t x : In x (global_names t) <-> In (gk x) (map fst t).
Proof.
  unfold global_names. rewrite in_map_iff. split.
  - intros [[[fn v] ty0] [Hx Hin]]. apply filter_In in Hin. destruct Hin as [Hin He]. cbn [fst snd] in *.
    apply is_empty_nil in He. subst. apply in_map_iff. exists (gk x, ty0). split; [reflexivity | exact Hin].
  - intros Hin. apply in_map_iff in Hin. destruct Hin as [[k ty0] [Hk Hin]]. cbn [fst] in Hk. subst k.
    exists (gk x, ty0). split; [reflexivity|]. apply filter_In. split; [exact Hin | reflexivity].
Qed.

Lemma NoDup_global_names t : NoDup (map fst t) -> NoDup (global_names t).
Proof.
  induction t as [|[[fn v] ty0] t IH]; intros Hnd; [constructor|].
  cbn [map fst] in Hnd. inversion Hnd as [|k l Hnotin Hnd']; subst.
  unfold global_names. cbn [filter fst]. destruct (is_empty fn) eqn:E.
  - cbn [map fst snd]. apply is_empty_nil in E. subst fn. constructor; [|apply IH; exact Hnd'].
    intros Hc. apply Hnotin. apply In_global_names. exact Hc.
  - apply IH. exact Hnd'.
Qed.

Lemma map_fst_defaulted t : map fst (defaulted t) = map fst t.
Proof. unfold defaulted. rewrite map_map. reflexivity. Qed.

Lemma inv_defaulted t : inv P t -> inv P (defaulted t).
Proof.
  intros [I1 I2]. split.
  - intros fn v Hfn. rewrite get_defaulted. rewrite <- (I1 fn v Hfn).
    destruct (get t (fn, v)); cbn [option_map]; split; congruence.
  - intros v Hv. rewrite get_defaulted, (I2 v Hv). reflexivity.
Qed.

Lemma kty_defaulted t k : present t k -> kty (defaulted t) k = default_ty (kty t k).
Proof.
  unfold present, kty, get_or_unknown. rewrite get_defaulted. intros H.
  destruct (kspecial k); [reflexivity|]. destruct H as [H|H]; [discriminate|].
  destruct (get t k); [reflexivity | congruence].
Qed.

Lemma rho_defaulted t k : inv P t -> rho_of (defaulted t) k = isarr (kty t k).
Proof.
  intros [I1 I2]. unfold rho_of, kty, get_or_unknown. rewrite get_defaulted.
  destruct (kspecial k) eqn:E.
  - destruct (kspecial_true k E) as [v [-> Hv]]. norm. rewrite (I2 v Hv). reflexivity.
  - destruct (get t k) as [[| |]|]; reflexivity.
Qed.

Lemma holds3_holds t c : inv P t -> holds3 t c -> holds (rho_of (defaulted t)) c.
Proof.
  intros Hi H. destruct c as [k ty0|k1 k2|k]; cbn [holds holds3] in *.
  - destruct ty0; [exact I| |]; rewrite (rho_defaulted t k Hi);
      (destruct H as [H|H]; [discriminate | rewrite H; reflexivity]).
  - rewrite !(rho_defaulted t _ Hi). rewrite H. reflexivity.
  - rewrite (rho_defaulted t k Hi). destruct (kty t k); [reflexivity | reflexivity | congruence].
Qed.

Definition covers (order : list name) : Prop := forall fd, In fd (p_funcs P) -> In (f_name fd) order.

Definition all_quiet (s : state) : Prop :=
  (forall fd, In fd (p_funcs P) -> Forall (quiet s (f_name fd)) (flat_events (f_body fd))) /\
  Forall (quiet s []) (flat_events (p_main P)).

Lemma pass_quiet_all s order : covers order -> pass_quiet s order -> all_quiet s.
Proof.
  intros Hc [Hf Hm]. split; [|exact Hm]. intros fd Hfd.
  destruct (find_func_of_In P Hnodup fd Hfd) as [i Hi].
  eapply Hf; [apply Hc; exact Hfd | exact Hi].
Qed.

Definition builtin_ok (t : vtable) : Prop :=
  get t (gk n_ARGV) = Some TArray /\ get t (gk n_ENVIRON) = Some TArray /\ get t (gk n_FIELDS) = Some TArray.

Lemma record_var_top s v s' :
  special v = false -> record_var P s [] v TArray = ROk s' -> get (st_vars s') (gk v) = Some TArray.
Proof.
  unfold record_var, lookup_var. cbn [is_empty]. intros Hv. rewrite Hv. norm.
  destruct (get (st_vars s) (gk v)) as [ity|] eqn:G.
  - destruct ity; cbn [ty_eqb negb andb]; intros H; try discriminate H; injection H as <-; cbn [st_vars];
      [apply get_put_same | exact G].
  - destruct (is_func P v); intros H; [discriminate H|]. injection H as <-. apply get_put_same.
Qed.

Lemma start_builtin s3 : start P = ROk s3 -> builtin_ok (st_vars s3).
Proof.
  unfold start. intros E3.
  destruct (record_var P (start_state P) [] n_ARGV TArray) as [s1| | |] eqn:E1; cbn [rbind2] in E3; try discriminate E3.
  destruct (record_var P s1 [] n_ENVIRON TArray) as [s2| | |] eqn:E2; cbn [rbind2] in E3; try discriminate E3.
  pose proof (record_var_ext _ _ _ _ _ _ E2) as X2. pose proof (record_var_ext _ _ _ _ _ _ E3) as X3.
  split; [|split].
  - apply X3; [|discriminate]. apply X2; [|discriminate]. exact (record_var_top _ n_ARGV _ eq_refl E1).
  - apply X3; [|discriminate]. exact (record_var_top _ n_ENVIRON _ eq_refl E2).
  - exact (record_var_top _ n_FIELDS _ eq_refl E3).
Qed.

Lemma base_justified (v : name) :
  In v [n_ARGV; n_ENVIRON; n_FIELDS] ->
  forall rho, solution P rho -> TArray <> TUnknown -> rho (scope_key P [] v) = isarr TArray.
Proof.
  intros Hv rho Hs _. assert (Hk : scope_key P [] v = gk v) by reflexivity. rewrite Hk.
  specialize (Hs (CIs (gk v) TArray)). cbn [holds] in Hs. apply Hs.
  unfold constraints, base_constraints. apply in_or_app. left. apply in_or_app. left.
  cbn [In] in Hv. destruct Hv as [<-|[<-|[<-|[]]]]; cbn [In]; auto.
Qed.

(* what acceptance means: the pre-default table of the final, quiet pass *)
Definition accepted_by (s : state) (F : final) : Prop :=
  F = finalize P s /\ state_ok s /\ builtin_ok (st_vars s).

Lemma record_builtin_sound v s :
  In v [n_ARGV; n_ENVIRON; n_FIELDS] -> state_ok s -> sound s (record_var P s [] v TArray).
Proof. intros Hv Hok. apply record_var_sound; [exact Hok | apply base_justified; exact Hv]. Qed.

Lemma passes_sound order cut : sound (start_state P) (passes P order (pass_loop P order cut)).
Proof.
  apply (passes_good P _ _ _ _ _ grows_refl grows_trans body_sound main_sound init_state_ok record_builtin_sound).
  intros s3 s4 _ _ Hok4 _.
  apply (pass_loop_good P _ _ _ _ _ grows_refl grows_trans body_sound main_sound); [discriminate | exact Hok4].
Qed.

Lemma passes_ok order cut s5 :
  passes P order (pass_loop P order cut) = ROk s5 ->
  state_ok s5 /\ builtin_ok (st_vars s5) /\ pass_quiet s5 order.
Proof.
  intros Ep. destruct (passes_ROk _ _ _ _ Ep) as [s3 [s4 [E3 [E4 E5]]]].
  pose proof (start_good P _ _ _ _ _ grows_trans init_state_ok record_builtin_sound) as G3.
  rewrite E3 in G3. destruct G3 as [Hok3 _].
  destruct (walk_ordered_ok order s3 s4 Hok3 E4) as [Hok4 [_ [X4 Hq4]]].
  destruct (pass_loop_quiet order cut s4 (st_updates s3) s5 Hok4) as [Hok5 [X5 Hpq]]; [|exact E5|].
  { intros Hu. destruct (Hq4 Hu) as [-> Hpq]. exact Hpq. }
  split; [exact Hok5|]. split; [|exact Hpq].
  destruct (start_builtin s3 E3) as [B1 [B2 B3]].
  assert (X : ext (st_vars s3) (st_vars s5)) by (eapply ext_trans; eassumption).
  split; [|split]; (apply X; [assumption | discriminate]).
Qed.

Lemma resolve_order_ok cut order F :
  resolve_order cut order P = ROk F ->
  exists s, accepted_by s F /\ pass_quiet s order.
Proof.
  rewrite resolve_order_eq. intros H. destruct (finish_ROk _ _ _ H) as [_ [s5 [Ep ->]]].
  destruct (passes_ok order cut s5 Ep) as [Hok [Hb Hq]].
  exists s5. split; [split; [reflexivity | split; assumption] | exact Hq].
Qed.

Lemma fin_types_finalize s : fin_types (finalize P s) = defaulted (st_vars s).
Proof. reflexivity. Qed.

Lemma fin_gidx_finalize s :
  fin_gidx (finalize P s)
  = assign_idx (defaulted (st_vars s)) [] (sort_names (global_names (defaulted (st_vars s)))) 0 0.
Proof. reflexivity. Qed.

Lemma fin_lidx_finalize s :
  fin_lidx (finalize P s)
  = map (fun fd => (f_name fd, assign_idx (defaulted (st_vars s)) (f_name fd) (f_params fd) 0 0)) (p_funcs P).
Proof. reflexivity. Qed.

Lemma in_base_constraints c :
  In c base_constraints ->
  (exists v, In v [n_ARGV; n_ENVIRON; n_FIELDS] /\ c = CIs (gk v) TArray) \/
  (exists v, special v = true /\ c = CIs (gk v) TScalar).
Proof.
  unfold base_constraints. intros H. apply in_app_or in H. destruct H as [H|H].
  - left. cbn [In] in H. destruct H as [<-|[<-|[<-|[]]]]; eexists; (split; [|reflexivity]); cbn; auto.
  - right. apply in_map_iff in H. destruct H as [v [<- Hv]]. exists v. split; [apply mem_In; exact Hv | reflexivity].
Qed.

(* SOUNDNESS: the accepted types solve the constraint system *)
Lemma sound_state s F :
  accepted_by s F -> all_quiet s -> solution P (rho_of (fin_types F)).
Proof.
  intros [-> [[Hi Hf] [B1 [B2 B3]]]] [Hfq Hmq] c Hc. rewrite fin_types_finalize.
  unfold constraints in Hc. apply in_app_or in Hc. destruct Hc as [Hc|Hc].
  - apply in_base_constraints in Hc. destruct Hc as [[v [Hv ->]]|[v [Hv ->]]]; cbn [holds].
    + unfold rho_of. rewrite get_defaulted.
      cbn [In] in Hv. destruct Hv as [<-|[<-|[<-|[]]]]; [rewrite B1 | rewrite B2 | rewrite B3]; reflexivity.
    + unfold rho_of. rewrite get_defaulted. destruct Hi as [_ I2]. rewrite (I2 v Hv). reflexivity.
  - apply holds3_holds; [exact Hi|].
    apply in_app_or in Hc. destruct Hc as [Hc|Hc].
    + apply in_flat_map in Hc. destruct Hc as [fd [Hfd Hc]]. apply in_flat_map in Hc. destruct Hc as [st [Hst Hc]].
      pose proof (Hfq fd Hfd) as Hall. rewrite Forall_forall in Hall. destruct (Hall st Hst) as [_ [Hh _]].
      apply Hh. exact Hc.
    + apply in_flat_map in Hc. destruct Hc as [st [Hst Hc]].
      rewrite Forall_forall in Hmq. destruct (Hmq st Hst) as [_ [Hh _]]. apply Hh. exact Hc.
Qed.

(* what the compiler relies on *)
Lemma cc_step_quiet s cur st :
  inv P (st_vars s) -> quiet s cur st -> cc_step P (defaulted (st_vars s)) cur st = true.
Proof.
  intros Hi [Hv [Hh Hp]]. pose proof (inv_defaulted _ Hi) as Hid.
  destruct st as [v t|f nargs|f i|f i v]; cbn [cc_step].
  - rewrite (type_of_lookup_kty P _ cur v Hid).
    rewrite (kty_defaulted _ _ Hp).
    specialize (Hh (CIs (scope_key P cur v) t) ltac:(left; reflexivity)). cbn [holds3] in Hh.
    destruct t.
    + destruct (kty (st_vars s) (scope_key P cur v)); reflexivity.
    + destruct Hh as [Hh|Hh]; [discriminate | rewrite Hh; reflexivity].
    + destruct Hh as [Hh|Hh]; [discriminate | rewrite Hh; reflexivity].
  - reflexivity.
  - cbn [visit_step] in Hv. destruct (func_info P f) as [fi|] eqn:Efi; [|discriminate].
    destruct (fi_native fi) eqn:En; [reflexivity|]. cbn [orb].
    destruct (nth_error (fi_params fi) i) as [p|] eqn:Ep; [|discriminate].
    destruct (func_info_awk P Hnonempty f fi Efi En) as [Hf _].
    specialize (Hh (CNotArr (f, p))). cbn [constr_of_step] in Hh. rewrite Efi, En, Ep in Hh.
    specialize (Hh ltac:(left; reflexivity)). cbn [holds3] in Hh. rewrite (kty_local _ f p Hf) in Hh.
    unfold get_or_unknown in *. rewrite get_defaulted.
    destruct (get (st_vars s) (f, p)) as [[| |]|]; cbn [option_map default_ty ty_eqb negb]; congruence.
  - cbn [visit_step] in Hv. destruct (func_info P f) as [fi|] eqn:Efi; [|discriminate].
    rewrite (type_of_lookup_kty P _ cur v Hid). rewrite (kty_defaulted _ _ Hp).
    destruct (fi_native fi) eqn:En.
    + specialize (Hh (CIs (scope_key P cur v) TScalar)). cbn [constr_of_step] in Hh. rewrite Efi, En in Hh.
      specialize (Hh ltac:(left; reflexivity)). cbn [holds3] in Hh.
      destruct Hh as [Hh|Hh]; [discriminate | rewrite Hh; reflexivity].
    + destruct (nth_error (fi_params fi) i) as [p|] eqn:Ep; [|discriminate].
      destruct (func_info_awk P Hnonempty f fi Efi En) as [Hf _].
      specialize (Hh (CEq (scope_key P cur v) (f, p))). cbn [constr_of_step] in Hh. rewrite Efi, En, Ep in Hh.
      specialize (Hh ltac:(left; reflexivity)). cbn [holds3] in Hh. rewrite (kty_local _ f p Hf) in Hh.
      rewrite Hh. unfold get_or_unknown. rewrite get_defaulted.
      destruct (get (st_vars s) (f, p)) as [[| |]|]; reflexivity.
Qed.

Lemma well_typed_state s F :
  accepted_by s F -> all_quiet s -> compile_check P F = true.
Proof.
  intros [-> [[Hi Hf] _]] [Hfq Hmq]. unfold compile_check. rewrite fin_types_finalize.
  apply andb_true_iff. split.
  - apply forallb_forall. intros fd Hfd. apply forallb_forall. intros st Hst.
    apply cc_step_quiet; [exact Hi|]. pose proof (Hfq fd Hfd) as Hall. rewrite Forall_forall in Hall. apply Hall. exact Hst.
  - apply forallb_forall. intros st Hst. apply cc_step_quiet; [exact Hi|].
    rewrite Forall_forall in Hmq. apply Hmq. exact Hst.
Qed.

(* COMPLETENESS: a type error refutes satisfiability *)
Lemma complete_order cut order e :
  resolve_order cut order P = RErr e -> is_type_error e = true -> ~ sat P.
Proof.
  rewrite resolve_order_eq. unfold finish. intros H He.
  destruct (first_dup [] (fnames P)); [injection H as <-; discriminate He|].
  pose proof (passes_sound order cut) as G.
  destruct (passes P order (pass_loop P order cut)); cbn [rbind2] in H; try discriminate H.
  injection H as <-. exact (G He).
Qed.

End Walk.
