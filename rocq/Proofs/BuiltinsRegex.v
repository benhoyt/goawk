(* C10, regex builtins: match / sub / gsub / split obey their defining equations, for EVERY
   regex engine [ff] (= re.doExecute of one compiled regex) that satisfies the hypotheses
   stated in the Section: matches lie inside the searched part of the text, and a match
   that reaches beyond the search position reaches at least past the first character
   there.  Proofs/BuiltinsEngine.v discharges them for the executable engine Lib/Regex. *)
From Verif Require Import Lib.Base Lib.Dyadic Lib.Utf8 Lib.Regex Model.Builtins Model.BuiltinsRegex
  Proofs.Utf8Facts Proofs.BuiltinsBytes Proofs.BuiltinsUtf8.

(* s[a:b] as a total function *)
Definition sub_str (s : bytes) (a b : Z) : bytes := ztake (b - a) (zdrop a s).

(* the text with the listed (ordered, non-overlapping) matches replaced by g(match),
   starting to copy at offset [last] *)
Fixpoint weave (s : bytes) (g : bytes -> bytes) (ms : list (Z * Z)) (last : Z) : bytes :=
  match ms with
  | [] => zdrop last s
  | (a, b) :: ms' => sub_str s last a ++ g (sub_str s a b) ++ weave s g ms' b
  end.

(* the same with a closure that threads a counter (what ReplaceAllStringFunc does with
   the closure of functions.go sub) *)
Fixpoint weave_st (s : bytes) (f : Z -> bytes -> bytes * Z) (ms : list (Z * Z)) (last count : Z) : bytes * Z :=
  match ms with
  | [] => (zdrop last s, count)
  | (a, b) :: ms' =>
      let rc := f count (sub_str s a b) in
      let out := weave_st s f ms' b (snd rc) in
      (sub_str s last a ++ fst rc ++ fst out, snd out)
  end.

(* ordered, non-overlapping, inside [lo, hi] *)
Fixpoint sorted_in (lo hi : Z) (ms : list (Z * Z)) : Prop :=
  match ms with
  | [] => True
  | (a, b) :: ms' => lo <= a /\ a <= b /\ b <= hi /\ sorted_in b hi ms'
  end.

(* a and b are offsets at which `for range s` stops (or len s), a before b *)
Definition on_rune_boundaries (s : bytes) (a b : Z) : Prop :=
  exists ka kb, 0 <= ka /\ ka <= kb /\ kb <= zlen (runes s) /\
    a = zlen (concat (ztake ka (runes s))) /\ b = zlen (concat (ztake kb (runes s))).

(* the two hypotheses on a regex engine, as named predicates (used to state the theorems
   after the Section is closed) *)
Definition engine_bounds (ff : bytes -> Z -> option (Z * Z)) : Prop :=
  forall s pos a b, 0 <= pos <= zlen s -> ff s pos = Some (a, b) -> pos <= a /\ a <= b /\ b <= zlen s.
Definition engine_step (ff : bytes -> Z -> option (Z * Z)) : Prop :=
  forall s pos a b, 0 <= pos <= zlen s -> ff s pos = Some (a, b) -> b <> pos ->
    pos + snd (decode_rune (zdrop pos s)) <= b.

Lemma slice_sub_str s a b : 0 <= a -> a <= b -> b <= zlen s -> slice s a b = Ok (sub_str s a b).
Proof. intros. unfold sub_str. apply slice_ok; assumption. Qed.

Lemma sub_str_app_drop s lo mid : 0 <= lo -> lo <= mid -> sub_str s lo mid ++ zdrop mid s = zdrop lo s.
Proof.
  intros H0 H1. unfold sub_str. replace mid with (lo + (mid - lo)) at 2 by lia.
  rewrite zdrop_zdrop by lia. apply ztake_zdrop.
Qed.

Lemma sub_str_empty s a : sub_str s a a = [].
Proof. unfold sub_str. rewrite Z.sub_diag. reflexivity. Qed.

Lemma float_to_int_of_Z z : - two63 < z < two63 -> float_to_int (FFin z 0) = z.
Proof.
  intros H. rewrite float_to_int_fin. cbn zeta. rewrite ftrunc_spec_nonneg_exp by lia.
  unfold maxint, minint. change (2 ^ 0) with 1. lia.
Qed.

Lemma decode_width_nil_iff s pos : 0 <= pos <= zlen s ->
  let w := snd (decode_rune (zdrop pos s)) in
  (pos < zlen s -> 1 <= w /\ pos + w <= zlen s) /\ (pos = zlen s -> w = 0).
Proof.
  intros Hp w. split.
  - intros Hlt. assert (zdrop pos s <> []) as Hne.
    { intros Hc. pose proof (zlen_zdrop pos s Hp) as Hz. rewrite Hc, zlen_nil in Hz. lia. }
    pose proof (decode_rune_width _ Hne) as Hw. rewrite zlen_zdrop in Hw by lia. unfold w. lia.
  - intros ->. unfold w. rewrite zdrop_all by lia. reflexivity.
Qed.

(* the text between two chunk boundaries is the chunks between them *)
Lemma sub_str_chunks s ka kb : 0 <= ka -> ka <= kb -> kb <= zlen (runes s) ->
  sub_str s (zlen (concat (ztake ka (runes s)))) (zlen (concat (ztake kb (runes s))))
  = concat (ztake (kb - ka) (zdrop ka (runes s))) /\
  rune_count (concat (ztake (kb - ka) (zdrop ka (runes s)))) = kb - ka.
Proof.
  intros H0 H1 H2. set (R := runes s). split.
  - unfold sub_str. rewrite <- (runes_concat s). fold R. rewrite zdrop_concat_chunks.
    replace kb with (ka + (kb - ka)) at 1 by lia.
    rewrite ztake_add, zlen_concat_app, Z.add_simpl_l by lia. apply ztake_concat_chunks.
  - unfold rune_count, R. rewrite runes_ztake_zdrop_chunks. apply zlen_ztake. rewrite zlen_zdrop by lia. lia.
Qed.

Section EngineThms.
  Variable ff : bytes -> Z -> option (Z * Z).

  (* a match found when searching from pos lies between pos and the end of the text *)
  Hypothesis ff_bounds : forall s pos a b,
    0 <= pos <= zlen s -> ff s pos = Some (a, b) -> pos <= a /\ a <= b /\ b <= zlen s.

  Theorem match_none chars s : ff s 0 = None -> builtin_match ff chars s = Ok (0, -1).
  Proof. intros H. unfold builtin_match. rewrite H. reflexivity. Qed.

  (* substr(s, RSTART, RLENGTH) is the match, in both modes *)
  Theorem match_substr chars s a b :
    go_len s -> ff s 0 = Some (a, b) -> (chars = true -> on_rune_boundaries s a b) ->
    exists rstart rlength,
      builtin_match ff chars s = Ok (rstart, rlength) /\
      (if chars then substr_len_chars else substr_len_bytes) s (FFin rstart 0) (FFin rlength 0)
        = Ok (sub_str s a b) /\
      slice s a b = Ok (sub_str s a b).
  Proof.
    intros Hlen Hf Hbd. pose proof (zlen_nonneg s) as Hl.
    destruct (ff_bounds s 0 a b ltac:(lia) Hf) as (H0 & H1 & H2).
    unfold go_len, maxint in Hlen. pose proof two63_pos as H63.
    unfold builtin_match. rewrite Hf. destruct chars.
    - destruct (Hbd eq_refl) as (ka & kb & Hka & Hkab & Hkb & -> & ->).
      destruct (sub_str_chunks s 0 ka ltac:(lia) Hka ltac:(lia)) as [Hpre Hrc1].
      destruct (sub_str_chunks s ka kb Hka Hkab Hkb) as [Hm Hrc2].
      change (zlen (concat (ztake 0 (runes s)))) with 0 in Hpre.
      rewrite (slice_sub_str s 0 _), (slice_sub_str s _ _) by lia. cbn [rbind].
      rewrite Hpre, Hrc1, Hm, Hrc2. eexists _, _. split; [reflexivity|]. split; [|reflexivity].
      pose proof (rune_count_le s) as Hrl. unfold rune_count in Hrl.
      unfold substr_len_chars. rewrite !float_to_int_of_Z, substr_len_chars_pl_spec by lia.
      replace (Z.max 1 (ka - 0 + 1) - 1) with ka by lia. rewrite Z.max_r by lia. reflexivity.
    - eexists _, _. split; [reflexivity|]. split; [|apply slice_sub_str; lia].
      rewrite substr_len_bytes_Z. rewrite !float_to_int_of_Z by lia.
      unfold sub_str. replace (Z.max 1 (a + 1) - 1) with a by lia. rewrite Z.max_r by lia. reflexivity.
  Qed.

  (* on ASCII text RSTART and RLENGTH are the same in both modes *)
  Theorem ascii_match s : is_ascii s = true -> builtin_match ff true s = builtin_match ff false s.
  Proof.
    intros Ha. unfold builtin_match. destruct (ff s 0) as [[a b]|] eqn:Hf; [|reflexivity].
    pose proof (zlen_nonneg s) as Hl.
    destruct (ff_bounds s 0 a b ltac:(lia) Hf) as (H0 & H1 & H2).
    rewrite (slice_sub_str s 0 a) by lia. rewrite (slice_sub_str s a b) by lia. cbn [rbind].
    unfold sub_str. rewrite !rune_count_ascii by (apply is_ascii_ztake, is_ascii_zdrop, Ha).
    rewrite zdrop_0, !zlen_ztake; [rewrite Z.sub_0_r; reflexivity| |lia]. rewrite zlen_zdrop by lia. lia.
  Qed.

  (* FindAllStringIndex: ordered, non-overlapping, inside the text *)
  Lemma sorted_in_weaken lo lo' hi ms : lo' <= lo -> sorted_in lo hi ms -> sorted_in lo' hi ms.
  Proof. destruct ms as [|[a b] ms]; cbn [sorted_in]; [auto|]. intros; intuition lia. Qed.

  Lemma all_matches_loop_sorted fuel s : forall pos pe,
    0 <= pos -> sorted_in pos (zlen s) (all_matches_loop ff fuel s pos pe).
  Proof.
    induction fuel as [|f IH]; intros pos pe Hp; cbn [all_matches_loop]; [exact I|].
    destruct (pos >? zlen s) eqn:Eg; [exact I|].
    assert (pos <= zlen s) as Hle by (destruct (Z.gtb_spec pos (zlen s)); [discriminate|lia]).
    destruct (ff s pos) as [[a b]|] eqn:Ef; [|exact I].
    destruct (ff_bounds s pos a b ltac:(lia) Ef) as (H1 & H2 & H3).
    set (pos' := if b =? pos
                 then (if snd (decode_rune (zdrop pos s)) >? 0 then pos + snd (decode_rune (zdrop pos s)) else zlen s + 1)
                 else b).
    assert (b <= pos') as Hb
      by (unfold pos'; destruct (Z.eqb_spec b pos), (Z.gtb_spec (snd (decode_rune (zdrop pos s))) 0); lia).
    pose proof (IH pos' b ltac:(lia)) as Hrest.
    destruct (negb ((b =? pos) && (a =? pe))).
    - cbn [sorted_in]. repeat split; try lia.
      exact (sorted_in_weaken _ _ _ _ Hb Hrest).
    - apply (sorted_in_weaken pos'); [lia|exact Hrest].
  Qed.

  Theorem all_matches_gen_sorted s : sorted_in 0 (zlen s) (all_matches_gen ff s).
  Proof. apply all_matches_loop_sorted. lia. Qed.

  (* replaceAll visits exactly the matches of allMatches *)
  (* a match that is not the empty match at the search position ends at or after the end
     of the first character at the search position *)
  Hypothesis ff_step : forall s pos a b,
    0 <= pos <= zlen s -> ff s pos = Some (a, b) -> b <> pos ->
    pos + snd (decode_rune (zdrop pos s)) <= b.

  (* the two loops advance to the same next search position *)
  Lemma next_pos_eq s sp a b :
    0 <= sp <= zlen s -> ff s sp = Some (a, b) ->
    let w := snd (decode_rune (zdrop sp s)) in
    let sp_ra := if sp + w >? b then sp + w else if sp + 1 >? b then sp + 1 else b in
    let sp_am := if b =? sp then (if w >? 0 then sp + w else zlen s + 1) else b in
    sp_ra = sp_am /\ sp + 1 <= sp_ra /\ b <= sp_ra /\ sp_ra <= zlen s + 1.
  Proof.
    intros Hsp Hf w sp_ra sp_am.
    destruct (ff_bounds s sp a b Hsp Hf) as (H1 & H2 & H3).
    destruct (decode_width_nil_iff s sp Hsp) as [Hw1 Hw0]. fold w in Hw1, Hw0.
    pose proof (ff_step s sp a b Hsp Hf) as Hst. fold w in Hst.
    unfold sp_ra, sp_am. clearbody w. clear sp_ra sp_am Hf.
    destruct (Z.eqb_spec b sp), (Z.gtb_spec (sp + w) b), (Z.gtb_spec (sp + 1) b), (Z.gtb_spec w 0); lia.
  Qed.

  (* loop invariant relating (searchPos, lastMatchEnd) of replaceAll to (pos, prevMatchEnd) of allMatches *)
  Definition ra_inv (s : bytes) (sp lme pe : Z) : Prop :=
    0 <= lme /\ lme <= sp /\ lme <= zlen s /\ sp <= zlen s + 1 /\
    ((pe = lme /\ 1 <= sp) \/ (sp = 0 /\ lme = 0 /\ pe = -1)).

  (* ... and replace exactly when allMatches accepts *)
  Lemma accept_eq s sp lme pe a b :
    ra_inv s sp lme pe -> sp <= a -> a <= b ->
    ((b >? lme) || (a =? 0)) = negb ((b =? sp) && (a =? pe)).
  Proof.
    intros (H0 & H1 & H2 & H3 & Hc) Ha Hb.
    destruct (Z.gtb_spec b lme), (Z.eqb_spec a 0), (Z.eqb_spec b sp), (Z.eqb_spec a pe);
      cbn [orb andb negb]; try reflexivity; exfalso; lia.
  Qed.

  Theorem replace_loop_weave s f : forall fuel sp lme pe count,
    ra_inv s sp lme pe -> zlen s + 2 - sp <= Z.of_nat fuel ->
    replace_loop ff fuel s f sp lme count =
    Ok (weave_st s f (all_matches_loop ff fuel s sp pe) lme count).
  Proof.
    induction fuel as [|fu IH]; intros sp lme pe count Hinv Hfuel.
    { destruct Hinv as (H0 & H1 & H2 & H3 & _). lia. }
    pose proof Hinv as (H0 & H1 & H2 & H3 & Hc).
    cbn [replace_loop all_matches_loop].
    destruct (sp >? zlen s) eqn:Eg.
    { rewrite slice_to_end by lia. reflexivity. }
    rewrite Z.gtb_ltb in Eg. apply Z.ltb_ge in Eg.
    destruct (ff s sp) as [[a b]|] eqn:Hf.
    2:{ rewrite slice_to_end by lia. reflexivity. }
    destruct (ff_bounds s sp a b ltac:(lia) Hf) as (B1 & B2 & B3).
    rewrite (slice_sub_str s lme a) by lia. cbn [rbind].
    rewrite (slice_to_end s sp) by lia.
    destruct (next_pos_eq s sp a b ltac:(lia) Hf) as (Hnp & Hn1 & Hn2 & Hn3). cbn zeta in Hnp, Hn1, Hn2, Hn3.
    rewrite (accept_eq s sp lme pe a b Hinv B1 B2).
    set (w := snd (decode_rune (zdrop sp s))) in *.
    set (sp_ra := if sp + w >? b then sp + w else if sp + 1 >? b then sp + 1 else b) in *.
    rewrite <- Hnp.
    assert (Hinv' : ra_inv s sp_ra b b) by (unfold ra_inv; repeat split; try lia; left; split; lia).
    destruct (negb ((b =? sp) && (a =? pe))) eqn:Eacc.
    - rewrite (slice_sub_str s a b) by lia. cbn [rbind fst snd]. fold w. fold sp_ra.
      rewrite (IH sp_ra b b (snd (f count (sub_str s a b))) Hinv' ltac:(lia)). cbn [rbind weave_st]. reflexivity.
    - cbn [rbind fst snd]. fold w. fold sp_ra.
      rewrite (IH sp_ra b b count Hinv' ltac:(lia)). cbn [rbind].
      (* rejected: the empty match at lastMatchEnd *)
      apply negb_false_iff, andb_true_iff in Eacc as [E3 E4]. apply Z.eqb_eq in E3. apply Z.eqb_eq in E4.
      assert (a = lme /\ b = lme) as [-> ->].
      { destruct Hc as [[Hpe _]|(Hs0 & _ & Hpe)]; lia. }
      rewrite sub_str_empty. cbn [app].
      destruct (weave_st s f (all_matches_loop ff fu s sp_ra lme) lme count); reflexivity.
  Qed.

  (* ReplaceAllStringFunc(src, f) = splice f over FindAllStringIndex(src, -1), calls in order *)
  Theorem replace_all_weave s f :
    replace_all ff s f = Ok (weave_st s f (all_matches_gen ff s) 0 0).
  Proof.
    unfold replace_all, all_matches_gen. apply replace_loop_weave.
    - unfold ra_inv. pose proof (zlen_nonneg s). repeat split; lia.
    - unfold zlen. lia.
  Qed.

  (* what the closure of functions.go sub does over a list of matches *)
  Lemma weave_id s g : (forall m, g m = m) -> forall ms last,
    0 <= last -> sorted_in last (zlen s) ms -> weave s g ms last = zdrop last s.
  Proof.
    intros Hg. induction ms as [|[a b] ms IH]; intros last H0 Hs; cbn [weave]; [reflexivity|].
    cbn [sorted_in] in Hs. destruct Hs as (H1 & H2 & H3 & Hs).
    rewrite Hg, IH by (try lia; exact Hs).
    rewrite (sub_str_app_drop s a b) by lia. apply sub_str_app_drop; lia.
  Qed.

  Lemma sub_closure_true repl c m : sub_closure true repl c m = (expand_repl repl m, c + 1).
  Proof. reflexivity. Qed.

  Lemma sub_closure_false_done repl c m : 0 < c -> sub_closure false repl c m = (m, c).
  Proof.
    intros H. unfold sub_closure. cbn [negb andb].
    destruct (c >? 0) eqn:E; [reflexivity|rewrite Z.gtb_ltb in E; apply Z.ltb_ge in E; lia].
  Qed.

  Lemma sub_closure_false_first repl m : sub_closure false repl 0 m = (expand_repl repl m, 1).
  Proof. reflexivity. Qed.

  Lemma weave_st_gsub s repl : forall ms last count,
    weave_st s (sub_closure true repl) ms last count =
    (weave s (expand_repl repl) ms last, count + zlen ms).
  Proof.
    induction ms as [|[a b] ms IH]; intros last count; cbn [weave_st weave].
    - rewrite zlen_nil, Z.add_0_r. reflexivity.
    - rewrite !sub_closure_true. cbn [fst snd]. rewrite IH. cbn [fst snd].
      rewrite zlen_cons. f_equal. lia.
  Qed.

  Lemma weave_st_sub_done s repl : forall ms last count,
    0 < count -> 0 <= last -> sorted_in last (zlen s) ms ->
    weave_st s (sub_closure false repl) ms last count = (zdrop last s, count).
  Proof.
    induction ms as [|[a b] ms IH]; intros last count Hc H0 Hs; cbn [weave_st]; [reflexivity|].
    cbn [sorted_in] in Hs. destruct Hs as (H1 & H2 & H3 & Hs).
    rewrite !sub_closure_false_done by lia.
    cbn [fst snd]. rewrite IH by (try lia; exact Hs). cbn [fst snd].
    rewrite (sub_str_app_drop s a b) by lia. rewrite sub_str_app_drop by lia. reflexivity.
  Qed.

  Lemma weave_st_sub s repl ms last :
    0 <= last -> sorted_in last (zlen s) ms ->
    weave_st s (sub_closure false repl) ms last 0 =
    (weave s (expand_repl repl) (firstn 1 ms) last, Z.min 1 (zlen ms)).
  Proof.
    intros H0 Hs. destruct ms as [|[a b] ms]; cbn [weave_st firstn weave]; [reflexivity|].
    cbn [sorted_in] in Hs. destruct Hs as (H1 & H2 & H3 & Hs).
    rewrite !sub_closure_false_first. cbn [fst snd].
    rewrite weave_st_sub_done by (try lia; exact Hs). cbn [fst snd].
    rewrite zlen_cons. pose proof (zlen_nonneg ms). f_equal. lia.
  Qed.

  (* gsub replaces every match that FindAllStringIndex reports and returns their number *)
  Theorem gsub_spec repl s :
    builtin_sub ff true repl s =
    Ok (weave s (expand_repl repl) (all_matches_gen ff s) 0, zlen (all_matches_gen ff s)).
  Proof.
    unfold builtin_sub. rewrite replace_all_weave, weave_st_gsub. reflexivity.
  Qed.

  (* sub performs exactly the first of gsub's replacements *)
  Theorem sub_is_first_of_gsub repl s :
    builtin_sub ff false repl s =
    Ok (weave s (expand_repl repl) (firstn 1 (all_matches_gen ff s)) 0,
        Z.min 1 (zlen (all_matches_gen ff s))).
  Proof.
    unfold builtin_sub. rewrite replace_all_weave, weave_st_sub; [reflexivity|lia|].
    apply all_matches_gen_sorted.
  Qed.

  (* gsub(r, "&", t) leaves t unchanged and returns the number of matches *)
  Theorem gsub_amp_identity s :
    builtin_sub ff true [38] s = Ok (s, zlen (all_matches_gen ff s)).
  Proof.
    rewrite gsub_spec, weave_id; [rewrite zdrop_0; reflexivity | intros m; apply app_nil_r | lia | apply all_matches_gen_sorted].
  Qed.
End EngineThms.

(* regexp.Split never slices out of range (given ordered matches inside the text) *)
Lemma re_split_loop_ok s : forall ms beg e,
  0 <= beg -> beg <= zlen s -> sorted_in beg (zlen s) ms -> exists l, re_split_loop s ms beg e = Ok l.
Proof.
  induction ms as [|[a b] ms IH]; intros beg e H0 H1 Hs; cbn [re_split_loop].
  - destruct (e =? zlen s); [eexists; reflexivity|]. rewrite slice_to_end by lia. eexists; reflexivity.
  - cbn [sorted_in] in Hs. destruct Hs as (Ha & Hab & Hb & Hs).
    destruct (b =? 0) eqn:E.
    + apply IH; try lia. exact Hs.
    + rewrite slice_ok by lia. cbn [rbind]. destruct (IH b a ltac:(lia) Hb Hs) as [l Hl].
      rewrite Hl. eexists; reflexivity.
Qed.

Theorem re_split_no_panic ff : engine_bounds ff -> forall e s, exists l, re_split ff e s = Ok l.
Proof.
  intros Hb e s. unfold re_split. destruct (e && is_nil s); [eexists; reflexivity|].
  apply re_split_loop_ok; [lia|apply zlen_nonneg|]. apply all_matches_gen_sorted. exact Hb.
Qed.

(* & is the matched text, \& a literal ampersand, \\ a backslash; every other byte, every
   other backslash pair and a trailing backslash stand for themselves *)
Theorem amp_expansion m r :
  expand_repl (38 :: r) m = m ++ expand_repl r m /\
  expand_repl (92 :: 38 :: r) m = 38 :: expand_repl r m /\
  expand_repl (92 :: 92 :: r) m = 92 :: expand_repl r m /\
  (forall c, c <> 38 -> c <> 92 -> expand_repl (c :: r) m = c :: expand_repl r m) /\
  (forall c, c <> 38 -> c <> 92 -> expand_repl (92 :: c :: r) m = 92 :: c :: expand_repl r m) /\
  expand_repl [92] m = [92] /\
  expand_repl [] m = [].
Proof.
  repeat split; try reflexivity.
  - intros c H1 H2. destruct c as [|p|p]; try reflexivity.
    repeat (destruct p as [p|p|]; try reflexivity); congruence.
  - intros c H1 H2. destruct c as [|p|p]; try reflexivity.
    repeat (destruct p as [p|p|]; try reflexivity); congruence.
Qed.

Lemma join_nil l : join [] l = concat l.
Proof.
  induction l as [|a l IH]; [reflexivity|]. destruct l as [|b l].
  - cbn [join concat]. rewrite app_nil_r. reflexivity.
  - change (join [] (a :: b :: l)) with (a ++ [] ++ join [] (b :: l)). rewrite IH. reflexivity.
Qed.

Lemma join_cons sep a l : l <> [] -> join sep (a :: l) = a ++ sep ++ join sep l.
Proof. destruct l; [congruence|reflexivity]. Qed.

Lemma split_walk_nonempty sep : forall s k cur, split_walk sep s k cur <> [].
Proof.
  induction s as [|c s IH]; intros k cur; cbn [split_walk]; [discriminate|].
  destruct k; [|apply IH]. destruct (is_prefix sep (c :: s)); [discriminate|apply IH].
Qed.

Lemma split_walk_skip sep : forall x r cur, split_walk sep (x ++ r) (length x) cur = split_walk sep r O cur.
Proof. induction x as [|c x IH]; intros r cur; [reflexivity|]. cbn [app length split_walk]. apply IH. Qed.

Lemma split_walk_join sep : sep <> [] -> forall n s cur,
  (length s <= n)%nat -> join sep (split_walk sep s O cur) = cur ++ s.
Proof.
  intros Hsep. induction n as [|n IH]; intros s cur Hl.
  - destruct s; [|cbn [length] in Hl; lia]. cbn [split_walk join]. rewrite app_nil_r. reflexivity.
  - destruct s as [|c s]; [cbn [split_walk join]; rewrite app_nil_r; reflexivity|].
    cbn [split_walk]. destruct (is_prefix sep (c :: s)) eqn:E.
    + apply is_prefix_app in E as [r Hr]. destruct sep as [|x0 sep']; [congruence|].
      cbn [app] in Hr. injection Hr as -> ->.
      replace (length (x0 :: sep') - 1)%nat with (length sep') by (cbn [length]; lia). rewrite split_walk_skip.
      rewrite join_cons by apply split_walk_nonempty.
      rewrite IH.
      * reflexivity.
      * cbn [length] in Hl. rewrite app_length in Hl. lia.
    + rewrite IH by (cbn [length] in Hl; lia). rewrite <- app_assoc. reflexivity.
Qed.

(* strings.Split followed by strings.Join with the same separator is the identity, for
   every separator (the empty one explodes into characters) *)
Theorem strings_split_join s sep : join sep (strings_split s sep) = s.
Proof.
  unfold strings_split. destruct sep as [|x sep]; cbn [is_nil].
  - rewrite join_nil. apply runes_concat.
  - rewrite (split_walk_join (x :: sep) ltac:(discriminate) (length s) s [] ltac:(lia)). reflexivity.
Qed.

(* single byte separator: the number of pieces is the number of occurrences + 1, and no
   piece contains the separator *)
Lemma split_single_count c : forall s cur,
  length (split_walk [c] s O cur) = S (count_occ Z.eq_dec s c).
Proof.
  induction s as [|x s IH]; intros cur; [reflexivity|].
  cbn [split_walk is_prefix length Nat.sub count_occ].
  destruct (Z.eqb_spec c x) as [->|Hne]; cbn [andb].
  - destruct (Z.eq_dec x x); [|congruence]. cbn [length]. rewrite IH. reflexivity.
  - destruct (Z.eq_dec x c); [congruence|]. apply IH.
Qed.

Lemma split_single_free c : forall s cur,
  ~ In c cur -> Forall (fun p => ~ In c p) (split_walk [c] s O cur).
Proof.
  induction s as [|x s IH]; intros cur Hc; cbn [split_walk is_prefix length Nat.sub].
  - constructor; [exact Hc|constructor].
  - destruct (Z.eqb_spec c x) as [->|Hne]; cbn [andb].
    + constructor; [exact Hc|]. apply IH. intros [].
    + apply IH. intros Hin. apply in_app_or in Hin as [Hin|[Hin|[]]]; [exact (Hc Hin)|congruence].
Qed.

(* keys "1" .. "n" *)
Fixpoint zseq (i : Z) (n : nat) : list Z :=
  match n with O => [] | S k => i :: zseq (i + 1) k end.

Lemma number_from_spec : forall ps i,
  map fst (number_from i ps) = zseq i (length ps) /\ map snd (number_from i ps) = ps /\
  zlen (number_from i ps) = zlen ps.
Proof.
  induction ps as [|p ps IH]; intros i; cbn [number_from map length zseq fst snd]; [repeat split|].
  destruct (IH (i + 1)) as (H1 & H2 & H3). rewrite H1, H2, !zlen_cons, H3. repeat split.
Qed.

(* split(s, a, sep), sep a single character (at most one, in fact) other than space, s not
   empty: the pieces joined by sep give back s; the array has exactly the keys 1..n and
   n is returned; this regime never consults the regex engine *)
Theorem split_join ff sep s :
  bytes_eqb sep [32] = false -> s <> [] -> rune_count sep <= 1 ->
  exists parts,
    builtin_split ff sep false s = Ok (zlen parts, number_from 1 parts) /\
    join sep parts = s /\
    map fst (number_from 1 parts) = zseq 1 (length parts) /\
    map snd (number_from 1 parts) = parts.
Proof.
  intros Hsp Hne Hrc. unfold builtin_split, split_parts. cbn [negb andb]. rewrite Hsp.
  destruct s as [|c s]; [congruence|]. cbn [is_nil].
  destruct (rune_count sep <=? 1) eqn:E; [|apply Z.leb_gt in E; lia].
  cbn [rbind]. exists (strings_split (c :: s) sep).
  destruct (number_from_spec (strings_split (c :: s) sep) 1) as (H1 & H2 & H3).
  rewrite H3. repeat split; [apply strings_split_join|exact H1|exact H2].
Qed.

(* a single BYTE separator: n = occurrences + 1 and no piece contains it *)
Theorem split_single_byte c s :
  let parts := strings_split s [c] in
  length parts = S (count_occ Z.eq_dec s c) /\ Forall (fun p => ~ In c p) parts.
Proof.
  cbn zeta. unfold strings_split. cbn [is_nil]. split; [apply split_single_count|].
  apply split_single_free. intros [].
Qed.
