(* C04 — the two printers produce writings that respect the table (fits), hence are read back. *)
From Verif Require Import Lib.Base Model.ExprAst Model.ExprParser Proofs.ExprParserMono Proofs.ExprParserRel
  Proofs.PrecSpec Proofs.ExprParserPrinted.
Local Open Scope nat_scope.

(* one-step unfoldings of pnode (its local operand function is [par]) *)
Lemma pnode_field f pe i : pnode f pe (EField i) = EField (par f pe 14 i).
Proof. reflexivity. Qed.
Lemma pnode_index f pe a idx : pnode f pe (EIndex a idx) = EIndex a (map (par f false 0) idx).
Proof. reflexivity. Qed.
Lemma pnode_ucall f pe n args : pnode f pe (EUserCall n args) = EUserCall n (map (par f false 0) args).
Proof. reflexivity. Qed.
Lemma pnode_in1 f pe x a : pnode f pe (EIn [x] a) = EIn [par f pe 5 x] a.
Proof. reflexivity. Qed.
Lemma pnode_in2 f pe x y es a :
  pnode f pe (EIn (x :: y :: es) a) = EIn (map (par f false 0) (x :: y :: es)) a.
Proof. reflexivity. Qed.
Lemma pnode_unary f pe op v : pnode f pe (EUnary op v) = EUnary op (par f pe 11 v).
Proof. reflexivity. Qed.
Lemma pnode_binary f pe op l r :
  pnode f pe (EBinary op l r) =
  EBinary op (par f pe (lreq op) l)
    (match r with
     | EStrRegex _ => if is_match op then r else par f pe (rreq op) r
     | _ => par f pe (rreq op) r
     end).
Proof. reflexivity. Qed.
(* a well-formed right operand is not the bare regex literal *)
Lemma pnode_binary_wf f pe op l r : wf r ->
  pnode f pe (EBinary op l r) = EBinary op (par f pe (lreq op) l) (par f pe (rreq op) r).
Proof. intros Hr. rewrite pnode_binary. destruct r; try reflexivity; contradiction. Qed.
Lemma pnode_cond f pe c t e : pnode f pe (ECond c t e) = ECond (par f pe 3 c) (par f pe 2 t) (par f pe 2 e).
Proof. reflexivity. Qed.
Lemma pnode_assign f pe l r : pnode f pe (EAssign l r) = EAssign (pnode f pe l) (par f pe 1 r).
Proof. reflexivity. Qed.
Lemma pnode_augassign f pe op l r : pnode f pe (EAugAssign op l r) = EAugAssign op (pnode f pe l) (par f pe 1 r).
Proof. reflexivity. Qed.
Lemma pnode_incr f pe op pre x : pnode f pe (EIncr op pre x) = EIncr op pre (pnode f pe x).
Proof. reflexivity. Qed.

(* parser rank of the position that a table requirement stands for *)
Definition pos (req : nat) : nat :=
  match req with
  | 0 | 1 => 0 | 2 => 2 | 3 => 3 | 4 => 4 | 5 => 5 | 6 => 6 | 7 => 7 | 8 => 8 | 9 => 9 | 10 => 10
  | 11 => 11 | 12 => 11 | 13 => 12 | _ => 13
  end.

(* the largest continuation rank of a token that may follow an operand printed for requirement req *)
Definition thr (req : nat) : nat :=
  match req with
  | 0 | 1 | 2 => 0 | 3 => 4 | 4 => 5 | 5 => 6 | 6 => 7 | 7 => 8 | 8 => 9 | 9 => 10 | 10 => 11
  | 11 => 11 | 12 => 11 | 13 => 12 | 14 => 12 | _ => 13
  end.

Lemma mono_of_step (f : nat -> nat) : (forall a, f a <= f (S a)) -> forall a b, a <= b -> f a <= f b.
Proof. intros Hs a b H. induction H as [|b _ IH]; [lia | specialize (Hs b); lia]. Qed.

Lemma thr_mono a b : a <= b -> thr a <= thr b.
Proof. apply mono_of_step. clear. intros a. do 15 (destruct a as [|a]; [cbn; lia|]). cbn. lia. Qed.

Lemma thr_le13 a : thr a <= 13.
Proof. do 16 (destruct a as [|a]; [cbn; lia|]). cbn. lia. Qed.

(* the rank below which a token may follow a binary node is the one the table gives its level *)
Lemma okn_binop pc op l r ct cf :
  okn pc (EBinary op l r) ct cf = ((if pc then ct else cf) <=? thr (fst (table op))) && okn pc r ct cf.
Proof. destruct op; reflexivity. Qed.

Lemma wf_binary_r op l r : wf (EBinary op l r) ->
  wf l /\ ((exists s, r = EStrRegex s /\ is_match op = true) \/ wf r).
Proof. cbn [wf]. intros (Hl & [H | (Hr & _)]); auto. Qed.

(* a token may follow an operand printed for req when its continuation rank IN THE TOWER THE OPERAND
   IS READ IN is at most thr req, and its rank in the plain tower is at most max (thr req) 11:
   the plain tower is re-entered only below a unary operator, $ or ++/--, whose operands are read at
   the ^ level or above (so, inside print, > and | may follow any argument) *)
Definition OkPar (e : expr) : Prop :=
  wf e -> forall (fl pc pe : bool) (req ct cf : nat),
  (if pc then ct else cf) <= thr req -> cf <= Nat.max (thr req) 11 ->
  okn pc (par fl pe req e) ct cf = true.

(* the same for the operand written without parentheses, which its level allows *)
Definition OkNode (e : expr) : Prop :=
  wf e -> forall (fl pc pe : bool) (req ct cf : nat), req <= tlevel e ->
  (if pc then ct else cf) <= thr req -> cf <= Nat.max (thr req) 11 ->
  okn pc (pnode fl pe e) ct cf = true.

Lemma okn_par_node e : OkNode e -> OkPar e.
Proof.
  intros HN Hwf fl pc pe req ct cf Hcp Hcf. unfold par.
  destruct (fl || (tlevel e <? req) || (pe && is_gt e)) eqn:Hg; [reflexivity|].
  apply orb_false_elim in Hg as [Hg _]. apply orb_false_elim in Hg as [_ Hlv]. apply Nat.ltb_ge in Hlv.
  exact (HN Hwf fl pc pe req ct cf Hlv Hcp Hcf).
Qed.

Lemma okn_pnode : forall e, OkNode e /\ match e with EField i => OkNode i | _ => True end.
Proof.
  induction e using expr_ind'; (split; [|try exact I; try (apply IHe)]);
    intros Hwf fl pc pe req ct cf Hlv Hcp Hcf; cbn [tlevel] in Hlv; pose proof (thr_mono _ _ Hlv) as Hm;
    try reflexivity; try contradiction.
  - (* $i *)
    rewrite pnode_field. cbn [okn]. cbn [thr] in Hm.
    rewrite (proj2 (Nat.leb_le _ _)) by lia. apply okn_par_node; [apply IHe | exact Hwf | cbn; lia | cbn; lia].
  - (* variable *)
    cbn [pnode okn]. apply Nat.leb_le. pose proof (thr_le13 req). exact (Nat.le_trans _ _ _ Hcp H).
  - (* in *)
    destruct idx as [|x [|y r]]; reflexivity.
  - (* unary *)
    rewrite pnode_unary. cbn [okn]. cbn [thr] in Hm.
    rewrite (proj2 (Nat.leb_le _ _)) by lia. apply okn_par_node; [apply IHe | exact Hwf | cbn; lia | cbn; lia].
  - (* binary *)
    apply wf_binary_r in Hwf as (Hwl & [(s & -> & Hmt) | Hwr]).
    + rewrite pnode_binary, Hmt, okn_binop. cbn [okn]. rewrite andb_true_r. apply Nat.leb_le. lia.
    + assert (Hthr : thr (fst (table op)) <= thr (rreq op))
        by (apply thr_mono; unfold rreq; destruct op; cbn; lia).
      assert (Hp : okn pc (par fl pe (rreq op) e2) ct cf = true)
        by (apply okn_par_node; [apply IHe2 | exact Hwr | lia | lia]).
      rewrite (pnode_binary_wf _ _ _ _ _ Hwr), okn_binop, Hp, andb_true_r. apply Nat.leb_le. lia.
  - (* ?: *)
    rewrite pnode_cond. cbn [okn]. cbn [thr] in Hm. destruct Hwf as (_ & _ & Hwf3).
    rewrite (proj2 (Nat.leb_le _ _)) by lia. apply okn_par_node; [apply IHe3 | exact Hwf3 | cbn; lia | cbn; lia].
  - (* = *)
    rewrite pnode_assign. cbn [okn]. cbn [thr] in Hm. destruct Hwf as (_ & _ & Hwr).
    rewrite (proj2 (Nat.leb_le _ _)) by lia. apply okn_par_node; [apply IHe2 | exact Hwr | cbn; lia | cbn; lia].
  - (* op= *)
    rewrite pnode_augassign. cbn [okn]. cbn [thr] in Hm. destruct Hwf as (_ & _ & _ & Hwr).
    rewrite (proj2 (Nat.leb_le _ _)) by lia. apply okn_par_node; [apply IHe2 | exact Hwr | cbn; lia | cbn; lia].
  - (* ++ -- *)
    rewrite pnode_incr. destruct pre; [|reflexivity]. cbn [okn]. cbn [thr] in Hm.
    destruct Hwf as (Hlval & Hwx & _). destruct IHe as [_ IHi].
    destruct e; try discriminate.
    + (* ++$i *) rewrite pnode_field. cbn [okn].
      rewrite (proj2 (Nat.leb_le _ _)) by lia. apply okn_par_node; [exact IHi | exact Hwx | cbn; lia | cbn; lia].
    + cbn [pnode okn]. apply Nat.leb_le. pose proof (thr_le13 req). lia.
    + reflexivity.
Qed.

Lemma okn_par e : OkPar e.
Proof. apply okn_par_node, okn_pnode. Qed.

Lemma pos_mono a b : a <= b -> pos a <= pos b.
Proof. apply mono_of_step. clear. intros a. do 14 (destruct a as [|a]; [cbn; lia|]). cbn. lia. Qed.

Lemma level_pos c : wf c -> pos (tlevel c) <= nat_rk c.
Proof.
  intros Hwf. destruct c; cbn; try lia; try contradiction.
  - destruct idx as [|x [|y r]]; cbn; lia.
  - destruct op; cbn; lia.
  - destruct pre; [lia|]. destruct c; cbn; lia.
Qed.

Lemma nat_rk_pnode fl pe e : wf e -> nat_rk (pnode fl pe e) = nat_rk e.
Proof.
  intros Hwf. destruct e; try reflexivity; try contradiction.
  - destruct idx as [|x [|y r]]; reflexivity.
  - rewrite pnode_incr. cbn [nat_rk]. destruct pre; [reflexivity|].
    destruct Hwf as (Hlv & _). destruct e; try discriminate; reflexivity.
Qed.

(* the ranks at which fits reads the operands of a binary operator are the positions of the table's
   requirements; the token that follows the left operand is the operator *)
Lemma fits_binop pc k op l r : op <> BConcat ->
  fits pc k (EBinary op l r) <->
  k <= nat_rk (EBinary op l r) /\ (pc = true -> op <> BGt) /\
  fits pc (pos (lreq op)) l /\ ok pc l (hd_tok (binop_tok op)) = true /\
  (if is_match op then match r with EStrRegex _ => True | _ => fits pc 7 r /\ not_regex_start r end
   else fits pc (pos (rreq op)) r).
Proof.
  intros Hc. destruct op; try congruence; cbn [fits nat_rk is_match]; unfold ok; cbn; intuition congruence.
Qed.

Lemma binop_tok_cont op : op <> BConcat -> tok_cont false (hd_tok (binop_tok op)) <= thr (lreq op).
Proof. intros Hc. destruct op; try congruence; cbn; lia. Qed.

Lemma rreq_match op : is_match op = true -> rreq op = 7.
Proof. destruct op; try discriminate; reflexivity. Qed.

Definition FitsNode (e : expr) : Prop :=
  wf e -> forall fl pc pe, (pc = true -> pe = true) -> (pc = true -> is_gt e = false) ->
  fits pc (nat_rk e) (pnode fl pe e).

Lemma fits_par c : FitsNode c -> wf c -> forall fl pc pe req, (pc = true -> pe = true) ->
  fits pc (pos req) (par fl pe req c).
Proof.
  intros HN Hwf fl pc pe req Hp. unfold par.
  destruct (fl || (tlevel c <? req) || (pe && is_gt c)) eqn:Hg.
  - cbn [fits]. eapply fits_mono; [apply HN; [exact Hwf | discriminate | discriminate] | lia].
  - apply orb_false_elim in Hg as [Hg Hgt]. apply orb_false_elim in Hg as [_ Hlv].
    apply Nat.ltb_ge in Hlv.
    eapply fits_mono; [apply HN; [exact Hwf | exact Hp |] |].
    + intros ->. rewrite (Hp eq_refl) in Hgt. exact Hgt.
    + pose proof (pos_mono _ _ Hlv). pose proof (level_pos _ Hwf). lia.
Qed.

Lemma fits_lvalue l : FitsNode l -> wf l -> is_lvalue l = true -> forall fl pc pe, (pc = true -> pe = true) ->
  fits pc 1 (pnode fl pe l).
Proof.
  intros HN Hwl Hlv fl pc pe Hp. eapply fits_mono; [apply HN; [exact Hwl | exact Hp |]|].
  - intros _. destruct l; try discriminate; reflexivity.
  - destruct l; try discriminate; cbn; lia.
Qed.

Lemma all_fit_map fl pc pe es : (pc = true -> pe = true) -> Forall FitsNode es -> all_wf wf es ->
  all_fit (fits pc 0) (map (par fl pe 0) es).
Proof.
  intros Hp. induction es as [|x es IH]; intros HF Hw; [exact I|].
  inversion HF; subst. destruct Hw as [Hwx Hws]. cbn [map all_fit]. split; [|apply IH; assumption].
  apply (fits_par x H1 Hwx fl pc pe 0 Hp).
Qed.

Lemma ok_par_pc pc fl pe req e t : wf e ->
  tok_cont pc t <= thr req -> tok_cont false t <= Nat.max (thr req) 11 -> ok pc (par fl pe req e) t = true.
Proof.
  intros Hwf Hp Hc. unfold ok. apply okn_par; [exact Hwf | destruct pc; exact Hp | exact Hc].
Qed.

Lemma ok_par pc fl pe req e t : wf e ->
  tok_cont false t <= thr req -> ok pc (par fl pe req e) t = true.
Proof.
  intros Hwf Hc. apply ok_par_pc; [exact Hwf | | lia].
  pose proof (tok_cont_true_le t). destruct pc; lia.
Qed.

Lemma ok_lvalue pc fl pe l t : wf l -> is_lvalue l = true ->
  tok_cont false t <= 12 -> ok pc (pnode fl pe l) t = true.
Proof.
  intros Hwf Hlv Hc. pose proof (tok_cont_true_le t) as Ht. unfold ok.
  destruct l; try discriminate.
  - rewrite pnode_field. cbn [okn]. rewrite (proj2 (Nat.leb_le _ _)) by lia.
    apply okn_par; [exact Hwf | cbn; lia | cbn; lia].
  - cbn [pnode okn]. apply Nat.leb_le. destruct pc; lia.
  - reflexivity.
Qed.

Lemma is_lvalue_pnode fl pe l : is_lvalue l = true -> is_lvalue (pnode fl pe l) = true.
Proof. destruct l; try discriminate; reflexivity. Qed.

Lemma ok_field_incr fl pe i : wf i -> (match i with EField _ => False | _ => True end) ->
  ok false (par fl pe 14 i) TIncr = true.
Proof.
  intros Hwf Hn. unfold par.
  destruct (fl || (tlevel i <? 14) || (pe && is_gt i)) eqn:Hg; [reflexivity|].
  apply orb_false_elim in Hg as [Hg _]. apply orb_false_elim in Hg as [_ Hlv].
  apply Nat.ltb_ge in Hlv.
  destruct i; cbn [tlevel] in Hlv; try lia; try contradiction; try reflexivity.
  - destruct idx as [|x [|y r]]; cbn in Hlv; try lia; reflexivity.
  - destruct op; cbn in Hlv; lia.
Qed.

Lemma first_tok_group e : first_tok (EGroup e) = TLParen true.
Proof. reflexivity. Qed.

Lemma par_full c pe req : par true pe req c = EGroup (pnode true false c).
Proof. reflexivity. Qed.

Theorem fits_pnode : forall e, FitsNode e.
Proof.
  induction e using expr_ind'; intros Hwf fl pc pe Hp Hgt; try exact I; try contradiction.
  - (* $ *) rewrite pnode_field. cbn [fits]. apply (fits_par e IHe Hwf fl false pe 14). discriminate.
  - (* a[..] *) rewrite pnode_index. destruct Hwf as [Hne Hw]. cbn [fits]. split.
    + destruct idx; [congruence | discriminate].
    + apply all_fit_map; try assumption; discriminate.
  - (* in *)
    destruct idx as [|x [|y r]]; [contradiction| |].
    + rewrite pnode_in1. inversion H; subst. cbn [wf] in Hwf. cbn [fits nat_rk]. repeat split; [lia | |].
      * apply (fits_par x H2 Hwf fl pc pe 5 Hp).
      * apply ok_par; [exact Hwf | cbn; lia].
    + rewrite pnode_in2. cbn [fits]. apply all_fit_map; try assumption; discriminate.
  - (* unary *) rewrite pnode_unary. cbn [fits]. apply (fits_par e IHe Hwf fl false pe 11). discriminate.
  - (* binary *)
    cbn [wf] in Hwf. destruct Hwf as (Hwl & Hwr).
    pose proof (fun req => fits_par e1 IHe1 Hwl fl pc pe req Hp) as FL.
    assert (OL : forall t, tok_cont false t <= thr (lreq op) -> ok pc (par fl pe (lreq op) e1) t = true)
      by (intros t Ht; apply ok_par; assumption).
    assert (Hgt' : pc = true -> op <> BGt) by (intros Hpc ->; specialize (Hgt Hpc); discriminate).
    destruct Hwr as [(s & -> & Hm) | (Hwr & Hre & Hcs)].
    + (* e ~ /re/ *)
      rewrite pnode_binary, Hm. apply fits_binop; [intros ->; discriminate|]. rewrite Hm.
      refine (conj (le_n _) (conj Hgt' (conj (FL _) (conj _ I)))).
      apply OL, binop_tok_cont. intros ->; discriminate.
    + pose proof (fun req => fits_par e2 IHe2 Hwr fl pc pe req Hp) as FR.
      rewrite (pnode_binary_wf _ _ _ _ _ Hwr).
      assert (Hdec : {op = BConcat} + {op <> BConcat}) by (destruct op; (left; reflexivity) || (right; discriminate)).
      destruct Hdec as [-> | Hnc].
      * (* the right operand of a concatenation starts with a token that cannot continue the left one *)
        assert (HC : concat_start (first_tok (par fl pe 9 e2)) = true /\
                     tok_cont false (first_tok (par fl pe 9 e2)) <= 9)
          by (destruct fl; [rewrite par_full; cbn; split; [reflexivity | lia] | apply Hcs; reflexivity]).
        destruct HC as [Hs9 H9]. change (rreq BConcat) with 9. change (lreq BConcat) with 8.
        refine (conj (le_n _) (conj (FL 8) (conj (FR 9) (conj Hs9 (conj _ _))))).
        -- pose proof (tok_cont_true_le (first_tok (par fl pe 9 e2))). destruct pc; lia.
        -- apply OL. exact H9.
      * apply fits_binop; [exact Hnc|].
        refine (conj (le_n _) (conj Hgt' (conj (FL _) (conj (OL _ (binop_tok_cont _ Hnc)) _)))).
        destruct (is_match op) eqn:Hm; [|apply FR].
        (* e ~ (expression): the printed operand is not a bare regex literal *)
        rewrite (rreq_match _ Hm).
        assert (HH : fits pc 7 (par fl pe 7 e2) /\ not_regex_start (par fl pe 7 e2)).
        { split; [apply (FR 7)|]. destruct fl; [rewrite par_full; exact I | apply Hre; reflexivity]. }
        destruct (par fl pe 7 e2); try exact HH; exact I.
  - (* ?: *)
    rewrite pnode_cond. destruct Hwf as (Hwc & Hwt & Hwf'). cbn [fits nat_rk]. repeat split; [lia | | | |].
    + apply (fits_par e1 IHe1 Hwc fl pc pe 3 Hp).
    + apply ok_par; [exact Hwc | cbn; lia].
    + eapply fits_mono; [apply (fits_par e2 IHe2 Hwt fl pc pe 2 Hp) | cbn; lia].
    + eapply fits_mono; [apply (fits_par e3 IHe3 Hwf' fl pc pe 2 Hp) | cbn; lia].
  - (* = *)
    rewrite pnode_assign. destruct Hwf as (Hlv & Hwl & Hwr). cbn [fits nat_rk]. repeat split.
    + apply is_lvalue_pnode; exact Hlv.
    + apply fits_lvalue; assumption.
    + apply ok_lvalue; [exact Hwl | exact Hlv | cbn; lia].
    + apply (fits_par e2 IHe2 Hwr fl pc pe 1 Hp).
  - (* op= *)
    rewrite pnode_augassign. destruct Hwf as (Hop & Hlv & Hwl & Hwr). cbn [fits nat_rk]. repeat split.
    + apply is_lvalue_pnode; exact Hlv.
    + apply fits_lvalue; assumption.
    + apply ok_lvalue; [exact Hwl | exact Hlv | cbn; lia].
    + apply (fits_par e2 IHe2 Hwr fl pc pe 1 Hp).
    + destruct op; try contradiction; reflexivity.
  - (* ++ -- *)
    rewrite pnode_incr. destruct Hwf as (Hlv & Hwx & Hpost).
    destruct e; try discriminate.
    + (* $i *)
      rewrite pnode_field. cbn [wf] in Hwx.
      assert (Fi : fits false 13 (par fl pe 14 e)).
      { specialize (IHe Hwx fl false pe). rewrite pnode_field in IHe. cbn [fits] in IHe.
        apply IHe; discriminate. }
      destruct pre; cbn [fits]; [exact Fi|]. split; [exact Fi|].
      apply ok_field_incr; [exact Hwx|]. specialize (Hpost eq_refl). destruct e; try exact I; contradiction.
    + destruct pre; cbn [pnode fits nat_rk]; [exact I | lia].
    + assert (Fx : fits false 13 (pnode fl pe (EIndex arr idx)))
        by (eapply fits_mono; [apply IHe; [exact Hwx | discriminate | discriminate] | cbn; lia]).
      destruct pre; cbn [fits nat_rk]; rewrite pnode_index in *; [exact Fx | split; [lia | exact Fx]].
  - (* f(...) *)
    rewrite pnode_ucall. cbn [fits]. apply all_fit_map; try assumption; discriminate.
Qed.

Lemma strip_pnode : forall e, wf e -> forall fl pe, strip (pnode fl pe e) = e.
Proof.
  assert (SP : forall c, (forall fl pe, strip (pnode fl pe c) = c) -> forall fl pe req, strip (par fl pe req c) = c).
  { intros c H fl pe req. unfold par. destruct (fl || _ || _); cbn [strip]; apply H. }
  assert (SM : forall fl es, Forall (fun c => wf c -> forall fl pe, strip (pnode fl pe c) = c) es ->
               all_wf wf es -> map strip (map (par fl false 0) es) = es).
  { intros fl es. induction es as [|x es IH]; intros HF Hw; [reflexivity|].
    inversion HF; subst. destruct Hw as [Hx Hs]. cbn [map]. f_equal; [apply SP; auto | apply IH; assumption]. }
  induction e using expr_ind'; intros Hwf fl pe; try reflexivity; try contradiction.
  - rewrite pnode_field. cbn [strip]. f_equal. apply SP. auto.
  - rewrite pnode_index. cbn [strip]. f_equal. apply SM; [assumption | apply Hwf].
  - destruct idx as [|x [|y r]]; [contradiction| |].
    + rewrite pnode_in1. inversion H; subst. cbn [strip map]. f_equal. f_equal. apply SP. auto.
    + rewrite pnode_in2. cbn [strip]. f_equal. apply SM; assumption.
  - rewrite pnode_unary. cbn [strip]. f_equal. apply SP. auto.
  - cbn [wf] in Hwf. destruct Hwf as (Hwl & [(s & -> & Hm) | (Hwr & _)]).
    + rewrite pnode_binary, Hm. cbn [strip]. f_equal. apply SP. auto.
    + rewrite (pnode_binary_wf _ _ _ _ _ Hwr). cbn [strip]. f_equal; apply SP; auto.
  - rewrite pnode_cond. destruct Hwf as (H1 & H2 & H3). cbn [strip]. f_equal; apply SP; auto.
  - rewrite pnode_assign. destruct Hwf as (_ & H1 & H2). cbn [strip]. f_equal; [auto | apply SP; auto].
  - rewrite pnode_augassign. destruct Hwf as (_ & _ & H1 & H2). cbn [strip]. f_equal; [auto | apply SP; auto].
  - rewrite pnode_incr. destruct Hwf as (_ & H1 & _). cbn [strip]. f_equal. auto.
  - rewrite pnode_ucall. cbn [strip]. f_equal. apply SM; assumption.
Qed.

Lemma strip_par e fl pe req : wf e -> strip (par fl pe req e) = e.
Proof. intros H. unfold par. destruct (fl || _ || _); cbn [strip]; apply strip_pnode; exact H. Qed.

(* an operand printed for requirement req, at a position of rank pos req, followed by a token that
   may follow it, is read back exactly *)
Theorem parse_par : forall e fl pc req k rest,
  wf e -> rk k = pos req -> (pc = true -> k <> LGetline) ->
  tok_cont false (hd_tok rest) <= thr req -> tok_cont pc (hd_tok rest) <= rk k ->
  exists n0, forall n, n0 <= n ->
    p_lv n k pc None (flat (par fl pc req e) ++ rest) = POk (par fl pc req e, rest).
Proof.
  intros e fl pc req k rest Hwf Hk Hpc Hthr Hc.
  apply parse_printed; try assumption.
  - rewrite Hk. apply fits_par; [apply fits_pnode | exact Hwf | auto].
  - apply ok_par; assumption.
Qed.

(* pp_min and pp_full, whole expression, any depth: both are read back as the same tree, which is e
   once the grouping nodes are removed.  rest = what follows the expression: a token that no level
   consumes (end of input, ")", "]", ",", ";", "}", newline, ":" ...). *)
Theorem pp_min_full_parse : forall e pe rest,
  wf e -> tok_cont false (hd_tok rest) = 0 ->
  exists n0, forall n, n0 <= n ->
    exists e1 e2,
      p_lv n LExpr pe None (pp_min pe e ++ rest) = POk (e1, rest) /\
      p_lv n LExpr pe None (pp_full pe e ++ rest) = POk (e2, rest) /\
      strip e1 = e /\ strip e2 = e.
Proof.
  intros e pe rest Hwf Hz.
  assert (Hz' : tok_cont pe (hd_tok rest) = 0) by (pose proof (tok_cont_true_le (hd_tok rest)); destruct pe; lia).
  destruct (parse_par e false pe 0 LExpr rest Hwf eq_refl ltac:(congruence) ltac:(cbn; lia) ltac:(cbn; lia)) as [n1 H1].
  set (e2 := if pe && is_gt e then EGroup (pnode true false e) else pnode true pe e).
  assert (H2 : exists n2, forall n, n2 <= n -> p_lv n LExpr pe None (flat e2 ++ rest) = POk (e2, rest)).
  { apply parse_printed; try congruence; try (cbn; lia).
    - subst e2. destruct (pe && is_gt e) eqn:Hg.
      + cbn [fits]. eapply fits_mono; [apply fits_pnode; [exact Hwf | discriminate | discriminate] | lia].
      + eapply fits_mono; [apply fits_pnode; [exact Hwf | auto |] | cbn; lia].
        intros ->. exact Hg.
    - apply ok_zero. exact Hz. }
  destruct H2 as [n2 H2].
  exists (Nat.max n1 n2). intros n Hn.
  exists (par false pe 0 e), e2. repeat split.
  - apply H1. lia.
  - apply H2. lia.
  - apply strip_par. exact Hwf.
  - subst e2. destruct (pe && is_gt e); cbn [strip]; apply strip_pnode; exact Hwf.
Qed.
