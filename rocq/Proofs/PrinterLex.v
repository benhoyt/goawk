(* C20 — rendering a piece list and lexing it again (the lexer.scan model of Model/Printer.v): if every
   token of ps is [lexable] (a literal whose text the lexer reads back as that token: a name that is no
   keyword, a number text the NUMBER scanner consumes entirely, a string the quoting round-trips, a regex
   in the lexer's image) and the byte after it does not extend or change it ([nofuse]: + before + or =,
   a name before a name byte ...), then the rendered text lexes back to [toks ps].  The quoting round trip
   is a Section hypothesis here; it is proved in PrinterQuote.v. *)
From Coq Require Import ZifyBool.
From Verif Require Import Lib.Base Model.ExprAst Model.ExprParser Model.Printer Proofs.PrinterRegex.

Lemma span_app (p : Z -> bool) l rest :
  p (ch rest) = false ->
  span p (l ++ rest) = let '(a, b) := span p l in (a, b ++ rest).
Proof.
  intros Hp. induction l as [|x l IH]; cbn [app span].
  - destruct rest as [|y rest']; [reflexivity|]. cbn [ch] in Hp. cbn [span]. rewrite Hp. reflexivity.
  - destruct (p x); [|reflexivity]. rewrite IH. destruct (span p l). reflexivity.
Qed.

Lemma span_all (p : Z -> bool) l : forallb p l = true -> span p l = (l, []).
Proof.
  induction l as [|x l IH]; cbn [forallb span]; [reflexivity|]. intros H. apply andb_prop in H as [Hx Hl].
  rewrite Hx, (IH Hl). reflexivity.
Qed.

Lemma span_all_app (p : Z -> bool) l rest :
  forallb p l = true -> p (ch rest) = false -> span p (l ++ rest) = (l, rest).
Proof. intros Hl Hp. rewrite (span_app p l rest Hp), (span_all p l Hl). reflexivity. Qed.

Lemma skip_ws_spaces k bs sp : skip_ws (repeat 32 k ++ bs) sp = skip_ws bs (sp || (0 <? Z.of_nat k)).
Proof.
  revert sp. induction k as [|k IH]; intros sp.
  - cbn [repeat app]. rewrite orb_false_r. reflexivity.
  - cbn [repeat app skip_ws]. change ((32 =? 32) || (32 =? 9) || (32 =? 13)) with true. cbn iota.
    rewrite IH. f_equal. destruct sp; cbn [orb]; [reflexivity|]. destruct (0 <? Z.of_nat k); lia.
Qed.

Definition not_ws (c : Z) : bool := negb ((c =? 32) || (c =? 9) || (c =? 13)).

Lemma skip_ws_stop c r sp : not_ws c = true -> skip_ws (c :: r) sp = (c :: r, sp).
Proof. unfold not_ws. intros H. apply negb_true_iff in H. cbn [skip_ws]. rewrite H. reflexivity. Qed.

Lemma scan1_spaces k c r : not_ws c = true ->
  scan1 (repeat 32 k ++ c :: r) = scan_body (c :: r) (0 <? Z.of_nat k).
Proof. intros H. unfold scan1. rewrite skip_ws_spaces, (skip_ws_stop c r _ H). reflexivity. Qed.

Lemma scan1_spaces_nil k : scan1 (repeat 32 k ++ []) = SEof.
Proof. unfold scan1. rewrite skip_ws_spaces. reflexivity. Qed.

(* scan_body by first character *)
Lemma scan_dollar r sp : scan_body (36 :: r) sp = STok TDollar sp r. Proof. reflexivity. Qed.
Lemma scan_at r sp : scan_body (64 :: r) sp = STok TAt sp r. Proof. reflexivity. Qed.
Lemma scan_lbrace r sp : scan_body (123 :: r) sp = STok TLBrace sp r. Proof. reflexivity. Qed.
Lemma scan_rbrace r sp : scan_body (125 :: r) sp = STok TRBrace sp r. Proof. reflexivity. Qed.
Lemma scan_lparen r sp : scan_body (40 :: r) sp = STok (TLParen sp) sp r. Proof. reflexivity. Qed.
Lemma scan_rparen r sp : scan_body (41 :: r) sp = STok TRParen sp r. Proof. reflexivity. Qed.
Lemma scan_comma r sp : scan_body (44 :: r) sp = STok TComma sp r. Proof. reflexivity. Qed.
Lemma scan_semi r sp : scan_body (59 :: r) sp = STok TSemicolon sp r. Proof. reflexivity. Qed.
Lemma scan_lbracket r sp : scan_body (91 :: r) sp = STok TLBracket sp r. Proof. reflexivity. Qed.
Lemma scan_rbracket r sp : scan_body (93 :: r) sp = STok TRBracket sp r. Proof. reflexivity. Qed.
Lemma scan_newline r sp : scan_body (10 :: r) sp = STok TNewline sp r. Proof. reflexivity. Qed.
Lemma scan_tilde r sp : scan_body (126 :: r) sp = STok TMatch sp r. Proof. reflexivity. Qed.
Lemma scan_question r sp : scan_body (63 :: r) sp = STok TQuestion sp r. Proof. reflexivity. Qed.
Lemma scan_colon r sp : scan_body (58 :: r) sp = STok TColon sp r. Proof. reflexivity. Qed.
Lemma scan_eq r sp : scan_body (61 :: r) sp = if ch r =? 61 then STok TEquals sp (nxt r) else STok TAssign sp r.
Proof. reflexivity. Qed.
Lemma scan_lt r sp : scan_body (60 :: r) sp = if ch r =? 61 then STok TLte sp (nxt r) else STok TLess sp r.
Proof. reflexivity. Qed.
Lemma scan_gt r sp : scan_body (62 :: r) sp =
  if ch r =? 61 then STok TGte sp (nxt r) else if ch r =? 62 then STok TAppend sp (nxt r) else STok TGreater sp r.
Proof. reflexivity. Qed.
Lemma scan_plus r sp : scan_body (43 :: r) sp =
  if ch r =? 43 then STok TIncr sp (nxt r) else if ch r =? 61 then STok TAddAssign sp (nxt r) else STok TAdd sp r.
Proof. reflexivity. Qed.
Lemma scan_minus r sp : scan_body (45 :: r) sp =
  if ch r =? 45 then STok TDecr sp (nxt r) else if ch r =? 61 then STok TSubAssign sp (nxt r) else STok TSub sp r.
Proof. reflexivity. Qed.
Lemma scan_star r sp : scan_body (42 :: r) sp =
  if ch r =? 42 then (if ch (nxt r) =? 61 then STok TPowAssign sp (nxt (nxt r)) else STok TPow sp (nxt r))
  else if ch r =? 61 then STok TMulAssign sp (nxt r) else STok TMul sp r.
Proof. reflexivity. Qed.
Lemma scan_slash r sp : scan_body (47 :: r) sp = if ch r =? 61 then STok TDivAssign sp (nxt r) else STok TDiv sp r.
Proof. reflexivity. Qed.
Lemma scan_percent r sp : scan_body (37 :: r) sp = if ch r =? 61 then STok TModAssign sp (nxt r) else STok TMod sp r.
Proof. reflexivity. Qed.
Lemma scan_caret r sp : scan_body (94 :: r) sp = if ch r =? 61 then STok TPowAssign sp (nxt r) else STok TPow sp r.
Proof. reflexivity. Qed.
Lemma scan_bang r sp : scan_body (33 :: r) sp =
  if ch r =? 61 then STok TNotEquals sp (nxt r) else if ch r =? 126 then STok TNotMatch sp (nxt r) else STok TNot sp r.
Proof. reflexivity. Qed.
Lemma scan_amp r sp : scan_body (38 :: r) sp = if ch r =? 38 then STok TAnd sp (nxt r) else SIllegal.
Proof. reflexivity. Qed.
Lemma scan_bar r sp : scan_body (124 :: r) sp = if ch r =? 124 then STok TOr sp (nxt r) else STok TPipe sp r.
Proof. reflexivity. Qed.

#[global] Hint Rewrite scan_eq scan_lt scan_gt scan_plus scan_minus scan_star scan_slash scan_percent scan_caret
  scan_bang scan_bar : scan_op.

Lemma name_start_tests c : is_name_start c = true ->
  (c =? 0) = false /\ ((c =? 92) || (c =? 35)) = false.
Proof. unfold is_name_start. lia. Qed.

Lemma scan_name c r sp : is_name_start c = true ->
  scan_body (c :: r) sp =
  let '(more, rest) := span is_name_char r in
  match keyword_token (c :: more) with Some t => STok t sp rest | None => STok (TName (c :: more)) sp rest end.
Proof.
  intros H. destruct (name_start_tests c H) as [H0 H1]. unfold scan_body. rewrite H0, H1, H. reflexivity.
Qed.

Definition num_start (c : Z) : bool := is_digit c || (c =? 46).

Lemma num_start_tests c : num_start c = true ->
  (c =? 0) = false /\ ((c =? 92) || (c =? 35)) = false /\ is_name_start c = false.
Proof. unfold num_start, is_digit, is_name_start. lia. Qed.

Lemma scan_num c r sp : num_start c = true ->
  scan_body (c :: r) sp =
  match scan_number_rest c r with
  | None => SIllegal
  | Some rest => STok (TNumber (firstn (length (c :: r) - length rest) (c :: r))) sp rest
  end.
Proof.
  intros H. destruct (num_start_tests c H) as (H0 & H1 & H2). unfold scan_body. rewrite H0, H1, H2.
  unfold num_start in H. rewrite H. reflexivity.
Qed.

Lemma scan_quote r sp : scan_body (34 :: r) sp =
  match parse_string (S (length r)) 34 r [] with
  | None => SIllegal
  | Some (s, rest) => if ch rest =? 34 then STok (TString s) sp (nxt rest) else SIllegal
  end.
Proof. reflexivity. Qed.

Definition is_kw (s : bytes) : bool := match keyword_token s with Some _ => true | None => false end.

Definition name_ok (s : bytes) : bool :=
  match s with
  | c :: more => is_name_start c && forallb is_name_char more && negb (is_kw s)
  | [] => false
  end.

(* the NUMBER scanner, run on the text alone, consumes all of it *)
Definition num_ok (s : bytes) : bool :=
  match s with
  | c :: r => num_start c && match scan_number_rest c r with Some [] => true | _ => false end
  | [] => false
  end.

Definition kw_numbers : list Z := [44; 45; 46; 47; 48; 49; 50; 51; 52; 53; 55; 57; 58; 61; 62].

Section Lex.
  Variable str_ok : bytes -> bool.
  Hypothesis str_lex : forall s, str_ok s = true ->
    forall rest sp, scan_body (quote s ++ rest) sp = STok (TString s) sp rest.

  Definition lexable (t : tok) : bool :=
    match t with
    | TName s => name_ok s
    | TNumber s => num_ok s
    | TString s => str_ok s
    | TRegex s => regex_ok s
    | TOther k => existsb (Z.eqb k) kw_numbers
    | _ => true
    end.

  Definition nofuse (t : tok) (nb : Z) : bool :=
    match t with
    | TAdd => negb (nb =? 43) && negb (nb =? 61)
    | TSub => negb (nb =? 45) && negb (nb =? 61)
    | TNot => negb (nb =? 61) && negb (nb =? 126)
    | TAssign | TLess | TDiv | TMod | TPow => negb (nb =? 61)
    | TGreater => negb (nb =? 61) && negb (nb =? 62)
    | TMul => negb (nb =? 42) && negb (nb =? 61)
    | TPipe => negb (nb =? 124)
    | TGetline | TIn | TPrint | TPrintf | TFunc _ | TOther _ | TName _ => negb (is_name_char nb)
    | TNumber _ =>
        negb (is_digit nb) && negb (nb =? 46) && negb (nb =? 101) && negb (nb =? 69)
        && negb (nb =? 43) && negb (nb =? 45)
    | _ => true
    end.

  Definition is_regex_tok (t : tok) : bool := match t with TRegex _ => true | _ => false end.
  Definition reflag (t : tok) (sp : bool) : tok := match t with TLParen _ => TLParen sp | _ => t end.

  Lemma ch_app_nonnil (b rest : bytes) : b <> [] -> ch (b ++ rest) = ch b.
  Proof. destruct b; [congruence | reflexivity]. Qed.
  Lemma nxt_app_nonnil (b rest : bytes) : b <> [] -> nxt (b ++ rest) = nxt b ++ rest.
  Proof. destruct b; [congruence | reflexivity]. Qed.

  Definition num_sep (nb : Z) : bool := nofuse (TNumber []) nb.

  Definition num_tail (got1 : bool) (r2 : bytes) : option bytes :=
    let '(ds2, r3) := span is_digit r2 in
    let got := got1 || negb (match ds2 with [] => true | _ => false end) in
    if negb got then None
    else if (ch r3 =? 101) || (ch r3 =? 69) then
      let r4 := nxt r3 in
      let r5 := if (ch r4 =? 43) || (ch r4 =? 45) then nxt r4 else r4 in
      let '(ds3, r6) := span is_digit r5 in
      match ds3 with [] => Some r3 | _ => Some r6 end
    else Some r3.

  Lemma scan_number_rest_eq c r :
    scan_number_rest c r =
    if c =? 46 then num_tail false r
    else let '(_, r1) := span is_digit r in num_tail true (if ch r1 =? 46 then nxt r1 else r1).
  Proof.
    unfold scan_number_rest, num_tail. destruct (c =? 46); [reflexivity|].
    destruct (span is_digit r) as [a b]. reflexivity.
  Qed.

  (* a test that fails at the end of input and on the first byte of rest sees x ++ rest as it sees x *)
  Lemma peek_app (q : Z -> bool) x rest : q 0 = false -> q (ch rest) = false ->
    q (ch (x ++ rest)) = q (ch x) /\ (q (ch x) = true -> nxt (x ++ rest) = nxt x ++ rest).
  Proof.
    intros H0 Hr. destruct x; cbn [app ch nxt]; (split; [congruence | intros H; congruence || reflexivity]).
  Qed.

  Lemma num_tail_app g r2 rest : num_sep (ch rest) = true ->
    num_tail g (r2 ++ rest) = option_map (fun x => x ++ rest) (num_tail g r2).
  Proof.
    intros Hsep. unfold num_sep, nofuse in Hsep.
    assert (Hd : is_digit (ch rest) = false) by lia.
    unfold num_tail.
    rewrite (span_app is_digit r2 rest Hd). destruct (span is_digit r2) as [ds2 r3].
    destruct (negb (g || negb match ds2 with [] => true | _ :: _ => false end)); [reflexivity|].
    destruct (peek_app (fun c => (c =? 101) || (c =? 69)) r3 rest eq_refl ltac:(lia)) as [E1 N1]. cbn beta in *.
    rewrite E1. destruct ((ch r3 =? 101) || (ch r3 =? 69)); [|reflexivity]. rewrite (N1 eq_refl).
    destruct (peek_app (fun c => (c =? 43) || (c =? 45)) (nxt r3) rest eq_refl ltac:(lia)) as [E2 N2]. cbn beta in *.
    rewrite E2. destruct ((ch (nxt r3) =? 43) || (ch (nxt r3) =? 45)); [rewrite (N2 eq_refl)|];
      rewrite (span_app is_digit _ rest Hd); destruct (span is_digit _) as [ds3 r6]; destruct ds3; reflexivity.
  Qed.

  Lemma scan_number_rest_app c r rest : num_sep (ch rest) = true ->
    scan_number_rest c (r ++ rest) = option_map (fun x => x ++ rest) (scan_number_rest c r).
  Proof.
    intros Hsep. rewrite !scan_number_rest_eq.
    destruct (c =? 46); [apply num_tail_app; exact Hsep|].
    assert (Hd : is_digit (ch rest) = false) by (unfold num_sep, nofuse in Hsep; lia).
    rewrite (span_app is_digit r rest Hd). destruct (span is_digit r) as [a b].
    destruct (peek_app (fun c => c =? 46) b rest eq_refl ltac:(unfold num_sep, nofuse in Hsep; lia)) as [E N].
    cbn beta in *. rewrite E. destruct (ch b =? 46); [rewrite (N eq_refl)|]; apply num_tail_app; exact Hsep.
  Qed.

  Lemma firstn_len_app (s rest : bytes) : firstn (length (s ++ rest) - length rest) (s ++ rest) = s.
  Proof.
    rewrite app_length. replace (length s + length rest - length rest)%nat with (length s) by lia.
    rewrite firstn_app, Nat.sub_diag, firstn_all. cbn [firstn]. apply app_nil_r.
  Qed.

  Lemma scan_tok_number s rest sp : num_ok s = true -> num_sep (ch rest) = true ->
    scan_body (s ++ rest) sp = STok (TNumber s) sp rest.
  Proof.
    intros Hok Hsep. destruct s as [|c r]; [discriminate|]. cbn [num_ok] in Hok.
    apply andb_prop in Hok as [Hc Hr].
    change ((c :: r) ++ rest) with (c :: (r ++ rest)). rewrite (scan_num c _ sp Hc).
    rewrite (scan_number_rest_app c r rest Hsep).
    destruct (scan_number_rest c r) as [[|? ?]|]; try discriminate.
    cbn [option_map app]. change (c :: r ++ rest) with ((c :: r) ++ rest). rewrite firstn_len_app. reflexivity.
  Qed.

  Lemma name_char_zero : is_name_char 0 = false. Proof. reflexivity. Qed.

  Lemma scan_tok_word c more rest sp : is_name_start c = true -> forallb is_name_char more = true ->
    is_name_char (ch rest) = false ->
    scan_body ((c :: more) ++ rest) sp =
    match keyword_token (c :: more) with Some t => STok t sp rest | None => STok (TName (c :: more)) sp rest end.
  Proof.
    intros Hc Hm Hr. change ((c :: more) ++ rest) with (c :: (more ++ rest)).
    rewrite (scan_name c _ sp Hc), (span_all_app is_name_char more rest Hm Hr). reflexivity.
  Qed.

  Lemma scan_tok_name s rest sp : name_ok s = true -> is_name_char (ch rest) = false ->
    scan_body (s ++ rest) sp = STok (TName s) sp rest.
  Proof.
    intros Hok Hr. destruct s as [|c more]; [discriminate|]. cbn [name_ok] in Hok.
    apply andb_prop in Hok as [Hok Hk]. apply andb_prop in Hok as [Hc Hm].
    rewrite (scan_tok_word c more rest sp Hc Hm Hr).
    unfold is_kw in Hk. destruct (keyword_token (c :: more)); [discriminate | reflexivity].
  Qed.

  Definition word_shaped (k : bytes) : bool :=
    match k with c :: more => is_name_start c && forallb is_name_char more | [] => false end.

  Lemma scan_tok_kw k t rest sp :
    word_shaped k = true -> keyword_token k = Some t -> is_name_char (ch rest) = false ->
    scan_body (k ++ rest) sp = STok t sp rest.
  Proof.
    intros Hk Ht Hr. destruct k as [|c more]; [discriminate|]. apply andb_prop in Hk as [Hc Hm].
    rewrite (scan_tok_word c more rest sp Hc Hm Hr), Ht. reflexivity.
  Qed.

  (* the keywords among the pseudo tokens are in the lexer's table under their own spelling *)
  Lemma kw_numbers_ok k : existsb (Z.eqb k) kw_numbers = true ->
    word_shaped (other_name k) = true /\ keyword_token (other_name k) = Some (TOther k).
  Proof.
    assert (Hall : forallb (fun k => word_shaped (other_name k) &&
                     match keyword_token (other_name k) with Some (TOther k') => k' =? k | _ => false end)
                     kw_numbers = true) by (vm_compute; reflexivity).
    intros Hk. apply existsb_exists in Hk as (k' & Hin & E). apply Z.eqb_eq in E. subst k'.
    rewrite forallb_forall in Hall. apply Hall, andb_prop in Hin as [Hw Ht]. split; [exact Hw|].
    destruct (keyword_token (other_name k)) as [[]|]; try discriminate Ht. apply Z.eqb_eq in Ht. subst. reflexivity.
  Qed.

  Lemma scan_tok_keyword t rest sp :
    match t with TGetline | TIn | TPrint | TPrintf | TFunc _ => True
               | TOther k => existsb (Z.eqb k) kw_numbers = true | _ => False end ->
    is_name_char (ch rest) = false ->
    scan_body (tok_bytes t ++ rest) sp = STok t sp rest.
  Proof.
    intros Ht Hr. destruct t; try contradiction.
    1-4: apply scan_tok_kw; [reflexivity | reflexivity | exact Hr].
    - destruct f; (apply scan_tok_kw; [reflexivity | reflexivity | exact Hr]).
    - destruct (kw_numbers_ok k Ht) as [Hw Hk]. apply scan_tok_kw; assumption.
  Qed.

  Lemma negb_and2 a b : negb a && negb b = true -> a = false /\ b = false.
  Proof. destruct a, b; cbn; intros; try discriminate; split; reflexivity. Qed.

  Theorem scan_tok t rest sp : lexable t = true -> nofuse t (ch rest) = true -> is_regex_tok t = false ->
    scan_body (tok_bytes t ++ rest) sp = STok (reflag t sp) sp rest.
  Proof.
    intros Hl Hn Hre.
    destruct t; cbn [nofuse] in Hn; try discriminate Hre;
      (* getline, in, print, printf and the built-in functions *)
      try (apply negb_true_iff in Hn; apply scan_tok_keyword; [exact I | exact Hn]);
      cbn [tok_bytes app reflag];
      (* an operator that no byte can extend; one that one byte, or one of two, would extend *)
      try reflexivity;
      try (apply negb_true_iff in Hn; autorewrite with scan_op; rewrite Hn; reflexivity);
      try (apply negb_and2 in Hn as [H1 H2]; autorewrite with scan_op; rewrite H1, H2; reflexivity).
    - apply negb_true_iff in Hn. apply scan_tok_name; assumption.
    - apply scan_tok_number; assumption.
    - apply str_lex. exact Hl.
    - apply negb_true_iff in Hn. apply (scan_tok_keyword (TOther k) rest sp Hl Hn).
  Qed.

  (* REGEX: DIV or DIV_ASSIGN, then ScanRegex *)
  Lemma regex_ok_tail s : regex_ok (61 :: s) = true -> regex_ok s = true.
  Proof. cbn [regex_ok]. change (61 =? 92) with false. cbn iota. intros H. apply andb_prop in H as [_ H]. exact H. Qed.

  Lemma scan_tok_regex s rest sp : regex_ok s = true ->
    (exists r, scan_body (format_regex s ++ rest) sp = STok TDiv sp r /\ scan_regex false r = Some (s, rest)) \/
    (exists r, scan_body (format_regex s ++ rest) sp = STok TDivAssign sp r /\ scan_regex true r = Some (s, rest)).
  Proof.
    intros Hok. unfold format_regex. cbn [app]. rewrite <- app_assoc. cbn [app]. rewrite scan_slash.
    destruct s as [|b s'].
    - left. cbn [regex_escape app ch]. change (47 =? 61) with false. cbn iota.
      eexists. split; [reflexivity|]. apply (regex_roundtrip [] rest Hok).
    - destruct (b =? 61) eqn:E61.
      + apply Z.eqb_eq in E61. subst b. right. cbn [regex_escape]. change (61 =? 47) with false. cbn iota.
        cbn [app ch nxt]. change (61 =? 61) with true. cbn iota.
        eexists. split; [reflexivity|]. apply regex_roundtrip_eq. apply regex_ok_tail. exact Hok.
      + left.
        assert (Hch : (ch (regex_escape (b :: s') ++ 47 :: rest) =? 61) = false).
        { cbn [regex_escape]. destruct (b =? 47); cbn [app ch]; [reflexivity | exact E61]. }
        rewrite Hch. eexists. split; [reflexivity|]. apply (regex_roundtrip (b :: s') rest Hok).
  Qed.

  Lemma tok_eqb_refl t : tok_eqb t t = true.
  Proof.
    destruct t; cbn [tok_eqb]; try reflexivity;
      first [ apply Z.eqb_refl | apply bytes_eqb_refl | (unfold bfn_eqb; apply bytes_eqb_refl) | (destruct sp; reflexivity) ].
  Qed.

  Fixpoint safe (an sp : bool) (ps : list piece) : bool :=
    match ps with
    | [] => true
    | PSp :: r => safe an true r
    | PT t :: r =>
        lexable t && nofuse t (ch (render r))
        && (if an && is_lparen t then tok_eqb t (TLParen sp) else true)
        && safe (is_name_tok t) false r
    end.

  (* where scan_body reads a token the input does not begin with white space, so the spaces before it are only skipped *)
  Lemma scan1_spaces_tok k bs sp t r : scan_body bs sp = STok t sp r ->
    scan1 (repeat 32 k ++ bs) = scan_body bs (0 <? Z.of_nat k).
  Proof.
    destruct bs as [|c bs']; [discriminate|]. intros H. apply scan1_spaces.
    destruct (not_ws c) eqn:E; [reflexivity|]. unfold not_ws in E.
    assert (c = 32 \/ c = 9 \/ c = 13) as [-> | [-> | ->]] by lia; discriminate H.
  Qed.

  Lemma lex_as_cons an t ts bs : is_regex_tok t = false ->
    lex_as an (t :: ts) bs =
    match scan1 bs with
    | STok t' _ r => (if is_lparen t && is_lparen t' && negb an then true else tok_eqb t t') && lex_as (is_name_tok t) ts r
    | _ => false
    end.
  Proof. destruct t; try discriminate; reflexivity. Qed.

  Lemma repeat_snoc_app k (bs : bytes) : repeat 32 k ++ 32 :: bs = repeat 32 (S k) ++ bs.
  Proof. induction k as [|k IH]; cbn [repeat app]; [reflexivity | rewrite IH; reflexivity]. Qed.

  Theorem render_lex_gen : forall ps an k,
    safe an (0 <? Z.of_nat k) ps = true -> lex_as an (toks ps) (repeat 32 k ++ render ps) = true.
  Proof.
    induction ps as [|p ps IH]; intros an k Hs.
    - cbn [toks render flat_map lex_as]. rewrite scan1_spaces_nil. reflexivity.
    - destruct p as [t|].
      + cbn [safe] in Hs. apply andb_prop in Hs as [Hs Hrest]. apply andb_prop in Hs as [Hs Hflag].
        apply andb_prop in Hs as [Hl Hn].
        specialize (IH (is_name_tok t) 0%nat Hrest). cbn [repeat app] in IH.
        cbn [toks render flat_map piece_bytes]. fold (render ps).
        destruct (is_regex_tok t) eqn:Ere.
        * destruct t; try discriminate Ere. cbn [lex_as tok_bytes].
          destruct (scan_tok_regex s (render ps) (0 <? Z.of_nat k) Hl) as [(r' & E1 & E2) | (r' & E1 & E2)];
            rewrite (scan1_spaces_tok k _ _ _ _ E1), E1, E2, bytes_eqb_refl; cbn [andb is_name_tok] in *; exact IH.
        * pose proof (scan_tok t _ (0 <? Z.of_nat k) Hl Hn Ere) as Hscan.
          rewrite (lex_as_cons an t _ _ Ere), (scan1_spaces_tok k _ _ _ _ Hscan), Hscan.
          rewrite IH, andb_true_r.
          destruct t; cbn [is_lparen reflag andb]; try apply tok_eqb_refl.
          cbn [is_lparen] in Hflag. destruct an; cbn [andb negb] in *; [exact Hflag | reflexivity].
      + cbn [safe] in Hs. cbn [toks render flat_map piece_bytes app]. fold (render ps).
        rewrite repeat_snoc_app. apply IH.
        replace (0 <? Z.of_nat (S k)) with true by lia. exact Hs.
  Qed.

  (* text level: a safe piece list, rendered, lexes back to its own token list *)
  Theorem render_lex : forall ps, safe false false ps = true -> lex_as false (toks ps) (render ps) = true.
  Proof. intros ps H. apply (render_lex_gen ps false 0%nat H). Qed.
End Lex.
