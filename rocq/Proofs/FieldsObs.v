(* C06: what holds of the record model for every regex engine, with no hypothesis on it.
   How the lazy split, getField and the operations of a program move through states, and
   "reads are invisible for ever": two states that differ only in whether the lazy split has
   happened yet are indistinguishable by every later script, since everything the split
   consults (FS, its regex, RS, the input mode) is saved when the record is set. *)
From Verif Require Import Lib.Base Lib.Dyadic Lib.Utf8 Lib.Regex Gen.Consts Model.Fields.

Ltac proj := cbn [line line_true fields fields_true have nf fs fs_re saved_fs saved_re saved_rs saved_inmode ofs rs inmode outmode].

Lemma rbind_ok {A B} (r : res A) (k : A -> res B) b : rbind r k = Ok b -> exists a, r = Ok a /\ k a = Ok b.
Proof. destruct r as [a| | |]; cbn [rbind]; try discriminate. intros H. exists a. split; [reflexivity|exact H]. Qed.

Lemma rbind_no_panic {A B} (r : res A) (k : A -> res B) :
  r <> Panic -> (forall a, r = Ok a -> k a <> Panic) -> rbind r k <> Panic.
Proof. destruct r as [a| | |]; cbn [rbind]; intros H1 H2; try congruence. apply H2. reflexivity. Qed.

Definition res_rel {A B} (R : A -> B -> Prop) (r : res A) (r' : res B) : Prop :=
  match r, r' with
  | Ok a, Ok b => R a b
  | Err m, Err m' => m = m'
  | Panic, Panic => True
  | Unmod, Unmod => True
  | _, _ => False
  end.

Lemma res_rel_refl {A} (R : A -> A -> Prop) : (forall a, R a a) -> forall r, res_rel R r r.
Proof. intros H [a| | |]; cbn; auto. Qed.

Lemma res_rel_bind {A A' B B'} (R : A -> A' -> Prop) (S : B -> B' -> Prop) r r' k k' :
  res_rel R r r' -> (forall a a', R a a' -> res_rel S (k a) (k' a')) -> res_rel S (rbind r k) (rbind r' k').
Proof. destruct r, r'; cbn [res_rel rbind]; try contradiction; auto. Qed.

Section Obs.
Variable rx : Type.
Variable all_matches : rx -> bytes -> list (Z * Z).

Local Notation state := (state rx).
Local Notation op := (op rx).
Local Notation ensure := (ensure_fields rx all_matches).
Local Notation getf := (get_field rx all_matches).
Local Notation setf := (set_field rx all_matches).
Local Notation setnf := (set_nf rx all_matches).
Local Notation exec := (exec_op rx all_matches).
Local Notation viewof := (view rx all_matches).

(* everything except the split result *)
Definition core (s : state) :=
  (line rx s, line_true rx s, fs rx s, fs_re rx s, saved_fs rx s, saved_re rx s, ofs rx s, rs rx s, inmode rx s, outmode rx s,
   saved_rs rx s, saved_inmode rx s).

Definition same (s s' : state) : Prop := core s = core s' /\ ensure s = ensure s'.

Lemma same_refl s : same s s.
Proof. split; reflexivity. Qed.

Lemma core_inj s s' :
  core s = core s' ->
  line rx s = line rx s' /\ line_true rx s = line_true rx s' /\ fs rx s = fs rx s' /\ fs_re rx s = fs_re rx s' /\
  saved_fs rx s = saved_fs rx s' /\ saved_re rx s = saved_re rx s' /\ ofs rx s = ofs rx s' /\ rs rx s = rs rx s' /\
  inmode rx s = inmode rx s' /\ outmode rx s = outmode rx s' /\
  saved_rs rx s = saved_rs rx s' /\ saved_inmode rx s = saved_inmode rx s'.
Proof. unfold core. intros H. injection H. intros. repeat split; assumption. Qed.

Lemma ensure_of_have s : have rx s = true -> ensure s = Ok s.
Proof. intros H. unfold ensure_fields. rewrite H. reflexivity. Qed.

Lemma ensure_core s s1 : ensure s = Ok s1 -> core s1 = core s.
Proof.
  unfold ensure_fields. destruct (have rx s).
  - intros H; injection H as <-. reflexivity.
  - intros H. apply rbind_ok in H as (fl & _ & H). injection H as <-. reflexivity.
Qed.

Lemma ensure_have s s1 : ensure s = Ok s1 -> have rx s1 = true.
Proof.
  unfold ensure_fields. destruct (have rx s) eqn:E.
  - intros H; injection H as <-. exact E.
  - intros H. apply rbind_ok in H as (fl & _ & H). injection H as <-. reflexivity.
Qed.

Lemma ensure_idem s s1 : ensure s = Ok s1 -> ensure s1 = Ok s1.
Proof. intros H. exact (ensure_of_have _ (ensure_have _ _ H)). Qed.

Lemma same_ensure s s1 : ensure s = Ok s1 -> same s1 s.
Proof. intros H. split; [exact (ensure_core _ _ H)|]. rewrite H. exact (ensure_idem _ _ H). Qed.

Lemma view_same s s' : same s s' -> viewof s = viewof s'.
Proof. intros [_ H]. unfold view. rewrite H. reflexivity. Qed.

Lemma view_of_have s : have rx s = true -> viewof s = Ok (line rx s, fields rx s, nf rx s).
Proof. intros H. unfold view. rewrite (ensure_of_have s H). reflexivity. Qed.

Lemma state_eta (s : state) :
  s = mkState rx (line rx s) (line_true rx s) (fields rx s) (fields_true rx s) (have rx s) (nf rx s)
        (fs rx s) (fs_re rx s) (saved_fs rx s) (saved_re rx s) (saved_rs rx s) (saved_inmode rx s)
        (ofs rx s) (rs rx s) (inmode rx s) (outmode rx s).
Proof. destruct s. reflexivity. Qed.

(* a change of settings that the split does not consult commutes with the split;
   set_ofs, set_rs, set_inmode, set_outmode and what set_fs returns are all of this form *)
Definition retune (f : bytes) (fre : option rx) (o r : bytes) (im m : mode) (s : state) : state :=
  mkState rx (line rx s) (line_true rx s) (fields rx s) (fields_true rx s) (have rx s) (nf rx s)
          f fre (saved_fs rx s) (saved_re rx s) (saved_rs rx s) (saved_inmode rx s) o r im m.

Lemma ensure_retune f fre o r im m s :
  ensure (retune f fre o r im m s) = do s1 <- ensure s; Ok (retune f fre o r im m s1).
Proof.
  unfold ensure_fields, retune. proj. destruct (have rx s) eqn:Eh.
  - cbn [rbind]. rewrite Eh. reflexivity.
  - destruct (split_record rx all_matches _ _ _ _ _); reflexivity.
Qed.

Lemma view_retune f fre o r im m s : viewof (retune f fre o r im m s) = viewof s.
Proof. unfold view. rewrite ensure_retune. destruct (ensure s); reflexivity. Qed.

Lemma same_retune f fre o r im m f' fre' o' r' im' m' s s' :
  same s s' -> f = f' -> fre = fre' -> o = o' -> r = r' -> im = im' -> m = m' ->
  same (retune f fre o r im m s) (retune f' fre' o' r' im' m' s').
Proof.
  intros [Hc He] <- <- <- <- <- <-. apply core_inj in Hc as (H1 & H2 & H3 & H4 & H5 & H6 & H7 & H8 & H9 & H10 & H11 & H12).
  split.
  - unfold core, retune. proj. congruence.
  - rewrite !ensure_retune, He. reflexivity.
Qed.

Lemma set_fs_retune s f r s' :
  set_fs rx s f r = Ok s' -> exists fre, s' = retune f fre (ofs rx s) (rs rx s) (inmode rx s) (outmode rx s) s.
Proof.
  unfold set_fs. destruct (rune_count f >? 1); [destruct r as [re|]; [|discriminate]|];
    intros H; injection H as <-; eexists; reflexivity.
Qed.

Lemma same_set_line s s' t b : same s s' -> same (set_line rx s t b) (set_line rx s' t b).
Proof.
  intros [Hc _]. apply core_inj in Hc as (H1 & H2 & H3 & H4 & H5 & H6 & H7 & H8 & H9 & H10 & H11 & H12).
  split.
  - unfold core, set_line. proj. congruence.
  - unfold ensure_fields, set_line. proj. rewrite H3, H4, H7, H8, H9, H10. reflexivity.
Qed.

Lemma eval_idx_inv s i s0 k : eval_idx rx all_matches s i = Ok (s0, k) -> s0 = s \/ ensure s = Ok s0.
Proof.
  destruct i as [x|neg d]; cbn [eval_idx]; intros H.
  - injection H as <- _. left. reflexivity.
  - apply rbind_ok in H as (s1 & He & H). right.
    destruct (vnum (nf rx s1)); try discriminate. destruct (representable _); [|discriminate].
    injection H as <- _. exact He.
Qed.

Lemma get_field_inv s k s1 f t :
  getf s k = Ok (s1, f, t) ->
  (k = 0 /\ s1 = s /\ f = line rx s /\ t = line_true rx s) \/
  (k <> 0 /\ ensure s = Ok s1 /\
   let n := zlen (fields rx s1) in
   let j := if k <? 1 then n + 1 + k else k in
   ((j < 1 \/ j > n) /\ f = [] /\ t = true) \/
   (1 <= j <= n /\ nth_error (fields rx s1) (Z.to_nat (j - 1)) = Some f
               /\ nth_error (fields_true rx s1) (Z.to_nat (j - 1)) = Some t)).
Proof.
  unfold get_field. destruct (Z.eqb_spec k 0) as [->|Hk]; intros H.
  - injection H as <- <- <-. left. auto.
  - right. apply rbind_ok in H as (s2 & He & H). cbv zeta in *.
    set (j := if k <? 1 then zlen (fields rx s2) + 1 + k else k) in *.
    destruct (Z.ltb_spec j 1); [injection H as <- <- <-; fold j; auto 6 with zarith|].
    destruct (Z.gtb_spec j (zlen (fields rx s2))); [injection H as <- <- <-; fold j; auto 6 with zarith|].
    apply rbind_ok in H as (t' & Ht & H). apply rbind_ok in H as (f' & Hf & H). injection H as <- <- <-.
    apply index_inv in Ht as [_ Ht]. apply index_inv in Hf as [_ Hf]. fold j. auto 7 with zarith.
Qed.

Lemma get_field_state s k s1 f t : getf s k = Ok (s1, f, t) -> s1 = s \/ ensure s = Ok s1.
Proof. intros H. destruct (get_field_inv _ _ _ _ _ H) as [(_ & -> & _)|(_ & He & _)]; auto. Qed.

(* getField on a freshly set record: $0 as set; an existing field with the flag false; "" beyond *)
Lemma get_field_set_line s t b0 k s1 f b :
  getf (set_line rx s t b0) k = Ok (s1, f, b) ->
  (k = 0 /\ f = t /\ b = b0) \/
  (k <> 0 /\ (b = false \/ f = [] /\ b = true /\
     let n := zlen (fields rx s1) in let j := if k <? 1 then n + 1 + k else k in j < 1 \/ j > n)).
Proof.
  intros H. destruct (get_field_inv _ _ _ _ _ H) as [(-> & _ & -> & ->)|(Hk & He & Hj)]; [left; auto|right].
  split; [exact Hk|]. destruct Hj as [(Hout & -> & ->)|(_ & _ & Hn)]; [right; auto|left].
  unfold ensure_fields in He. cbn [have set_line] in He. apply rbind_ok in He as (fl & _ & He). injection He as <-.
  proj. apply nth_error_In, in_map_iff in Hn as (x & <- & _). reflexivity.
Qed.

Definition is_read_op (o : op) : bool :=
  match o with GetField _ _ | TypeOf _ _ | GetNF _ | ViewAll _ => true | _ => false end.

Lemma read_state s o s' w : is_read_op o = true -> exec s o = Ok (s', w) -> s' = s \/ ensure s = Ok s'.
Proof.
  assert (forall i (g : bytes -> bool -> out),
            (do (s0, k) <- eval_idx rx all_matches s i; do (s1, f, t) <- getf s0 k; Ok (s1, g f t)) = Ok (s', w) ->
            s' = s \/ ensure s = Ok s') as Hget.
  { intros i g H. apply rbind_ok in H as ([s0 k] & E0 & H). apply rbind_ok in H as ([[s1 f] t] & E1 & H).
    injection H as <- _. apply get_field_state in E1.
    destruct (eval_idx_inv _ _ _ _ E0) as [->|He0]; [exact E1|]. right.
    destruct E1 as [->|He1]; [exact He0|]. rewrite (ensure_idem _ _ He0) in He1. injection He1 as <-. exact He0. }
  intros Hr H. destruct o; try discriminate Hr; cbn [exec_op] in H.
  - exact (Hget i (fun f _ => OVal f) H).
  - exact (Hget i (fun f t => OTyp (if bytes_eqb f [49; 48] then Some t else None)) H).
  - apply rbind_ok in H as (s1 & E & H). injection H as <- _. right. exact E.
  - apply rbind_ok in H as (s1 & E & H). injection H as <- _. right. exact E.
Qed.

Definition nf_guard (G : value -> Prop) (o : op) : Prop :=
  match o with
  | SetNF _ v => G v
  | ModNF _ f => forall v v', f v = Ok v' -> G v'
  | _ => True
  end.

Lemma exec_preserves (P : state -> Prop) (G : value -> Prop) :
  (forall s s1, P s -> ensure s = Ok s1 -> P s1) ->
  (forall s t b, P s -> P (set_line rx s t b)) ->
  (forall s k t s', P s -> setf s k t = Ok s' -> P s') ->
  (forall s v s', P s -> G v -> setnf s v = Ok s' -> P s') ->
  (forall s f r s', P s -> set_fs rx s f r = Ok s' -> P s') ->
  (forall s o r im m, P s -> P (retune (fs rx s) (fs_re rx s) o r im m s)) ->
  forall s o s' w, P s -> nf_guard G o -> exec s o = Ok (s', w) -> P s'.
Proof.
  intros Pens Pline Pset Pnf Pfs Ptune.
  assert (forall s i s0 k, P s -> eval_idx rx all_matches s i = Ok (s0, k) -> P s0) as Pidx.
  { intros s i s0 k HP E. destruct (eval_idx_inv _ _ _ _ E) as [->|He]; [exact HP|exact (Pens _ _ HP He)]. }
  assert (forall s k s1 f t, P s -> getf s k = Ok (s1, f, t) -> P s1) as Pget.
  { intros s k s1 f t HP E. destruct (get_field_state _ _ _ _ _ E) as [->|He]; [exact HP|exact (Pens _ _ HP He)]. }
  intros s o s' w HP Hg H.
  destruct (is_read_op o) eqn:Hr; [destruct (read_state _ _ _ _ Hr H) as [->|He]; [exact HP|exact (Pens _ _ HP He)]|].
  destruct o as [t|i|i|i t|i t|t|i f| |v|f|fsv r|o|r|m|m| ]; try discriminate Hr; cbn [exec_op] in H;
    try (injection H as <- _; apply Ptune, HP).
  - injection H as <- _. exact (Pline _ _ _ HP).
  - apply rbind_ok in H as ([s0 k] & E0 & H). apply rbind_ok in H as (s1 & E1 & H).
    injection H as <- _. exact (Pset _ _ _ _ (Pidx _ _ _ _ HP E0) E1).
  - apply rbind_ok in H as ([s0 k] & E0 & H). apply rbind_ok in H as (s1 & E1 & H).
    injection H as <- _. exact (Pset _ _ _ _ (Pidx _ _ _ _ HP E0) E1).
  - injection H as <- _. exact HP.
  - apply rbind_ok in H as ([s0 k] & E0 & H). apply rbind_ok in H as ([[s1 old] tt] & E1 & H).
    pose proof (Pget _ _ _ _ _ (Pidx _ _ _ _ HP E0) E1) as HP1.
    apply rbind_ok in H as ([t|] & _ & H); [|injection H as <- _; exact HP1].
    apply rbind_ok in H as (s2 & E2 & H). injection H as <- _. exact (Pset _ _ _ _ HP1 E2).
  - apply rbind_ok in H as (s1 & E & H). injection H as <- _. exact (Pnf _ _ _ HP Hg E).
  - apply rbind_ok in H as (s1 & E & H). apply rbind_ok in H as (v & Ef & H).
    apply rbind_ok in H as (s2 & E2 & H). injection H as <- _. exact (Pnf _ _ _ (Pens _ _ HP E) (Hg _ _ Ef) E2).
  - apply rbind_ok in H as (s1 & E & H). injection H as <- _. exact (Pfs _ _ _ _ HP E).
Qed.

Lemma step_exec s o s' : step rx all_matches s o = Ok s' -> exists w, exec s o = Ok (s', w).
Proof. intros H. apply rbind_ok in H as ([s1 w] & E & H). injection H as <-. exists w. exact E. Qed.

Lemma run_preserves (P : state -> Prop) (G : op -> Prop) :
  (forall s o s' w, P s -> G o -> exec s o = Ok (s', w) -> P s') ->
  forall ops s s', P s -> Forall G ops -> run rx all_matches ops s = Ok s' -> P s'.
Proof.
  intros Hstep. induction ops as [|o ops IH]; intros s s' HP Hg H; cbn [run] in H.
  - injection H as <-. exact HP.
  - inversion Hg as [|? ? Ho Hrest]; subst.
    apply rbind_ok in H as (s1 & E & H). destruct (step_exec _ _ _ E) as [w Hw]. eauto.
Qed.

Definition same_res : res (state * out) -> res (state * out) -> Prop :=
  res_rel (fun a b => same (fst a) (fst b) /\ snd a = snd b).

Lemma set_field_same s s' k t : same s s' -> res_rel same (setf s k t) (setf s' k t).
Proof.
  intros Hs. unfold set_field. destruct (k =? 0).
  - apply same_set_line. exact Hs.
  - destruct (k >? maxFieldIndex); [reflexivity|].
    destruct Hs as [_ ->]. apply res_rel_refl. exact same_refl.
Qed.

Lemma get_field_same s s' k :
  same s s' ->
  res_rel (fun a b => same (fst (fst a)) (fst (fst b)) /\ snd (fst a) = snd (fst b) /\ snd a = snd b) (getf s k) (getf s' k).
Proof.
  intros Hs. unfold get_field. destruct (k =? 0).
  - pose proof (core_inj _ _ (proj1 Hs)) as (H1 & H2 & _). cbn. auto.
  - destruct Hs as [_ ->]. apply res_rel_refl. auto using same_refl.
Qed.

Lemma eval_idx_same s s' i :
  same s s' ->
  res_rel (fun a b => same (fst a) (fst b) /\ snd a = snd b) (eval_idx rx all_matches s i) (eval_idx rx all_matches s' i).
Proof.
  intros Hs. destruct i as [x|neg d]; cbn [eval_idx].
  - split; [exact Hs|reflexivity].
  - destruct Hs as [_ ->]. apply res_rel_refl. auto using same_refl.
Qed.

Theorem exec_same s s' o :
  same s s' -> same_res (exec s o) (exec s' o).
Proof.
  intros Hs.
  assert (forall (g : bytes -> bool -> out) i,
            same_res (do (s0, k) <- eval_idx rx all_matches s i; do (s1, f, t) <- getf s0 k; Ok (s1, g f t))
                     (do (s0, k) <- eval_idx rx all_matches s' i; do (s1, f, t) <- getf s0 k; Ok (s1, g f t))) as Hread.
  { intros g i. eapply res_rel_bind; [exact (eval_idx_same s s' i Hs)|]. intros [a k] [b k'] [Hab Hk].
    cbn [fst snd] in Hab, Hk. subst k'. eapply res_rel_bind; [exact (get_field_same a b k Hab)|].
    intros [[a1 f1] t1] [[b1 f2] t2] (H1 & Hf & Ht). cbn [fst snd] in H1, Hf, Ht. subst. split; [exact H1|reflexivity]. }
  assert (forall i t,
            same_res (do (s0, k) <- eval_idx rx all_matches s i; do s1 <- setf s0 k t; Ok (s1, ONone))
                     (do (s0, k) <- eval_idx rx all_matches s' i; do s1 <- setf s0 k t; Ok (s1, ONone))) as Hwrite.
  { intros i t. eapply res_rel_bind; [exact (eval_idx_same s s' i Hs)|]. intros [a k] [b k'] [Hab Hk].
    cbn [fst snd] in Hab, Hk. subst k'. eapply res_rel_bind; [exact (set_field_same a b k t Hab)|].
    intros a1 b1 H1. split; [exact H1|reflexivity]. }
  pose proof (core_inj _ _ (proj1 Hs)) as (_ & _ & H3 & H4 & _ & _ & H7 & H8 & H9 & H10 & _).
  destruct o as [t|i|i|i t|i t|t|i f| |v|f|fsv r|ov|r|m|m| ]; cbn [exec_op].
  - (* ReadRecord *) split; [apply same_set_line; exact Hs|reflexivity].
  - (* GetField *) exact (Hread (fun f _ => OVal f) i).
  - (* TypeOf *) exact (Hread (fun f t => OTyp (if bytes_eqb f [49; 48] then Some t else None)) i).
  - (* SetField *) exact (Hwrite i t).
  - (* GetlineField *) exact (Hwrite i t).
  - (* GetlineVar *) split; [exact Hs|reflexivity].
  - (* ModField *)
    eapply res_rel_bind; [exact (eval_idx_same s s' i Hs)|]. intros [a k] [b k'] [Hab Hk].
    cbn [fst snd] in Hab, Hk. subst k'. eapply res_rel_bind; [exact (get_field_same a b k Hab)|].
    intros [[a1 f1] t1] [[b1 f2] t2] (H1 & Hf & _). cbn [fst snd] in H1, Hf. subst f2.
    destruct (f f1) as [[t|]| | |]; cbn [rbind]; try exact I; [|split; [exact H1|reflexivity]|reflexivity].
    eapply res_rel_bind; [exact (set_field_same a1 b1 k t H1)|]. intros a2 b2 H2. split; [exact H2|reflexivity].
  - (* GetNF *) destruct Hs as [_ ->]. apply res_rel_refl. auto using same_refl.
  - (* SetNF *) unfold set_nf. destruct Hs as [_ ->]. apply res_rel_refl. auto using same_refl.
  - (* ModNF *) destruct Hs as [_ ->]. apply res_rel_refl. auto using same_refl.
  - (* SetFS *)
    unfold set_fs. destruct (rune_count fsv >? 1); [destruct r as [re|]; [|reflexivity]|];
      (split; [apply same_retune; auto|reflexivity]).
  - (* SetOFS *) split; [apply same_retune; auto|reflexivity].
  - (* SetRS *) split; [apply same_retune; auto|reflexivity].
  - (* SetInMode *) split; [apply same_retune; auto|reflexivity].
  - (* SetOutMode *) split; [apply same_retune; auto|reflexivity].
  - (* ViewAll *) destruct Hs as [_ ->]. apply res_rel_refl. auto using same_refl.
Qed.

Definition same_end (r r' : res state) : Prop :=
  match r, r' with
  | Ok t, Ok t' => same t t'
  | Err m, Err m' => m = m'
  | Panic, Panic => True
  | Unmod, Unmod => True
  | _, _ => False
  end.

Theorem trace_same ops : forall s s',
  same s s' ->
  fst (trace rx all_matches ops s) = fst (trace rx all_matches ops s') /\
  same_end (snd (trace rx all_matches ops s)) (snd (trace rx all_matches ops s')).
Proof.
  induction ops as [|o ops IH]; intros s s' Hs; cbn [trace].
  - cbn [fst snd same_end]. split; [reflexivity|exact Hs].
  - pose proof (exec_same s s' o Hs) as He.
    destruct (exec s o) as [[t w]| | |], (exec s' o) as [[t' w']| | |]; cbn in He; try contradiction.
    + destruct He as [Ht <-]. destruct (IH t t' Ht) as [H1 H2].
      destruct (trace rx all_matches ops t) as [ws r], (trace rx all_matches ops t') as [ws' r'].
      cbn [fst snd] in *. split; [f_equal; exact H1|exact H2].
    + cbn [fst snd same_end]. split; [reflexivity|exact He].
    + cbn [fst snd same_end]. auto.
    + cbn [fst snd same_end]. auto.
Qed.

Lemma read_same s o s' w : is_read_op o = true -> exec s o = Ok (s', w) -> same s' s.
Proof.
  intros Hr H. destruct (read_state _ _ _ _ Hr H) as [->|He]; [apply same_refl|exact (same_ensure _ _ He)].
Qed.

(* A read can be deleted from (or inserted into) ANY script without changing anything the rest
   of the script outputs or how it ends. *)
Theorem reads_invisible s o s' w ops :
  is_read_op o = true -> exec s o = Ok (s', w) ->
  fst (trace rx all_matches ops s') = fst (trace rx all_matches ops s) /\
  same_end (snd (trace rx all_matches ops s')) (snd (trace rx all_matches ops s)).
Proof.
  intros Hr He. apply trace_same. exact (read_same _ _ _ _ Hr He).
Qed.

End Obs.

(* FS := f for a one-character f (no regex involved) *)
Definition set_fs_plain (rx : Type) (f : bytes) (s : state rx) : state rx :=
  retune rx f (fs_re rx s) (ofs rx s) (rs rx s) (inmode rx s) (outmode rx s) s.

(* the former witness of F-C06-5 on the repaired model: $0 = "a,b<NL>c" under FS=","; then
   [x = $1;] RS = ""; NF -- the same answer with and without the read *)
Example reads_invisible_rs_example :
  let am := fun (_ : unit) (_ : bytes) => @nil (Z * Z) in
  let s0 := set_line unit (set_fs_plain unit [44] (init unit)) [97; 44; 98; 10; 99] true in
  forall s1 w1, exec_op unit am s0 (GetField unit (IConst (FFin 1 0))) = Ok (s1, w1) ->
  fst (trace unit am [SetRS unit []; GetNF unit] s1) = fst (trace unit am [SetRS unit []; GetNF unit] s0).
Proof.
  intros am s0 s1 w1 H.
  exact (proj1 (reads_invisible unit am s0 (GetField unit (IConst (FFin 1 0))) s1 w1 _ eq_refl H)).
Qed.
