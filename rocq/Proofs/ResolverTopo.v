(* C16: the model of topoSort terminates within its fuel for every call graph
   and every permutation oracle, so [resolve] never answers RFuel.  Holds the unfolding
   equations of [visit] and [topo_loop] and the induction principle for [visit]. *)
From Verif Require Import Lib.Base Model.Resolver Proofs.Resolver Proofs.ResolverFlat Proofs.ResolverNoPanic
  Proofs.ResolverSound Proofs.ResolverExact.
From Coq Require Import Permutation.
Open Scope Z_scope.

Lemma remove_name_notin n l : ~ In n l -> remove_name n l = l.
Proof.
  unfold remove_name. induction l as [|x l IH]; intros H; cbn [filter]; [reflexivity|].
  destruct (neqb x n) eqn:E; cbn [negb].
  - apply neqb_eq in E. exfalso. apply H. left. exact E.
  - rewrite IH; [reflexivity|]. intros Hn. apply H. right. exact Hn.
Qed.

Lemma remove_name_head n l : ~ In n l -> remove_name n (n :: l) = l.
Proof. intros H. unfold remove_name. cbn [filter]. rewrite neqb_refl. cbn [negb]. apply remove_name_notin. exact H. Qed.

Lemma filter_filter {A} (f g : A -> bool) l : filter g (filter f l) = filter (fun x => f x && g x) l.
Proof.
  induction l as [|x l IH]; cbn [filter]; [reflexivity|].
  destruct (f x); cbn [filter andb]; [destruct (g x); rewrite IH; reflexivity | exact IH].
Qed.

Lemma filter_true {A} (l : list A) : filter (fun _ => true) l = l.
Proof. induction l as [|x l IH]; cbn [filter]; [reflexivity | rewrite IH; reflexivity]. Qed.

Lemma filter_length_lt {A} (f : A -> bool) l x : In x l -> f x = false -> (length (filter f l) < length l)%nat.
Proof.
  induction l as [|y l IH]; intros Hin Hf; [destruct Hin|]. cbn [filter length].
  destruct Hin as [->|Hin].
  - rewrite Hf. pose proof (filter_len_le f l). lia.
  - specialize (IH Hin Hf). destruct (f y); cbn [length]; lia.
Qed.

Lemma keys_length_gen (g : graph) : (length (map fst g) <= length (graph_nodes g))%nat.
Proof.
  unfold graph_nodes. induction g as [|[k l] r IH]; cbn [map flat_map length]; [lia|].
  rewrite app_length. cbn [fst snd length]. lia.
Qed.

(* the loop over the successors inside [visit] *)
Fixpoint visit_list (fuel : nat) (pi : oracle) (g : graph) (ms : list name) (ts : tstate) : option tstate :=
  match ms with
  | [] => Some ts
  | m :: r => match visit fuel pi g m ts with Some ts' => visit_list fuel pi g r ts' | None => None end
  end.

Definition enter (n : name) (ts : tstate) : tstate :=
  {| t_unmarked := t_unmarked ts; t_perm := t_perm ts; t_temp := n :: t_temp ts;
     t_sorted := t_sorted ts; t_ctr := S (t_ctr ts) |}.

Definition leave (n : name) (ts : tstate) : tstate :=
  {| t_unmarked := remove_name n (t_unmarked ts); t_perm := n :: t_perm ts;
     t_temp := remove_name n (t_temp ts); t_sorted := t_sorted ts ++ [n]; t_ctr := t_ctr ts |}.

Lemma visit_S fuel pi g n ts :
  visit (S fuel) pi g n ts =
  if mem n (t_perm ts) || mem n (t_temp ts) then Some ts
  else option_map (leave n) (visit_list fuel pi g (pi (t_ctr ts) (succs g n)) (enter n ts)).
Proof.
  cbn [visit]. destruct (mem n (t_perm ts)); [reflexivity|]. destruct (mem n (t_temp ts)); [reflexivity|].
  cbn [orb]. fold (enter n ts). generalize (enter n ts) as a. generalize (pi (t_ctr ts) (succs g n)) as ms.
  induction ms as [|m ms IH]; intros a; [reflexivity|]. cbn [visit_list].
  destruct (visit fuel pi g m a) as [a'|]; [apply IH | reflexivity].
Qed.

(* every call of visit relates the state it returns to the state it was given by Q,
   if Q is reflexive (a marked node is left alone), chains through the loop over the
   successors, and passes from that loop to the node entered before and left after it *)
Section VisitInd.
Variables (pi : oracle) (g : graph) (Q : tstate -> tstate -> Prop).
Hypothesis Qrefl : forall ts, Q ts ts.
Hypothesis Qcons : forall fuel m a a' b, visit fuel pi g m a = Some a' -> Q a a' -> Q a' b -> Q a b.
Hypothesis Qnode : forall n ts ts2,
  ~ In n (t_perm ts) -> ~ In n (t_temp ts) -> Q (enter n ts) ts2 -> Q ts (leave n ts2).

Lemma visit_ind fuel : forall n ts ts', visit fuel pi g n ts = Some ts' -> Q ts ts'.
Proof.
  induction fuel as [|fuel IH]; intros n ts ts' H; [discriminate|]. rewrite visit_S in H.
  destruct (mem n (t_perm ts) || mem n (t_temp ts)) eqn:Em; [injection H as <-; apply Qrefl|].
  apply orb_false_iff in Em. destruct Em as [Ep Et]. apply mem_not_In in Ep, Et.
  destruct (visit_list fuel pi g _ (enter n ts)) as [ts2|] eqn:El; [|discriminate].
  injection H as <-. apply Qnode; [exact Ep | exact Et|].
  revert El. generalize (enter n ts).
  induction (pi (t_ctr ts) (succs g n)) as [|m ms IHms]; intros a Hab; cbn [visit_list] in Hab.
  - injection Hab as <-. apply Qrefl.
  - destruct (visit fuel pi g m a) as [a'|] eqn:Ev; [|discriminate].
    exact (Qcons fuel m a a' ts2 Ev (IH m a a' Ev) (IHms a' Hab)).
Qed.
End VisitInd.

(* the state in which topoSort's loop calls visit: the range statement has asked the oracle once *)
Definition tick (ts : tstate) : tstate :=
  {| t_unmarked := t_unmarked ts; t_perm := t_perm ts; t_temp := t_temp ts;
     t_sorted := t_sorted ts; t_ctr := S (t_ctr ts) |}.

Lemma topo_loop_S fuel vfuel pi g ts :
  topo_loop (S fuel) vfuel pi g ts =
  match t_unmarked ts with
  | [] => Some ts
  | _ :: _ =>
      match visit vfuel pi g (hd [] (pi (t_ctr ts) (t_unmarked ts))) (tick ts) with
      | Some ts2 => topo_loop fuel vfuel pi g ts2
      | None => None
      end
  end.
Proof. reflexivity. Qed.

Section Topo.
Variable pi : oracle.
Hypothesis Hpi : perm_oracle pi.
Variable g : graph.

Let nodes := graph_nodes g.

Lemma pi_incl k l : incl (pi k l) l.
Proof. intros x Hx. eapply Permutation_in; [apply Hpi | exact Hx]. Qed.

Lemma gget_In n l : gget g n = Some l -> exists k, In (k, l) g.
Proof.
  induction g as [|[k v] r IH]; cbn [gget]; intros H; [discriminate|].
  destruct (neqb n k).
  - injection H as ->. exists k. left; reflexivity.
  - destruct (IH H) as [k' Hk']. exists k'. right; exact Hk'.
Qed.

Lemma succs_nodes n m : In m (succs g n) -> In m nodes.
Proof.
  unfold succs. destruct (gget g n) as [l|] eqn:E; [|intros []]. intros Hm.
  destruct (gget_In n l E) as [k Hk]. unfold nodes, graph_nodes. apply in_flat_map.
  exists (k, l). split; [exact Hk | right; exact Hm].
Qed.

Lemma keys_nodes k : In k (map fst g) -> In k nodes.
Proof.
  intros H. apply in_map_iff in H. destruct H as [[k' l] [<- He]]. unfold nodes, graph_nodes.
  apply in_flat_map. exists (k', l). split; [exact He | left; reflexivity].
Qed.

Lemma keys_length : (length (map fst g) <= length nodes)%nat.
Proof. apply keys_length_gen. Qed.

(* what a call of visit preserves *)
Definition vrel (ts ts' : tstate) : Prop :=
  t_temp ts' = t_temp ts /\
  (exists h, t_unmarked ts' = filter h (t_unmarked ts)) /\
  (forall x, In x (t_perm ts') -> In x (t_perm ts) \/ ~ In x (t_unmarked ts')).

Lemma vrel_refl ts : vrel ts ts.
Proof.
  split; [reflexivity|]. split; [|auto].
  exists (fun _ => true). symmetry. apply filter_true.
Qed.

Lemma vrel_trans a b c : vrel a b -> vrel b c -> vrel a c.
Proof.
  intros [A1 [[h1 A2] A3]] [B1 [[h2 B2] B3]]. split; [congruence|]. split.
  - exists (fun x => h1 x && h2 x). rewrite B2, A2. apply filter_filter.
  - intros x Hx. destruct (B3 x Hx) as [Hb|Hb]; [|right; exact Hb].
    destruct (A3 x Hb) as [Ha|Ha]; [left; exact Ha|]. right. intros Hc. apply Ha.
    rewrite B2 in Hc. apply filter_In in Hc. apply Hc.
Qed.

Lemma vrel_leave n ts ts2 : ~ In n (t_temp ts) -> vrel (enter n ts) ts2 -> vrel ts (leave n ts2).
Proof.
  intros Et [A1 [[h A2] A3]]. cbn [enter leave t_temp t_unmarked t_perm] in *. unfold vrel, leave, remove_name in *.
  cbn [t_temp t_unmarked t_perm]. split; [rewrite A1; apply remove_name_head; exact Et|]. split.
  - exists (fun x => h x && negb (neqb x n)). rewrite A2. apply filter_filter.
  - intros x [<-|Hx].
    + right. intros Hc. apply filter_In in Hc. destruct Hc as [_ Hc]. rewrite neqb_refl in Hc. discriminate.
    + destruct (A3 x Hx) as [Ha|Ha]; [left; exact Ha|]. right. intros Hc. apply Ha. apply filter_In in Hc. apply Hc.
Qed.

Lemma visit_vrel fuel : forall n ts ts', visit fuel pi g n ts = Some ts' -> vrel ts ts'.
Proof.
  apply visit_ind.
  - apply vrel_refl.
  - intros vfuel m a a' b _. apply vrel_trans.
  - intros n ts ts2 _. apply vrel_leave.
Qed.

Lemma visit_unmarks fuel n ts ts' :
  visit fuel pi g n ts = Some ts' -> mem n (t_perm ts) || mem n (t_temp ts) = false -> ~ In n (t_unmarked ts').
Proof.
  destruct fuel as [|fuel]; [discriminate|]. rewrite visit_S. intros H Em. rewrite Em in H.
  destruct (visit_list fuel pi g _ (enter n ts)) as [ts2|]; [|discriminate]. injection H as <-.
  cbn [leave t_unmarked]. unfold remove_name. intros Hc. apply filter_In in Hc. destruct Hc as [_ Hc].
  rewrite neqb_refl in Hc. discriminate.
Qed.

(* the nodes under way are distinct and every level of the recursion adds one,
   so the recursion is never deeper than the number of nodes *)
Lemma visit_total fuel : forall n ts,
  NoDup (t_temp ts) -> incl (t_temp ts) nodes -> In n nodes ->
  (fuel + length (t_temp ts) > length nodes)%nat ->
  visit fuel pi g n ts <> None.
Proof.
  induction fuel as [|fuel IH]; intros n ts Hnd Hincl Hn Hf.
  - exfalso. pose proof (NoDup_incl_length Hnd Hincl). lia.
  - rewrite visit_S. destruct (mem n (t_perm ts) || mem n (t_temp ts)) eqn:Em; [discriminate|].
    apply orb_false_iff in Em. destruct Em as [_ Et]. apply mem_not_In in Et.
    assert (Hgo : forall l a, incl l nodes -> t_temp a = n :: t_temp ts -> visit_list fuel pi g l a <> None).
    { induction l as [|m ms IHms]; intros a Hms Ha; cbn [visit_list]; [discriminate|].
      assert (Hv : visit fuel pi g m a <> None).
      { apply IH; rewrite ?Ha.
        - constructor; assumption.
        - intros x [<-|Hx]; [exact Hn | apply Hincl; exact Hx].
        - apply Hms. left; reflexivity.
        - cbn [length]. lia. }
      destruct (visit fuel pi g m a) as [a'|] eqn:Ev; [|congruence].
      apply IHms; [intros x Hx; apply Hms; right; exact Hx|].
      destruct (visit_vrel fuel m a a' Ev) as [A1 _]. congruence. }
    specialize (Hgo (pi (t_ctr ts) (succs g n)) (enter n ts)).
    destruct (visit_list fuel pi g _ (enter n ts)); [discriminate|]. exfalso. apply Hgo; [|reflexivity | reflexivity].
    intros x Hx. apply pi_incl in Hx. eapply succs_nodes; exact Hx.
Qed.

Definition top_inv (ts : tstate) : Prop :=
  t_temp ts = [] /\ incl (t_unmarked ts) nodes /\ (forall x, In x (t_unmarked ts) -> ~ In x (t_perm ts)).

Lemma topo_loop_total fuel vfuel : forall ts,
  top_inv ts -> (length (t_unmarked ts) < fuel)%nat -> (vfuel > length nodes)%nat ->
  topo_loop fuel vfuel pi g ts <> None.
Proof.
  induction fuel as [|fuel IH]; intros ts [J1 [J2 J3]] Hf Hv; [lia|].
  rewrite topo_loop_S. destruct (t_unmarked ts) as [|u0 us] eqn:Eu; [discriminate|].
  rewrite <- Eu in *.
  destruct (pi (t_ctr ts) (t_unmarked ts)) as [|n r] eqn:Ep.
  { pose proof (Permutation_length (Hpi (t_ctr ts) (t_unmarked ts))) as Hl. rewrite Ep, Eu in Hl. discriminate. }
  cbn [hd].
  assert (Hn : In n (t_unmarked ts)) by (apply (pi_incl (t_ctr ts)); rewrite Ep; left; reflexivity).
  assert (Hvis : visit vfuel pi g n (tick ts) <> None).
  { apply visit_total; cbn [tick t_temp]; rewrite ?J1.
    - constructor.
    - intros x [].
    - apply J2. exact Hn.
    - cbn [length]. lia. }
  destruct (visit vfuel pi g n (tick ts)) as [ts2|] eqn:Ev; [|congruence].
  (* visit has struck n off the unmarked list, so the measure of the loop drops *)
  assert (Hshrink : (length (t_unmarked ts2) < length (t_unmarked ts))%nat /\ top_inv ts2).
  { pose proof (visit_vrel vfuel n _ ts2 Ev) as [A1 [[h A2] A3]]. cbn [tick t_temp t_unmarked t_perm] in *.
    assert (Hnp : ~ In n (t_unmarked ts2)).
    { apply (visit_unmarks vfuel n _ ts2 Ev). cbn [tick t_perm t_temp]. rewrite J1.
      rewrite (proj2 (mem_not_In n (t_perm ts)) (J3 n Hn)). reflexivity. }
    split.
    - rewrite A2. apply (filter_length_lt h _ n Hn).
      destruct (h n) eqn:Eh; [|reflexivity]. exfalso. apply Hnp. rewrite A2. apply filter_In. split; assumption.
    - split; [congruence|]. split.
      + intros x Hx. rewrite A2 in Hx. apply filter_In in Hx. apply J2. apply Hx.
      + intros x Hx Hp. destruct (A3 x Hp) as [Ha|Ha]; [|contradiction].
        rewrite A2 in Hx. apply filter_In in Hx. apply (J3 x); [apply Hx | exact Ha]. }
  destruct Hshrink as [Hlt Hinv]. apply IH; [exact Hinv | lia | exact Hv].
Qed.

End Topo.

Lemma topo_sort_total pi (Hpi : perm_oracle pi) g : topo_sort pi g <> None.
Proof.
  unfold topo_sort. destruct g as [|e r] eqn:Eg; [discriminate|]. rewrite <- Eg.
  destruct (topo_loop _ _ pi g _) as [ts|] eqn:E; [discriminate|]. exfalso. revert E.
  apply topo_loop_total; [exact Hpi | | |].
  - split; [reflexivity|]. split; [|intros x _ []].
    intros x Hx. apply keys_nodes. apply (pi_incl pi Hpi 0%nat). exact Hx.
  - cbn [t_unmarked]. rewrite (Permutation_length (Hpi 0%nat (map fst g))). pose proof (keys_length_gen g). lia.
  - lia.
Qed.

Theorem ordered_funcs_total pi P : perm_oracle pi -> ordered_funcs pi P <> None.
Proof.
  intros Hpi. unfold ordered_funcs. pose proof (topo_sort_total pi Hpi (call_graph P)) as H.
  destruct (topo_sort pi (call_graph P)) as [[sorted ctr]|]; [discriminate | congruence].
Qed.

(* the model's own fuel never runs out *)
Theorem resolve_cut_no_fuel cut pi P : perm_oracle pi -> resolve_cut cut pi P <> RFuel.
Proof.
  intros Hpi. unfold resolve_cut. destruct (first_dup [] (fnames P)); [discriminate|].
  pose proof (ordered_funcs_total pi P Hpi) as H.
  destruct (ordered_funcs pi P) as [order|]; [apply resolve_order_safe | congruence].
Qed.
