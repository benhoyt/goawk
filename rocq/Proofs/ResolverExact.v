(* C16: a program that meets the precondition is rejected only for a type error
   or by the iteration limit; with soundness and completeness this is exactness,
   first for a given order of the functions ([resolve_order]), then for the
   resolver that orders them itself ([resolve_cut]). *)
From Verif Require Import Lib.Base Model.Resolver Proofs.Resolver Proofs.ResolverSound.
From Coq Require Import Permutation.
Open Scope Z_scope.

Definition names_ok (P : program) : Prop := forall fd, In fd (p_funcs P) -> f_name fd <> [].

(* neither a name-clash/arity/undefined-function error, nor a Go panic, nor out of fuel *)
Definition clean {A} (r : rres A) : Prop :=
  match r with
  | ROk _ => True
  | RErr e => is_type_error e = true \/ e = ETooManyIter
  | _ => False
  end.

Section Clean.
Variable P : program.

Lemma record_var_clean s cur v typ :
  inv P (st_vars s) -> global_ok P cur v = true -> clean (record_var P s cur v typ).
Proof.
  intros Hi Hg. destruct (record_var_out P s cur v typ) as [| | |El Hc|]; cbn [clean]; auto.
  (* the clash with a function name: the variable is a new global, which [global_ok] excludes *)
  exfalso. rewrite (lookup_spec P _ cur v Hi) in El. cbv zeta in El.
  destruct (kspecial (scope_key P cur v)) eqn:Ek; [discriminate El|].
  destruct (get (st_vars s) (scope_key P cur v)) eqn:G; [discriminate El|].
  pose proof (absent_global P _ cur v Hi G) as Hk. rewrite Hk, kspecial_gk in Ek.
  unfold global_ok in Hg. rewrite Hc, Ek in Hg. unfold scope_key in Hk.
  destruct (negb (is_empty cur) && mem v (params_of P cur)) eqn:Eloc; [|discriminate Hg].
  injection Hk as ->. discriminate Eloc.
Qed.

Lemma global_ok_param (f p : name) : f <> [] -> In p (params_of P f) -> global_ok P f p = true.
Proof.
  intros Hf Hp. unfold global_ok. apply is_empty_false in Hf. rewrite Hf. apply mem_In in Hp. rewrite Hp. reflexivity.
Qed.

Lemma visit_step_clean cur s st :
  names_ok P -> inv P (st_vars s) -> wf_step P cur st = true -> clean (visit_step P cur s st).
Proof.
  intros Hnonempty Hi Hw. destruct st as [v t|f nargs|f i|f i v]; cbn [visit_step wf_step] in *.
  - apply record_var_clean; assumption.
  - apply andb_true_iff in Hw. destruct Hw as [Hl Hw]. apply negb_true_iff in Hl.
    rewrite (call_local_static P _ cur f Hi), Hl.
    destruct (func_info P f) as [fi|]; [|discriminate].
    destruct (fi_native fi).
    + destruct (find_native (p_natives P) f) as [nt|]; [|discriminate].
      apply andb_true_iff in Hw. destruct Hw as [Hfn Hw]. rewrite Hfn. cbn [negb].
      apply negb_true_iff in Hw. rewrite Hw. exact I.
    + apply negb_true_iff in Hw. rewrite Hw. exact I.
  - unfold arg_ok in Hw. destruct (func_info P f) as [fi|]; [|discriminate].
    destruct (fi_native fi); [exact I|]. cbn [orb] in Hw.
    destruct (nth_error (fi_params fi) i) as [p|]; [|discriminate].
    destruct (get_or_unknown (st_vars s) (f, p)); cbn [clean]; auto.
  - apply andb_true_iff in Hw. destruct Hw as [Ha Hg]. unfold arg_ok in Ha.
    destruct (func_info P f) as [fi|] eqn:Efi; [|discriminate].
    destruct (fi_native fi) eqn:En; [apply record_var_clean; assumption|]. cbn [orb] in Ha.
    destruct (nth_error (fi_params fi) i) as [p|] eqn:Ep; [|discriminate].
    destruct (func_info_awk P Hnonempty f fi Efi En) as [Hf [Hpar _]].
    assert (Hpin : In p (params_of P f)) by (rewrite <- Hpar; eapply nth_error_In; eassumption).
    destruct (_ && _); [apply record_var_clean; assumption|].
    destruct (_ && _); [apply record_var_clean; [assumption | apply global_ok_param; assumption]|].
    destruct (_ && _ && _); [cbn [clean]; auto|]. apply record_var_clean; assumption.
Qed.

(* [sound] and [clean] together, for a program that meets the precondition *)
Notation cleanly := (good (state_ok P) grows (fun e => is_type_error e = true \/ e = ETooManyIter) False False).

Lemma sound_clean s r : sound P s r -> clean r -> cleanly s r.
Proof. destruct r; cbn [good clean]; auto. Qed.

Hypothesis W : wf_props (wf_step P) P.

Lemma steps_cleanly cur l s :
  Forall (step_in P cur) l -> forallb (wf_step P cur) l = true -> state_ok P s -> cleanly s (run_steps P cur l s).
Proof.
  destruct W as [_ [Hne _]]. intros Hin Hw.
  apply (run_steps_good P _ _ _ _ _ grows_refl grows_trans (fun cur st => step_in P cur st /\ wf_step P cur st = true)).
  - intros c st s1 [Hst Hwst] Hok. apply sound_clean; [apply visit_step_sound | apply visit_step_clean]; try assumption.
    apply Hok.
  - rewrite forallb_forall in Hw. rewrite Forall_forall in *. auto.
Qed.

Lemma body_cleanly fd s :
  In fd (p_funcs P) -> state_ok P s -> cleanly s (run_steps P (f_name fd) (flat_events (f_body fd)) s).
Proof. intros Hfd. apply steps_cleanly; [apply body_steps_in | apply W]; exact Hfd. Qed.

Lemma main_cleanly s : state_ok P s -> cleanly s (run_steps P [] (flat_events (p_main P)) s).
Proof. apply steps_cleanly; [apply main_steps_in | apply W]. Qed.

Lemma record_builtin_cleanly v s :
  In v [n_ARGV; n_ENVIRON; n_FIELDS] -> state_ok P s -> cleanly s (record_var P s [] v TArray).
Proof.
  intros Hv Hok. apply sound_clean; [apply record_builtin_sound; assumption|].
  apply record_var_clean; [apply Hok|]. unfold global_ok.
  destruct W as [_ [_ [[B1 [B2 B3]] _]]]. cbn [In] in Hv.
  destruct Hv as [<-|[<-|[<-|[]]]]; [rewrite B1 | rewrite B2 | rewrite B3]; apply orb_true_r.
Qed.

Lemma resolve_order_clean cut order : clean (resolve_order cut order P).
Proof.
  destruct W as [Hnd [Hne _]].
  rewrite resolve_order_eq. unfold finish. rewrite (proj2 (first_dup_nil _) Hnd).
  assert (G : cleanly (start_state P) (passes P order (pass_loop P order cut))).
  { apply (passes_good P _ _ _ _ _ grows_refl grows_trans body_cleanly main_cleanly
             (init_state_ok P Hnd Hne) record_builtin_cleanly).
    intros s3 s4 _ _ Hok4 _.
    apply (pass_loop_good P _ _ _ _ _ grows_refl grows_trans body_cleanly main_cleanly); [right; reflexivity | exact Hok4]. }
  destruct (passes P order (pass_loop P order cut)); exact G || exact I.
Qed.

End Clean.

Lemma resolve_order_nodup cut order P r :
  resolve_order cut order P = r -> (forall f, r <> RErr (EAlreadyDefined f)) -> NoDup (fnames P).
Proof.
  unfold resolve_order. intros H Hr. destruct (first_dup [] (fnames P)) eqn:Ed.
  - exfalso. apply (Hr n). congruence.
  - apply (first_dup_none _ _ Ed).
Qed.

(* SOUND: an accepted program's types solve the constraint system, and the
   compiler's scalarInfo/arrayInfo/array-argument demands are met *)
Theorem resolve_order_sound cut order P F :
  names_ok P -> covers P order ->
  resolve_order cut order P = ROk F ->
  solution P (rho_of (fin_types F)) /\ compile_check P F = true.
Proof.
  intros Hne Hcov H.
  assert (Hnd : NoDup (fnames P)) by (eapply resolve_order_nodup; [exact H | intros f; discriminate]).
  destruct (resolve_order_ok P Hnd Hne cut order F H) as [s [Hacc Hpq]].
  pose proof (pass_quiet_all P Hnd s order Hcov Hpq) as Haq.
  split; [eapply sound_state; eassumption | eapply well_typed_state; eassumption].
Qed.

(* COMPLETE: a type error means the constraints are unsatisfiable *)
Theorem resolve_order_complete cut order P e :
  names_ok P ->
  resolve_order cut order P = RErr e -> is_type_error e = true -> ~ sat P.
Proof.
  intros Hne H He.
  assert (Hnd : NoDup (fnames P)).
  { eapply resolve_order_nodup; [exact H|]. intros f E. injection E as ->. discriminate. }
  eapply complete_order; eassumption.
Qed.

(* EXACT, up to the iteration cut-off *)
Theorem resolve_order_exact cut order P :
  wf P = true -> covers P order ->
  resolve_order cut order P <> RErr ETooManyIter ->
  ((exists F, resolve_order cut order P = ROk F) <-> sat P).
Proof.
  intros Hwf Hcov Hcut. apply wf_spec in Hwf. pose proof Hwf as [Hnd [Hne _]].
  split.
  - intros [F HF]. exists (rho_of (fin_types F)). eapply resolve_order_sound; eassumption.
  - intros Hsat. pose proof (resolve_order_clean P Hwf cut order) as Hc.
    destruct (resolve_order cut order P) as [F|e| |] eqn:E; cbn [clean] in Hc; try contradiction.
    + eauto.
    + exfalso. destruct Hc as [Hc| ->]; [|congruence].
      eapply resolve_order_complete; eassumption.
Qed.

Definition perm_oracle (pi : oracle) : Prop := forall k l, Permutation (pi k l) l.

Lemma ordered_funcs_covers pi P order :
  perm_oracle pi -> ordered_funcs pi P = Some order -> covers P order.
Proof.
  intros Hpi H fd Hfd. unfold ordered_funcs in H.
  destruct (topo_sort pi (call_graph P)) as [[sorted ctr]|]; [|discriminate]. injection H as <-.
  apply in_or_app. destruct (mem (f_name fd) sorted) eqn:E.
  - left. apply mem_In. exact E.
  - right. apply filter_In. split; [|rewrite E; reflexivity].
    eapply Permutation_in; [apply Permutation_sym; apply Hpi|]. unfold fnames. apply in_map. exact Hfd.
Qed.

Lemma resolve_cut_order cut pi P r :
  resolve_cut cut pi P = r -> r <> RFuel ->
  (exists order, ordered_funcs pi P = Some order /\ resolve_order cut order P = r) \/
  (exists f, r = RErr (EAlreadyDefined f)).
Proof.
  unfold resolve_cut. intros H Hr. destruct (first_dup [] (fnames P)) as [f|]; [right; eauto|].
  destruct (ordered_funcs pi P) as [order|]; [left; eauto | congruence].
Qed.

Theorem resolve_sound cut pi P F :
  perm_oracle pi -> names_ok P ->
  resolve_cut cut pi P = ROk F ->
  solution P (rho_of (fin_types F)) /\ compile_check P F = true.
Proof.
  intros Hpi Hne H. destruct (resolve_cut_order cut pi P _ H ltac:(discriminate)) as [[order [Ho Hr]]|[f Hf]]; [|discriminate].
  eapply resolve_order_sound; [exact Hne | eapply ordered_funcs_covers; eassumption | exact Hr].
Qed.

Theorem resolve_complete cut pi P e :
  names_ok P -> resolve_cut cut pi P = RErr e -> is_type_error e = true -> ~ sat P.
Proof.
  intros Hne H He. destruct (resolve_cut_order cut pi P _ H ltac:(discriminate)) as [[order [Ho Hr]]|[f Hf]].
  - eapply resolve_order_complete; eassumption.
  - injection Hf as ->. discriminate.
Qed.

Theorem resolve_exact cut pi P :
  perm_oracle pi -> wf P = true ->
  resolve_cut cut pi P <> RErr ETooManyIter -> resolve_cut cut pi P <> RFuel ->
  ((exists F, resolve_cut cut pi P = ROk F) <-> sat P).
Proof.
  intros Hpi Hwf. unfold resolve_cut.
  rewrite (proj2 (first_dup_nil _) (proj1 (proj1 (wf_spec P) Hwf))).
  destruct (ordered_funcs pi P) as [order|] eqn:Ho; [|congruence].
  intros Hcut _. apply resolve_order_exact; [exact Hwf | eapply ordered_funcs_covers; eassumption | exact Hcut].
Qed.
