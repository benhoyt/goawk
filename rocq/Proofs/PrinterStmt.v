(* C20 — statement level, token argument: print / printf with and without redirection, and the
   expression statement.  PrintStmt.String() drops the parentheses of `print (a, b)` (the parser
   unwraps the MultiExpr), so its arguments are re-read by printExpr(): the guard is that every
   argument respects the table OF THE PRINT TOWER ([fits true 0]: no exposed > , no | getline);
   arguments that only fit expr() are the defect F-C20-2.
   Also: what Stmts.String()'s line-by-line indentation does to the tokens of a statement. *)
From Verif Require Import Lib.Base Gen.Prec Model.ExprAst Model.ExprParser Model.Printer
  Proofs.ExprParserMono Proofs.ExprParserRel Proofs.PrecSpec Proofs.ExprParserPrinted Proofs.ExprParserMin
  Proofs.ExprParserPrint Proofs.PrinterGroup Proofs.PrinterFits Proofs.PrinterRegex.
Local Open Scope nat_scope.

Lemma toks_print_pieces pf args rd dest :
  toks (print_pieces pf args rd dest) =
  (if pf then TPrintf else TPrint) :: commas flat (map gp args)
  ++ match dest with Some d => redir_tok rd :: flat (gp d) | None => [] end.
Proof.
  unfold print_pieces. cbn [toks]. rewrite toks_app, toks_pjoin_pe. f_equal. f_equal.
  destruct dest as [d|]; [|reflexivity]. cbn [toks]. rewrite toks_pe. reflexivity.
Qed.

Lemma last_gp args : forall a d d', last (map gp (a :: args)) d = gp (last (a :: args) d').
Proof. induction args as [|b r IH]; intros a d d'; [reflexivity|]. cbn [map last] in *. apply IH. Qed.

(* a first argument that fits is no MultiExpr, so the parser has nothing to unwrap *)
Lemma unwrap_multi_gp a args : fits true 0 (gp a) ->
  match map gp (a :: args) with [EMulti es] => es | _ => map gp (a :: args) end = map gp (a :: args).
Proof.
  intros Ha. cbn [map]. destruct args; [|cbn [map]; destruct (gp a); reflexivity].
  cbn [map]. destruct (gp a); try reflexivity. contradiction.
Qed.

(* a token that ends a simple statement and is not a redirection *)
Definition stmt_stop (c : tok) : bool :=
  match c with TNewline | TSemicolon | TRBrace | TRParen => true | _ => false end.

Lemma stmt_stop_facts c rest : stmt_stop c = true ->
  exprlist_stop (c :: rest) = true /\ tok_cont true c = 0 /\ tok_cont false c = 0.
Proof. destruct c; try discriminate; intros _; repeat split; reflexivity. Qed.

Lemma print_args a args t tail :
  all_fit (fits true 0) (a :: args) -> exprlist_stop (t :: tail) = true -> tok_cont true t = 0 ->
  ok true (last (a :: args) a) t = true ->
  exists n0, forall n, n0 <= n ->
    exprlist n true true (commas flat (map gp (a :: args)) ++ t :: tail) = POk (map gp (a :: args), t :: tail).
Proof.
  intros Hf Hs Hc Hok.
  destruct (exprlist_all_pc true t tail Hs Hc (gp a) (map gp args)) as [n0 HL].
  - apply all_M.
  - apply (all_fit_gp true 0 (a :: args) Hf).
  - rewrite (last_gp args a _ a). apply ok_gp, Hok.
  - exists n0. intros n Hn. exact (exprlist_mono n0 n Hn _ _ _ _ HL).
Qed.

Lemma parse_gp_stmt e c rest : fits false 0 e -> stmt_stop c = true ->
  exists n0, forall n, n0 <= n -> p_lv n LExpr false None (flat (gp e) ++ c :: rest) = POk (gp e, c :: rest).
Proof.
  intros Hf Hc. destruct (stmt_stop_facts c rest Hc) as (_ & _ & Hcf).
  apply parse_printed; [apply fits_gp, Hf | apply ok_zero, Hcf | congruence | cbn [hd_tok rk]; lia].
Qed.

(* print a1, .., an   (no redirection) *)
Theorem print_stmt_tokens : forall pf a args c rest,
  all_fit (fits true 0) (a :: args) -> stmt_stop c = true ->
  exists n0, forall n, n0 <= n ->
    p_simple_stmt n (toks (print_pieces pf (a :: args) RNone None) ++ c :: rest)
    = POk (TopPrint pf RNone None (map gp (a :: args)), c :: rest).
Proof.
  intros pf a args c rest Hf Hc.
  destruct (stmt_stop_facts c rest Hc) as (Hstop & Hct & Hcf).
  destruct (print_args a args c rest Hf Hstop Hct (ok_zero _ _ _ Hcf)) as [n0 HL].
  exists n0. intros n Hn. rewrite toks_print_pieces, app_nil_r.
  destruct pf; cbn [p_simple_stmt app]; rewrite (HL n Hn); cbn [pbind];
    rewrite (unwrap_multi_gp a args (fits_gp _ _ _ (proj1 Hf)));
    (destruct c; try discriminate Hc; cbn [pbind map]; reflexivity).
Qed.

(* print a1, .., an > dest   (>, >> or |): dest is not parenthesised by the printer; the guard
   [ok true (last args) (redirection token)] is C04's: the last argument must not end in an
   unparenthesised ?: (F-C04-1/2) *)
Theorem print_redirect_tokens : forall pf a args rd dest c rest,
  all_fit (fits true 0) (a :: args) -> rd <> RNone -> fits false 0 dest ->
  ok true (last (a :: args) a) (redir_tok rd) = true ->
  stmt_stop c = true ->
  exists n0, forall n, n0 <= n ->
    p_simple_stmt n (toks (print_pieces pf (a :: args) rd (Some dest)) ++ c :: rest)
    = POk (TopPrint pf rd (Some (gp dest)) (map gp (a :: args)), c :: rest).
Proof.
  intros pf a args rd dest c rest Hf Hrd Hd Hok Hc.
  set (tail := flat (gp dest) ++ c :: rest).
  assert (Hrt : exprlist_stop (redir_tok rd :: tail) = true /\ tok_cont true (redir_tok rd) = 0)
    by (destruct rd; try congruence; split; reflexivity).
  destruct (print_args a args _ tail Hf (proj1 Hrt) (proj2 Hrt) Hok) as [n1 HL].
  destruct (parse_gp_stmt dest c rest Hd Hc) as [n2 HD].
  exists (Nat.max n1 n2). intros n Hn.
  rewrite toks_print_pieces. cbn [app]. rewrite <- app_assoc. cbn [app]. fold tail.
  destruct pf; cbn [p_simple_stmt app]; rewrite (HL n) by lia; cbn [pbind];
    rewrite (unwrap_multi_gp a args (fits_gp _ _ _ (proj1 Hf))); unfold tail;
    (destruct rd; try congruence; cbn [redir_tok pbind]; rewrite (HD n) by lia; cbn [pbind map]; reflexivity).
Qed.

Theorem expr_stmt_tokens : forall e c rest,
  fits false 0 e -> stmt_stop c = true ->
  (match pe e with PT TPrint :: _ | PT TPrintf :: _ => False | _ => True end) ->
  exists n0, forall n, n0 <= n ->
    p_simple_stmt n (toks (pe e) ++ c :: rest) = POk (TopExpr (gp e), c :: rest).
Proof.
  intros e c rest Hf Hc _.
  destruct (parse_gp_stmt e c rest Hf Hc) as [n0 HD].
  exists n0. intros n Hn. rewrite toks_pe.
  pose proof (flat_start _ _ _ (fits_gp _ _ _ Hf)) as Hst. unfold first_tok in Hst.
  destruct (flat (gp e)) as [|t ts] eqn:Efl; [discriminate|].
  specialize (HD n Hn). cbn [hd_tok] in Hst.
  cbn [app] in *. unfold p_simple_stmt.
  destruct t; try discriminate Hst; rewrite HD; reflexivity.
Qed.

(* the unguarded print statement is false on the faithful model: print (1, 2 > 1) *)
Definition print_stmt_full_statement : Prop :=
  forall pf a args c rest,
  all_fit (fits false 0) (a :: args) -> stmt_stop c = true ->
  exists n0, forall n, n0 <= n ->
    p_simple_stmt n (toks (print_pieces pf (a :: args) RNone None) ++ c :: rest)
    = POk (TopPrint pf RNone None (map gp (a :: args)), c :: rest).

Definition w_one : expr := ENum [49%Z].
Definition w_gt : expr := EBinary BGt (ENum [50%Z]) (ENum [49%Z]).

Lemma w_print_multi_computed :
  p_simple_stmt 200 (toks (print_pieces false [w_one; w_gt] RNone None) ++ [TNewline])
  = POk (TopPrint false RGreater (Some (ENum [49%Z])) [ENum [49%Z]; ENum [50%Z]], [TNewline]).
Proof. vm_compute. reflexivity. Qed.

Theorem print_stmt_refuted : ~ print_stmt_full_statement.
Proof.
  intros H.
  destruct (H false w_one [w_gt] TNewline []) as [n0 Hn].
  - cbn. repeat split; try lia; try reflexivity; try discriminate.
  - reflexivity.
  - pose proof (Hn (Nat.max n0 200) (Nat.le_max_l _ _)) as H1.
    pose proof (p_simple_stmt_stable 200 (Nat.max n0 200) _ _ (Nat.le_max_r _ _) w_print_multi_computed ltac:(discriminate)) as H2.
    rewrite H2 in H1. discriminate.
Qed.

(* Stmts.String(): indentation acts on the rendered text *)
Definition no_newline_literal (p : piece) : bool :=
  match p with
  | PT (TRegex s) | PT (TName s) | PT (TNumber s) => forallb (fun b => negb (b =? 10)%Z) s
  | _ => true
  end.

Fixpoint drop_newlines (ts : list tok) : list tok :=
  match ts with [] => [] | TNewline :: r => drop_newlines r | t :: r => t :: drop_newlines r end.

Lemma indent_piece_id p : no_newline_literal p = true ->
  match p with PT TNewline => True | _ => indent_piece p = [p] end.
Proof.
  destruct p as [t|]; [|reflexivity]. destruct t; try reflexivity; cbn [no_newline_literal indent_piece]; intros H;
    rewrite (indent_bytes_id _ H); reflexivity.
Qed.

(* the tokens of an indented statement are the statement's tokens, provided no literal text holds
   a newline byte (regex /a\<newline>b/: F-C20-5) *)
Theorem indent_keeps_tokens : forall ps, forallb no_newline_literal ps = true ->
  toks (flat_map indent_piece ps) = toks ps.
Proof.
  induction ps as [|p ps IH]; [reflexivity|]. cbn [forallb flat_map]. intros H. apply andb_prop in H as [Hp Hps].
  rewrite toks_app, (IH Hps). pose proof (indent_piece_id p Hp) as Hid.
  destruct p as [t|]; [|reflexivity].
  destruct t; try (rewrite Hid; reflexivity). reflexivity.
Qed.

Definition indent_full_statement : Prop := forall ps, toks (flat_map indent_piece ps) = toks ps.

Theorem indent_refuted : ~ indent_full_statement.     (* y = /a\<newline>b/ inside a block *)
Proof. intros H. specialize (H [PT (TRegex [97; 92; 10; 98]%Z)]). vm_compute in H. discriminate. Qed.
