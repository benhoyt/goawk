(* C13 proofs: the close status table, one name = one stream, and a failed
   Flush of a buffered Output surfacing at the next print. *)
From Verif Require Import Lib.Base Model.Streams Proofs.StreamsBase Proofs.StreamsSpec Proofs.StreamsStdout Proofs.StreamsTrace.

(* iostream.go waitExitCode *)
Definition wait_code (w : wstatus) : Z :=
  match w with Exited e => e | Signaled sg => 256 + sg | CoreDumped sg => 512 + sg | WaitIOErr => -1 end.

Lemma wait_result_table w : fst (wait_result w false) = wait_code w.
Proof. destruct w; cbn; auto. rewrite andb_false_r. auto. Qed.

(* what close(n) returns, by what n denotes at that moment *)
Definition close_code (E : env) (s : state) (n : name) : Z :=
  match alookup n (st_ins s) with
  | Some i => if is_cmd i then wait_code (c_exit (e_spec E n)) else 0
  | None =>
      match alookup n (st_outs s) with
      | Some o => match os_kind o with KFile => 0 | KCmd => wait_code (c_exit (e_spec E n)) end
      | None => -1
      end
  end.

Lemma flush_ostream_kind E s n o : os_kind (snd (flush_ostream E s n o)) = os_kind o.
Proof.
  unfold flush_ostream. destruct (deliver_shape E s n o (os_buf o)) as (_ & _ & H & _). destruct (deliver _ _ _ _ _) as [s1 o1].
  cbn [snd os_kind] in *. auto.
Qed.

Lemma close_ostream_code E s n o : snd (fst (close_ostream E s n o)) =
  match os_kind o with
  | KFile => 0
  | KCmd => fst (wait_result (c_exit (e_spec E n)) (os_cgfail (snd (flush_ostream E s n o))))
  end.
Proof.
  unfold close_ostream. pose proof (flush_ostream_kind E s n o) as Hk.
  destruct (flush_ostream E s n o) as [s1 o1]. cbn [snd] in *. rewrite Hk. destruct (os_kind o); [reflexivity|].
  unfold child_eof. rewrite negb_involutive. destruct (wait_result _ _). reflexivity.
Qed.

Theorem close_status E s n s' oc : good E s -> step E s (Close n) = (s', oc) ->
  oc = Running /\ exists rest, st_obs s' = ORet (close_code E s n) :: rest.
Proof.
  intros Hg. unfold close_code. cbn [step]. destruct (alookup n (st_ins s)) as [i|].
  - destruct (is_cmd i).
    + pose proof (wait_result_table (c_exit (e_spec E n))) as Hw. destruct (wait_result _ false) as [code err]. cbn [fst] in Hw. subst code.
      intros H; injection H as <- <-. split; auto. cbn [st_obs add_obs]. eauto.
    + intros H; injection H as <- <-. split; auto. cbn [st_obs add_obs]. eauto.
  - destruct (alookup n (st_outs s)) as [os|] eqn:El.
    + pose proof (close_ostream_code E (set_outs s (aremove n (st_outs s))) n os) as Hc.
      rewrite (flush_ostream_good E s n os Hg El) in Hc.
      destruct (close_ostream E _ n os) as [[s1 code] err]. cbn [fst snd] in Hc.
      intros H; injection H as <- <-. split; auto. cbn [st_obs add_obs]. eexists.
      f_equal. f_equal. rewrite Hc. destruct (os_kind os); auto. apply wait_result_table.
    + intros H; injection H as <- <-. split; auto. cbn [st_obs add_obs]. eauto.
Qed.

(* close() of a command stream, whatever happens to the final Flush of goawk's
   buffered data into the command's stdin (EPIPE because the command has closed
   or never read its stdin, an earlier sticky error, nothing buffered) and
   whatever state standard output is in: Close always goes on to Wait for the
   command, logs that (EvClose) and returns the command's own exit status;
   -1 only as waitExitCode says (I/O error of Wait, or a command that exited 0
   whose stdout copy failed). *)
Theorem close_cmd_waits_and_reports E s n os s' oc :
  alookup n (st_ins s) = None -> alookup n (st_outs s) = Some os -> os_kind os = KCmd ->
  step E s (Close n) = (s', oc) ->
  oc = Running /\
  exists copy_failed rest l,
    let code := fst (wait_result (c_exit (e_spec E n)) copy_failed) in
    st_obs s' = ORet code :: rest /\ st_log s' = EvClose n false code :: l.
Proof.
  intros Hi Ho Hk. cbn [step]. rewrite Hi, Ho. unfold close_ostream.
  pose proof (flush_ostream_kind E (set_outs s (aremove n (st_outs s))) n os) as Hk1.
  destruct (flush_ostream E _ n os) as [s1 o1]. cbn [snd] in Hk1. rewrite Hk1, Hk.
  destruct (child_eof E s1 (os_cgfail o1)) as [s2 ok].
  destruct (wait_result (c_exit (e_spec E n)) (negb ok)) as [code err] eqn:Ew.
  intros H; injection H as <- <-. split; auto.
  exists (negb ok), (st_obs (if err || os_err o1 then print_errorf E (add_log s2 (EvClose n false code)) else add_log s2 (EvClose n false code))),
         (st_log s2).
  rewrite Ew. cbn [fst st_obs st_log add_obs]. split; auto.
  destruct (err || os_err o1); [unfold print_errorf; rewrite (proj1 (flush_stdout_log E _))|]; reflexivity.
Qed.

(* in particular: a non-zero exit status, a signal or a core dump is always reported as such *)
Theorem close_cmd_status_nonzero E s n os s' oc :
  alookup n (st_ins s) = None -> alookup n (st_outs s) = Some os -> os_kind os = KCmd ->
  c_exit (e_spec E n) <> Exited 0 ->
  step E s (Close n) = (s', oc) ->
  exists rest, st_obs s' = ORet (wait_code (c_exit (e_spec E n))) :: rest.
Proof.
  intros Hi Ho Hk Hne Hs. destruct (close_cmd_waits_and_reports _ _ _ _ _ _ Hi Ho Hk Hs) as (_ & cf & rest & l & Hobs & _).
  exists rest. rewrite Hobs. f_equal. f_equal. destruct (c_exit (e_spec E n)) as [e| | |]; cbn; auto.
  destruct (e =? 0) eqn:E0; auto. apply Z.eqb_eq in E0. subst. congruence.
Qed.

(* while a stream is open for n, every print to n -- whether written > n,
   >> n or | n -- goes to that stream: nothing is opened, nothing is truncated *)
Theorem one_stream_per_name E s n r r' ps : amem n (st_outs s) = true ->
  step E s (Print (DRedir r n) ps) = step E s (Print (DRedir r' n) ps).
Proof.
  intros H. cbn [step]. unfold step_print, get_output_stream. rewrite H. reflexivity.
Qed.

(* and such a print adds nothing to the log but the write itself *)
Theorem print_to_open_stream E s n r ps os : amem n (st_ins s) = false -> alookup n (st_outs s) = Some os ->
  exists s' os', step E s (Print (DRedir r n) ps) = (set_outs s' (aset n os' (st_outs s')), if os_err os' then Fail else Running) /\
    write_ostream E (add_log s (EvWrite (match os_kind os with KFile => WFile n | KCmd => WCmd n end) (concat ps))) n os (concat ps) = (s', os').
Proof.
  intros Hi Ho. cbn [step]. unfold step_print, get_output_stream, amem at 2. rewrite Hi, Ho. rewrite Ho.
  destruct (write_ostream E _ n os (concat ps)) as [s' os'] eqn:Ew. eauto.
Qed.

(* buffered Output: once a Flush has failed, the next print to standard output fails the run *)
Theorem write_failure_after_failed_flush E cap s ps ops :
  e_mode E = Buf cap -> bw_err (st_out s) = true -> ps <> [] ->
  snd (run E s (Print DStdout ps :: ops)) = RError.
Proof.
  intros Hm He Hp. unfold run. cbn [exec step]. unfold step_print. cbn [get_output_stream].
  unfold write_stdout. rewrite Hm.
  assert (Ht : st_out (add_log (touch E s) (EvWrite WStdout (concat ps))) = st_out s).
  { cbn [st_out add_log]. apply touch_fields. }
  rewrite Ht. destruct ps as [|p ps]; [contradiction|]. cbn [write_pieces_buf]. unfold bw_write_string. rewrite He. reflexivity.
Qed.
