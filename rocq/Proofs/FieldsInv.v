(* C06, part 2: invariants of the record state and the specification of every operation,
   for ALL operation sequences, texts, separators and index values.
   The regular-expression engine is a Section variable; the only thing assumed of it is
   that FindAllStringIndex returns its matches in order and inside the text. *)
From Verif Require Import Lib.Base Lib.Dyadic Lib.Utf8 Lib.Regex Gen.Consts Model.Fields Proofs.FieldsObs Proofs.FieldsSplit.

Definition nf_trunc (v : value) : option Z :=
  match vnum v with FFin m e => Some (ftrunc m e) | _ => None end.

Lemma ftrunc_int n : ftrunc n 0 = n.
Proof. unfold ftrunc. cbn [Z.leb Z.compare]. rewrite Z.pow_0_r. lia. Qed.

Lemma nf_trunc_count n : nf_trunc (count_value n) = Some n.
Proof. unfold nf_trunc, count_value. cbn [vnum]. rewrite ftrunc_int. reflexivity. Qed.

Lemma f2i64_nonneg x : 0 <= f2i64 x -> exists m e, x = FFin m e /\ ftrunc m e = f2i64 x.
Proof.
  destruct x as [|s|m e]; cbn [f2i64]; unfold two63; try lia.
  intros H. exists m, e. split; [reflexivity|].
  destruct (in_i64 (ftrunc m e)); [reflexivity|lia].
Qed.

Lemma f2i64_int n : in_i64 n = true -> f2i64 (FFin n 0) = n.
Proof. intros H. cbn [f2i64]. rewrite ftrunc_int, H. reflexivity. Qed.

Lemma zlen_length {A B} (a : list A) (b : list B) : length a = length b <-> zlen a = zlen b.
Proof. unfold zlen. lia. Qed.

Lemma list_set_ok {A} (l : list A) i v :
  0 <= i < zlen l -> list_set l i v = Ok (ztake i l ++ v :: zdrop (i + 1) l).
Proof.
  intros H. unfold list_set. destruct (Z.leb_spec 0 i), (Z.ltb_spec i (zlen l)); try lia. reflexivity.
Qed.

Lemma zlen_list_set {A} (l : list A) i v : 0 <= i < zlen l -> zlen (ztake i l ++ v :: zdrop (i + 1) l) = zlen l.
Proof.
  intros H. rewrite zlen_app, zlen_cons, zlen_ztake, zlen_zdrop by lia. lia.
Qed.

Section Inv.
Variable rx : Type.
Variable all_matches : rx -> bytes -> list (Z * Z).
(* FindAllStringIndex: successive matches, in order, within the text *)
Hypothesis am_sorted : forall r s, matches_sorted 0 (zlen s) (all_matches r s).

Local Notation state := (state rx).
Local Notation ensure := (ensure_fields rx all_matches).
Local Notation getf := (get_field rx all_matches).
Local Notation setf := (set_field rx all_matches).
Local Notation setnf := (set_nf rx all_matches).
Local Notation exec := (exec_op rx all_matches).
Local Notation runs := (run rx all_matches).
Local Notation split_rec := (split_record rx all_matches).
Local Notation ensure_have := (ensure_have rx all_matches).
Local Notation ensure_core := (ensure_core rx all_matches).
Local Notation ensure_of_have := (ensure_of_have rx all_matches).

(* Once the record has been split: the two parallel slices have one length and
   int(NF) is the number of fields; a regex is there whenever FS is to be used as one. *)
Definition Inv (s : state) : Prop :=
  (have rx s = true ->
     zlen (fields_true rx s) = zlen (fields rx s) /\ nf_trunc (nf rx s) = Some (zlen (fields rx s)))
  /\ (rune_count (saved_fs rx s) > 1 -> saved_re rx s <> None)
  /\ (rune_count (fs rx s) > 1 -> fs_re rx s <> None).

Lemma Inv_init : Inv (init rx).
Proof.
  unfold Inv, init. proj. repeat split; try discriminate.
  all: vm_compute; intros H; discriminate H.
Qed.

Lemma Inv_lengths s : Inv s -> have rx s = true -> zlen (fields_true rx s) = zlen (fields rx s).
Proof. intros (H & _) Hh. exact (proj1 (H Hh)). Qed.

Lemma split_record_ok sfs sre im rsep ln :
  (rune_count sfs > 1 -> sre <> None) ->
  split_rec sfs sre im rsep ln = Unmod \/ exists fl, split_rec sfs sre im rsep ln = Ok fl.
Proof.
  intros Hre. unfold split_record.
  destruct (is_default im) eqn:Ed; cbn [negb]; [|left; reflexivity].
  right.
  assert (exists f0, (if bytes_eqb sfs [32] then Ok (split_blanks ln)
                      else if is_nil ln then Ok []
                      else if rune_count sfs <=? 1 then Ok (strings_split ln sfs)
                      else match sre with
                           | None => Panic
                           | Some r => split_re_go ln (all_matches r ln) 0
                           end) = Ok f0) as [f0 Hf0].
  { destruct (bytes_eqb sfs [32]); [eexists; reflexivity|].
    destruct (is_nil ln); [eexists; reflexivity|].
    destruct (rune_count sfs <=? 1) eqn:E1; [eexists; reflexivity|].
    apply Z.leb_gt in E1. destruct sre as [r|]; [|exfalso; apply Hre; [lia|reflexivity]].
    destruct (split_re_rebuild ln (all_matches r ln) (am_sorted r ln)) as (fl & H1 & _).
    exists fl. exact H1. }
  rewrite Hf0. cbn [rbind andb].
  destruct (is_nil rsep && (rune_count sfs =? 1)); eexists; reflexivity.
Qed.

Lemma ensure_no_panic s : Inv s -> ensure s <> Panic.
Proof.
  intros (_ & H2 & _). unfold ensure_fields. destruct (have rx s); [discriminate|].
  destruct (split_record_ok _ _ (saved_inmode rx s) (saved_rs rx s) (line rx s) H2) as [->|[fl ->]]; discriminate.
Qed.

Lemma Inv_ensure s s1 : Inv s -> ensure s = Ok s1 -> Inv s1.
Proof.
  intros HI He. unfold ensure_fields in He. destruct (have rx s).
  - injection He as <-. exact HI.
  - apply rbind_ok in He as (fl & _ & He). injection He as <-. destruct HI as (_ & H2 & H3).
    unfold Inv. proj. split; [|split; assumption]. intros _. split.
    + unfold zlen. rewrite map_length. reflexivity.
    + apply nf_trunc_count.
Qed.

Lemma Inv_with_fields s fl tl v :
  Inv s -> zlen tl = zlen fl -> nf_trunc v = Some (zlen fl) -> Inv (with_fields rx s fl tl v).
Proof. intros (_ & H2 & H3) Hl Hv. unfold Inv, with_fields. proj. auto. Qed.

(* the field an index denotes in a list of fields: positive from the front, negative from
   the end, "" outside *)
Definition field_at (fl : list bytes) (i : Z) : bytes :=
  let j := if i <? 1 then zlen fl + 1 + i else i in
  if j <? 1 then [] else nth (Z.to_nat (j - 1)) fl [].

Lemma get_field_spec s s1 i :
  Inv s -> ensure s = Ok s1 -> i <> 0 ->
  exists t, getf s i = Ok (s1, field_at (fields rx s1) i, t).
Proof.
  intros HI He Hi. pose proof (Inv_lengths s1 (Inv_ensure _ _ HI He) (ensure_have _ _ He)) as Hlen.
  unfold get_field, field_at. destruct (Z.eqb_spec i 0); [contradiction|]. rewrite He. cbn [rbind].
  set (j := if i <? 1 then zlen (fields rx s1) + 1 + i else i).
  destruct (Z.ltb_spec j 1); [eexists; reflexivity|].
  destruct (Z.gtb_spec j (zlen (fields rx s1))) as [Hj|Hj].
  - rewrite nth_overflow by (unfold zlen in Hj; lia). eexists; reflexivity.
  - destruct (index_ok (fields_true rx s1) (j - 1) ltac:(lia)) as (t & -> & _).
    destruct (index_ok (fields rx s1) (j - 1) ltac:(lia)) as (f & -> & Hn).
    cbn [rbind]. exists t. rewrite (nth_error_nth _ _ _ Hn). reflexivity.
Qed.

Lemma get_field_zero s : getf s 0 = Ok (s, line rx s, line_true rx s).
Proof. reflexivity. Qed.

Lemma get_field_no_panic s k : Inv s -> getf s k <> Panic.
Proof.
  intros HI. destruct (Z.eq_dec k 0) as [->|Hk]; [discriminate|].
  destruct (ensure s) as [s1| | |] eqn:He.
  - destruct (get_field_spec s s1 k HI He Hk) as (t & ->). discriminate.
  - unfold get_field. destruct (Z.eqb_spec k 0); [contradiction|]. rewrite He. discriminate.
  - exact (False_ind _ (ensure_no_panic s HI He)).
  - unfold get_field. destruct (Z.eqb_spec k 0); [contradiction|]. rewrite He. discriminate.
Qed.

(* pad with empty fields up to position i, then replace position i *)
Definition put (fl : list bytes) (i : Z) (t : bytes) : list bytes :=
  let padded := fl ++ repeat [] (Z.to_nat (i - zlen fl)) in
  ztake (i - 1) padded ++ t :: zdrop i padded.

Lemma zlen_put fl i t : 1 <= i -> zlen (put fl i t) = Z.max (zlen fl) i.
Proof.
  intros Hi. unfold put.
  set (padded := fl ++ repeat [] (Z.to_nat (i - zlen fl))).
  assert (zlen padded = Z.max (zlen fl) i) as Hp.
  { unfold padded. rewrite zlen_app, zlen_repeat. pose proof (zlen_nonneg fl). lia. }
  replace i with ((i - 1) + 1) at 2 by lia.
  rewrite zlen_list_set by lia. exact Hp.
Qed.

Lemma set_field_zero s t : setf s 0 t = Ok (set_line rx s t true).
Proof. reflexivity. Qed.

Lemma set_field_too_large s i t :
  i > maxFieldIndex -> setf s i t = Err (msg_field_too_large ++ dec_of_Z i).
Proof.
  intros H. unfold set_field.
  destruct (Z.eqb_spec i 0); [unfold maxFieldIndex in H; lia|].
  destruct (Z.gtb_spec i maxFieldIndex); [reflexivity|lia].
Qed.

Lemma set_field_ensure s k t :
  k <> 0 -> k <= maxFieldIndex -> setf s k t = do s1 <- ensure s; setf s1 k t.
Proof.
  intros Hk Hm. unfold set_field.
  destruct (Z.eqb_spec k 0); [contradiction|]. destruct (Z.gtb_spec k maxFieldIndex); [lia|].
  destruct (ensure s) as [s1| | |] eqn:He; cbn [rbind]; [rewrite (ensure_idem _ _ _ _ He)|..]; reflexivity.
Qed.

Lemma set_field_have s k t :
  have rx s = true -> zlen (fields_true rx s) = zlen (fields rx s) -> k <> 0 -> k <= maxFieldIndex ->
  let j := if k <? 1 then zlen (fields rx s) + 1 + k else k in
  (j < 1 -> setf s k t = Ok s) /\
  (1 <= j -> exists tl, zlen tl = Z.max (zlen (fields rx s)) j /\
     setf s k t = Ok (with_fields rx s (put (fields rx s) j t) tl (count_value (Z.max (zlen (fields rx s)) j)))).
Proof.
  intros Hh Hlen Hk Hm j. unfold set_field.
  destruct (Z.eqb_spec k 0); [contradiction|]. destruct (Z.gtb_spec k maxFieldIndex); [lia|].
  rewrite (ensure_of_have s Hh). cbn [rbind]. fold j.
  split; intros Hj; destruct (Z.ltb_spec j 1); try lia; [reflexivity|].
  pose proof (zlen_nonneg (fields rx s)) as Hn0.
  set (pad := Z.to_nat (j - zlen (fields rx s))).
  rewrite (list_set_ok (fields rx s ++ repeat [] pad)), (list_set_ok (fields_true rx s ++ repeat true pad))
    by (rewrite zlen_app, zlen_repeat; lia).
  cbn [rbind]. replace (j - 1 + 1) with j by lia.
  change (ztake (j - 1) (fields rx s ++ repeat [] pad) ++ t :: zdrop j (fields rx s ++ repeat [] pad)) with (put (fields rx s) j t).
  rewrite zlen_put by lia. eexists. split; [|reflexivity].
  replace j with (j - 1 + 1) at 2 by lia. rewrite zlen_list_set; rewrite zlen_app, zlen_repeat; lia.
Qed.

Lemma set_field_pos s s1 i t :
  Inv s -> ensure s = Ok s1 -> 1 <= i <= maxFieldIndex ->
  exists s', setf s i t = Ok s' /\
    fields rx s' = put (fields rx s1) i t /\
    zlen (fields_true rx s') = zlen (fields rx s') /\
    line rx s' = join_fields rx s (fields rx s') /\ line_true rx s' = true /\
    nf rx s' = count_value (Z.max (zlen (fields rx s1)) i) /\
    have rx s' = true /\
    fs rx s' = fs rx s /\ fs_re rx s' = fs_re rx s /\ saved_fs rx s' = saved_fs rx s /\ saved_re rx s' = saved_re rx s /\
    ofs rx s' = ofs rx s /\ rs rx s' = rs rx s /\ inmode rx s' = inmode rx s /\ outmode rx s' = outmode rx s.
Proof.
  intros HI He Hi. rewrite set_field_ensure, He by lia. cbn [rbind].
  pose proof (ensure_have _ _ He) as Hh.
  destruct (set_field_have s1 i t Hh (Inv_lengths s1 (Inv_ensure _ _ HI He) Hh) ltac:(lia) ltac:(lia)) as [_ Hp].
  cbv zeta in Hp. destruct (Z.ltb_spec i 1); [lia|]. destruct (Hp ltac:(lia)) as (tl & Htl & ->).
  destruct (core_inj _ _ _ (ensure_core _ _ He)) as (_ & _ & E3 & E4 & E5 & E6 & E7 & E8 & E9 & E10 & _).
  eexists. split; [reflexivity|]. unfold with_fields. proj. rewrite zlen_put by lia.
  repeat split; auto. unfold join_fields. rewrite E7, E10. reflexivity.
Qed.

(* negative index: counts from the last field; below the first field nothing happens *)
Lemma set_field_neg s s1 i t :
  Inv s -> ensure s = Ok s1 -> i < 0 ->
  let j := zlen (fields rx s1) + 1 + i in
  (j < 1 -> setf s i t = Ok s1) /\
  (1 <= j -> j <= maxFieldIndex -> setf s i t = setf s j t).
Proof.
  intros HI He Hi j. pose proof (ensure_have _ _ He) as Hh. split.
  - intros Hj. rewrite set_field_ensure, He by (unfold maxFieldIndex; lia). cbn [rbind].
    destruct (set_field_have s1 i t Hh (Inv_lengths s1 (Inv_ensure _ _ HI He) Hh) ltac:(lia) ltac:(unfold maxFieldIndex; lia)) as [Hlow _].
    cbv zeta in Hlow. destruct (Z.ltb_spec i 1); [|lia]. exact (Hlow Hj).
  - intros Hj1 Hj2. rewrite !set_field_ensure, He by (unfold maxFieldIndex in *; lia). cbn [rbind]. unfold set_field.
    destruct (Z.eqb_spec i 0), (Z.eqb_spec j 0); try lia.
    destruct (Z.gtb_spec i maxFieldIndex), (Z.gtb_spec j maxFieldIndex); try (unfold maxFieldIndex in *; lia).
    rewrite (ensure_of_have s1 Hh). cbn [rbind].
    rewrite (proj2 (Z.ltb_lt i 1)) by lia. cbv iota. fold j.
    rewrite (proj2 (Z.ltb_ge j 1)) by lia. cbv iota. rewrite (proj2 (Z.ltb_ge j 1)) by lia. reflexivity.
Qed.

Lemma set_field_cases s k t :
  Inv s ->
  setf s k t = Ok (set_line rx s t true) \/ (exists m, setf s k t = Err m) \/ setf s k t = Unmod \/
  exists s1, ensure s = Ok s1 /\
    (setf s k t = Ok s1 \/
     exists j tl, 1 <= j /\ zlen tl = Z.max (zlen (fields rx s1)) j /\
       setf s k t = Ok (with_fields rx s1 (put (fields rx s1) j t) tl (count_value (Z.max (zlen (fields rx s1)) j)))).
Proof.
  intros HI. destruct (Z.eq_dec k 0) as [->|Hk]; [left; reflexivity|]. right.
  destruct (Z_gt_dec k maxFieldIndex) as [Hbig|Hm]; [left; eexists; exact (set_field_too_large s k t Hbig)|].
  rewrite set_field_ensure by lia. pose proof (ensure_no_panic s HI) as Hnp.
  destruct (ensure s) as [s1|m| |] eqn:He; cbn [rbind]; [|left; eexists; reflexivity|contradiction|right; left; reflexivity].
  right. right. exists s1. split; [reflexivity|]. pose proof (ensure_have _ _ He) as Hh.
  destruct (set_field_have s1 k t Hh (Inv_lengths s1 (Inv_ensure _ _ HI He) Hh) Hk ltac:(lia)) as [Hlow Hhigh].
  cbv zeta in Hlow, Hhigh. set (j := if k <? 1 then zlen (fields rx s1) + 1 + k else k) in *.
  destruct (Z_lt_dec j 1) as [Hj|Hj]; [left; exact (Hlow Hj)|].
  right. destruct (Hhigh ltac:(lia)) as (tl & Htl & E). exists j, tl. split; [lia|]. split; assumption.
Qed.

Definition resize (n : Z) (fl : list bytes) : list bytes :=
  ztake n fl ++ repeat [] (Z.to_nat (n - zlen fl)).

Lemma zlen_resize n fl : 0 <= n -> zlen (resize n fl) = n.
Proof.
  intros Hn. unfold resize. pose proof (zlen_nonneg fl) as H0. rewrite zlen_app, zlen_repeat.
  destruct (Z.le_gt_cases (zlen fl) n).
  - rewrite ztake_all by lia. lia.
  - rewrite zlen_ztake by lia. lia.
Qed.

Lemma set_nf_errors s v :
  let n := f2i64 (vnum v) in
  (n < 0 -> setnf s v = Err (msg_nf_negative ++ dec_of_Z n)) /\
  (n > maxFieldIndex -> setnf s v = Err (msg_nf_too_large ++ dec_of_Z n)).
Proof.
  intros n. unfold set_nf. fold n. split; intros H.
  - destruct (Z.ltb_spec n 0); [reflexivity|lia].
  - destruct (Z.ltb_spec n 0); [unfold maxFieldIndex in H; lia|].
    destruct (Z.gtb_spec n maxFieldIndex); [reflexivity|lia].
Qed.

Lemma set_nf_ensure s v :
  0 <= f2i64 (vnum v) <= maxFieldIndex -> setnf s v = do s1 <- ensure s; setnf s1 v.
Proof.
  intros Hn. unfold set_nf.
  destruct (Z.ltb_spec (f2i64 (vnum v)) 0); [lia|]. destruct (Z.gtb_spec (f2i64 (vnum v)) maxFieldIndex); [lia|].
  destruct (ensure s) as [s1| | |] eqn:He; cbn [rbind]; [rewrite (ensure_idem _ _ _ _ He)|..]; reflexivity.
Qed.

Lemma set_nf_have s v :
  have rx s = true -> zlen (fields_true rx s) = zlen (fields rx s) ->
  let n := f2i64 (vnum v) in 0 <= n <= maxFieldIndex ->
  exists tl, zlen tl = n /\ setnf s v = Ok (with_fields rx s (resize n (fields rx s)) tl v).
Proof.
  intros Hh Hlen n Hn. unfold set_nf. fold n.
  destruct (Z.ltb_spec n 0); [lia|]. destruct (Z.gtb_spec n maxFieldIndex); [lia|].
  rewrite (ensure_of_have s Hh). cbn [rbind]. unfold resize.
  pose proof (zlen_nonneg (fields rx s)) as Hn0.
  destruct (Z.ltb_spec n (zlen (fields rx s))).
  - rewrite !slice_ok by lia. cbn [rbind]. rewrite Z.sub_0_r, !zdrop_0, zlen_ztake by lia.
    replace (Z.to_nat (n - n)) with 0%nat by lia. replace (Z.to_nat (n - zlen (fields rx s))) with 0%nat by lia.
    eexists. split; [|reflexivity]. cbn [repeat]. rewrite app_nil_r, zlen_ztake by lia. reflexivity.
  - cbn [rbind]. rewrite ztake_all by lia. eexists. split; [|reflexivity]. rewrite zlen_app, zlen_repeat. lia.
Qed.

Lemma set_nf_spec s s1 v :
  Inv s -> ensure s = Ok s1 ->
  let n := f2i64 (vnum v) in
  0 <= n <= maxFieldIndex ->
  exists s', setnf s v = Ok s' /\
    fields rx s' = resize n (fields rx s1) /\
    zlen (fields_true rx s') = zlen (fields rx s') /\
    line rx s' = join_fields rx s (fields rx s') /\ line_true rx s' = true /\
    nf rx s' = v /\ have rx s' = true /\
    fs rx s' = fs rx s /\ fs_re rx s' = fs_re rx s /\ saved_fs rx s' = saved_fs rx s /\ saved_re rx s' = saved_re rx s /\
    ofs rx s' = ofs rx s /\ rs rx s' = rs rx s /\ inmode rx s' = inmode rx s /\ outmode rx s' = outmode rx s.
Proof.
  intros HI He n Hn. rewrite set_nf_ensure, He by exact Hn. cbn [rbind].
  pose proof (ensure_have _ _ He) as Hh.
  destruct (set_nf_have s1 v Hh (Inv_lengths s1 (Inv_ensure _ _ HI He) Hh) Hn) as (tl & Htl & ->). fold n in Htl |- *.
  destruct (core_inj _ _ _ (ensure_core _ _ He)) as (_ & _ & E3 & E4 & E5 & E6 & E7 & E8 & E9 & E10 & _).
  eexists. split; [reflexivity|]. unfold with_fields. proj. rewrite zlen_resize by lia.
  repeat split; auto. unfold join_fields. rewrite E7, E10. reflexivity.
Qed.

Lemma set_nf_cases s v :
  Inv s ->
  (exists m, setnf s v = Err m) \/ setnf s v = Unmod \/
  exists s1 tl, ensure s = Ok s1 /\ 0 <= f2i64 (vnum v) /\ zlen tl = f2i64 (vnum v) /\
    setnf s v = Ok (with_fields rx s1 (resize (f2i64 (vnum v)) (fields rx s1)) tl v).
Proof.
  intros HI. destruct (set_nf_errors s v) as [Hneg Hbig]. cbv zeta in Hneg, Hbig.
  destruct (Z_lt_dec (f2i64 (vnum v)) 0) as [H1|H1]; [left; eexists; exact (Hneg H1)|].
  destruct (Z_gt_dec (f2i64 (vnum v)) maxFieldIndex) as [H2|H2]; [left; eexists; exact (Hbig H2)|].
  rewrite set_nf_ensure by lia. pose proof (ensure_no_panic s HI) as Hnp.
  destruct (ensure s) as [s1|m| |] eqn:He; cbn [rbind]; [|left; eexists; reflexivity|contradiction|right; left; reflexivity].
  right. right. pose proof (ensure_have _ _ He) as Hh.
  destruct (set_nf_have s1 v Hh (Inv_lengths s1 (Inv_ensure _ _ HI He) Hh) ltac:(lia)) as (tl & Htl & E).
  exists s1, tl. split; [reflexivity|]. split; [lia|]. split; assumption.
Qed.

Lemma Inv_set_line s t b : Inv s -> Inv (set_line rx s t b).
Proof.
  intros (_ & _ & H3). unfold Inv, set_line. proj. split; [discriminate|]. split; exact H3.
Qed.

Lemma Inv_set_field s i t s' : Inv s -> setf s i t = Ok s' -> Inv s'.
Proof.
  intros HI H.
  destruct (set_field_cases s i t HI) as [E|[[m E]|[E|(s1 & He & [E|(j & tl & Hj & Htl & E)])]]];
    rewrite E in H; try discriminate; injection H as <-.
  - exact (Inv_set_line _ _ _ HI).
  - exact (Inv_ensure _ _ HI He).
  - apply Inv_with_fields; rewrite ?zlen_put by lia; [exact (Inv_ensure _ _ HI He)|exact Htl|apply nf_trunc_count].
Qed.

Lemma Inv_set_nf s v s' : Inv s -> setnf s v = Ok s' -> Inv s'.
Proof.
  intros HI H.
  destruct (set_nf_cases s v HI) as [[m E]|[E|(s1 & tl & He & Hn & Htl & E)]]; rewrite E in H; try discriminate.
  injection H as <-. apply Inv_with_fields; rewrite ?zlen_resize by lia; [exact (Inv_ensure _ _ HI He)|exact Htl|].
  destruct (f2i64_nonneg (vnum v) Hn) as (m & e & Hv & Ht). unfold nf_trunc. rewrite <- Ht, Hv. reflexivity.
Qed.

Lemma Inv_eval_idx s i s0 k : Inv s -> eval_idx rx all_matches s i = Ok (s0, k) -> Inv s0.
Proof. intros HI H. destruct (eval_idx_inv _ _ _ _ _ _ H) as [->|He]; [exact HI|exact (Inv_ensure _ _ HI He)]. Qed.

Lemma Inv_get_field s k s1 f t : Inv s -> getf s k = Ok (s1, f, t) -> Inv s1.
Proof. intros HI H. destruct (get_field_state _ _ _ _ _ _ _ H) as [->|He]; [exact HI|exact (Inv_ensure _ _ HI He)]. Qed.

Lemma Inv_set_fs s f r s' : Inv s -> set_fs rx s f r = Ok s' -> Inv s'.
Proof.
  intros (H1 & H2 & H3) H. unfold set_fs in H.
  destruct (rune_count f >? 1) eqn:E.
  - destruct r as [re|]; [|discriminate]. injection H as <-. unfold Inv. proj.
    split; [exact H1|]. split; [exact H2|]. discriminate.
  - injection H as <-. unfold Inv. proj. split; [exact H1|]. split; [exact H2|].
    intros Hc. destruct (Z.gtb_spec (rune_count f) 1); [discriminate|lia].
Qed.

Theorem Inv_step s o s' w : Inv s -> exec s o = Ok (s', w) -> Inv s'.
Proof.
  intros HI. apply (exec_preserves rx all_matches Inv (fun _ => True)); try exact HI.
  - exact Inv_ensure.
  - exact Inv_set_line.
  - exact Inv_set_field.
  - intros t v t' Ht _. exact (Inv_set_nf t v t' Ht).
  - exact Inv_set_fs.
  - intros t ov r im m Ht. exact Ht.
  - destruct o; cbn [nf_guard]; auto.
Qed.

Theorem Inv_run ops s s' : Inv s -> runs ops s = Ok s' -> Inv s'.
Proof.
  intros HI. apply (run_preserves rx all_matches Inv (fun _ => True)); [|exact HI|apply Forall_forall; auto].
  intros t o t' w Ht _. exact (Inv_step t o t' w Ht).
Qed.

(* reachable states: after ANY script from the initial state *)
Theorem Inv_reachable ops s : runs ops (init rx) = Ok s -> Inv s.
Proof. apply Inv_run. apply Inv_init. Qed.

End Inv.
