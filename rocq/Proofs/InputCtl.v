(* C11: range patterns, the write sets of the getline forms, NR as a count of records, the routing of
   next / nextfile / exit, END sees the last record, the parsing of assignment operands. *)
From Verif Require Import Lib.Base Model.Input Proofs.Input Proofs.InputHist.

Lemma range_select_length p1 p2 : forall recs f, length (range_select p1 p2 f recs) = length recs.
Proof.
  induction recs as [|r recs IH]; intros f; cbn [range_select]; [reflexivity|].
  destruct (range_step (p1 r) (p2 r) f) as [m f']. cbn [length]. rewrite IH. reflexivity.
Qed.

(* record i is selected iff the flag was on at the start and no earlier record stopped it, or some
   record j <= i matches the start pattern and no record in [j, i) matches the stop pattern *)
Lemma range_select_spec p1 p2 : forall recs f i,
  nth i (range_select p1 p2 f recs) false = true <->
  (i < length recs)%nat /\
  ((f = true /\ forall k, (k < i)%nat -> p2 (nth k recs []) = false) \/
   exists j, (j <= i)%nat /\ p1 (nth j recs []) = true /\
             forall k, (j <= k < i)%nat -> p2 (nth k recs []) = false).
Proof.
  induction recs as [|r recs IH]; intros f i.
  - cbn [range_select length]. split.
    + destruct i; cbn; discriminate.
    + intros [H _]. lia.
  - cbn [range_select]. unfold range_step.
    destruct i as [|i].
    + cbn [nth length]. split.
      * intros H. split; [lia|]. destruct f.
        -- left. split; [reflexivity|]. intros k Hk; lia.
        -- right. exists 0%nat. split; [lia|]. split; [exact H|]. intros k Hk; lia.
      * intros [_ [[-> _]|(j & Hj & Hp & _)]]; [reflexivity|].
        assert (j = 0)%nat by lia. subst j. cbn [nth] in Hp. rewrite Hp. destruct f; reflexivity.
    + cbn [nth length]. rewrite IH. split.
      * intros [Hlen [[Hf' Hno]|(j & Hj & Hp & Hno)]].
        -- split; [lia|].
           destruct f.
           ++ left. split; [reflexivity|]. intros [|k] Hk; cbn [nth].
              ** destruct (p2 r); [discriminate|reflexivity].
              ** apply Hno. lia.
           ++ destruct (p1 r) eqn:Hp1; [|discriminate].
              right. exists 0%nat. split; [lia|]. split; [exact Hp1|]. intros [|k] Hk; cbn [nth].
              ** destruct (p2 r); [discriminate|reflexivity].
              ** apply Hno. lia.
        -- split; [lia|]. right. exists (S j). split; [lia|]. split; [exact Hp|].
           intros [|k] Hk; [lia|]. cbn [nth]. apply Hno. lia.
      * intros [Hlen [[-> Hno]|(j & Hj & Hp & Hno)]].
        -- split; [lia|]. left. split.
           ++ pose proof (Hno 0%nat ltac:(lia)) as H0. cbn [nth] in H0. rewrite H0. reflexivity.
           ++ intros k Hk. apply (Hno (S k)). lia.
        -- split; [lia|]. destruct j as [|j].
           ++ cbn [nth] in Hp. left. split.
              ** pose proof (Hno 0%nat ltac:(lia)) as H0. cbn [nth] in H0. rewrite Hp, H0. destruct f; reflexivity.
              ** intros k Hk. apply (Hno (S k)). lia.
           ++ right. exists j. split; [lia|]. split; [exact Hp|]. intros k Hk. apply (Hno (S k)). lia.
Qed.

Section RangeRule.
  Variable U : Type.
  Variable step : U -> st -> req * U.
  Variable enter : blk -> U -> U.
  Variable e : env.

  (* block [b] evaluates the condition [p] of the current record and changes nothing *)
  Definition pure_pat (fuel : nat) (b : blk) (p : record -> bool) : Prop :=
    forall u s, exists u', run U step e fuel (enter b u) s = ROk (OVal (p (line s))) u' s.

  (* the range case of execActions computes range_step when the patterns have no side effects *)
  Lemma eval_pat_range fuel r i f u s p1 p2 :
    rk r = PRange -> pure_pat fuel (BPat i false) p1 -> pure_pat fuel (BPat i true) p2 ->
    exists u', eval_pat U step enter e fuel r i f u s =
               PVal (fst (range_step (p1 (line s)) (p2 (line s)) f)) (snd (range_step (p1 (line s)) (p2 (line s)) f)) u' s.
  Proof.
    intros Hk H1 H2. unfold eval_pat, run_pat, range_step. rewrite Hk. destruct f.
    - destruct (H2 u s) as [u' ->]. exists u'. reflexivity.
    - destruct (H1 u s) as [u1 ->]. destruct (p1 (line s)).
      + destruct (H2 u1 s) as [u2 ->]. exists u2. reflexivity.
      + exists u1. reflexivity.
  Qed.
End RangeRule.

(* getline <file (any target): NR, FNR, FILENAME and the operand cursor are untouched *)
Lemma getline_file_frame e f tg s s' :
  do_getline e (SFile f) tg s = Some s' ->
  NR s' = NR s /\ FNR s' = FNR s /\ FILENAME s' = FILENAME s /\ idx s' = idx s /\ cur s' = cur s /\
  argv s' = argv s /\ argc s' = argc s /\ had s' = had s.
Proof.
  intros H. apply do_getline_split in H as (r & l & s1 & HR & HS).
  apply store_quiet in HS as (((K1 & K2 & K3 & K4 & K5) & _) & K6 & K7 & K8 & _). sst.
  destruct (rd_read_cases _ _ _ _ _ _ HR) as [[[=] _]|(_ & _ & [= J1 J2 J3 _ _] & _ & _ & (J4 & J5 & J6 & J7 & J8) & _)].
  repeat split; congruence.
Qed.

(* cmd | getline (any target): the same, and stdin is untouched *)
Lemma getline_cmd_frame e c tg s s' :
  do_getline e (SCmd c) tg s = Some s' ->
  NR s' = NR s /\ FNR s' = FNR s /\ FILENAME s' = FILENAME s /\ idx s' = idx s /\ cur s' = cur s /\
  argv s' = argv s /\ argc s' = argc s /\ had s' = had s /\ stdin s' = stdin s.
Proof.
  intros H. apply do_getline_split in H as (r & l & s1 & HR & HS).
  apply store_quiet in HS as (((K1 & K2 & K3 & K4 & K5) & K9) & K6 & K7 & K8 & _). sst.
  destruct (rd_read_cases _ _ _ _ _ _ HR) as [[[=] _]|(_ & _ & [= J1 J2 J3 _ _] & _ & _ & (J4 & J5 & J6 & J7 & J8) & J9)].
  specialize (J9 I). repeat split; congruence.
Qed.

(* getline var (any source) fills only var: $0 and the fields (hence NF) are untouched *)
Lemma getline_var_frame e sr v s s' :
  do_getline e sr (TVar v) s = Some s' -> line s' = line s /\ fields s' = fields s.
Proof.
  intros H. apply do_getline_split in H as (r & l & s1 & HR & HS).
  assert (H1 : same_record s s1).
  { destruct (rd_read_cases _ _ _ _ _ _ HR) as [(_ & res & HN & _)|(_ & _ & _ & H1 & _)]; [|exact H1].
    apply next_line_frame in HN as (H1 & H2 & _). split; assumption. }
  unfold store in HS. destruct (r =? 1); injection HS as <-; exact H1.
Qed.

(* what a successful getline var stores *)
Lemma getline_var_value e sr v s s' :
  do_getline e sr (TVar v) s = Some s' -> ret s' = 1 ->
  exists l s1, rd_read e sr s = Some (1, l, s1) /\ blookup (vars s') v = Some l.
Proof.
  intros H Hret. apply do_getline_split in H as (r & l & s1 & HR & HS).
  unfold store in HS. destruct (r =? 1) eqn:Hr1.
  - apply Z.eqb_eq in Hr1. subst r. injection HS as <-. exists l, s1. split; [exact HR|].
    sst. unfold bupdate. cbn [blookup]. rewrite bytes_eqb_refl. reflexivity.
  - injection HS as <-. sst. apply Z.eqb_neq in Hr1. contradiction.
Qed.

(* plain getline / getline var when the current file still has a record: exactly what is set *)
Lemma getline_main_line e s name r rest :
  cur s = Some (name, r :: rest) ->
  exists s', do_getline e SMain TLine s = Some s' /\ ret s' = 1 /\
    NR s' = NR s + 1 /\ FNR s' = FNR s + 1 /\ FILENAME s' = FILENAME s /\
    line s' = r /\ fields s' = split_mode e r /\ vars s' = vars s /\ cur s' = Some (name, rest).
Proof.
  intros Hc. unfold do_getline. cbn [rd_read]. unfold next_line. rewrite Hc. unfold deliver.
  eexists. split; [reflexivity|]. sst. repeat split; reflexivity.
Qed.

Lemma getline_main_var e s name r rest v :
  cur s = Some (name, r :: rest) ->
  exists s', do_getline e SMain (TVar v) s = Some s' /\ ret s' = 1 /\
    NR s' = NR s + 1 /\ FNR s' = FNR s + 1 /\ FILENAME s' = FILENAME s /\
    line s' = line s /\ fields s' = fields s /\ vars s' = bupdate (vars s) v r /\ cur s' = Some (name, rest).
Proof.
  intros Hc. unfold do_getline. cbn [rd_read]. unfold next_line. rewrite Hc. unfold deliver.
  eexists. split; [reflexivity|]. sst. repeat split; reflexivity.
Qed.

Definition is_rec (v : ev) : bool := match v with EvRec _ _ => true | _ => false end.
Definition writes_nr (v : ev) : bool :=
  match v with EvSetNR _ => true | EvAssign n _ => bytes_eqb n b_NR | _ => false end.
Definition count_recs (l : list ev) : Z := zlen (filter is_rec l).

Lemma fold_obs_split e : forall l nr fnr fn stt vs,
  fold_left (obs_ev e) l (nr, fnr, fn, stt, vs) =
  (fold_left nr_ev l nr, fold_left fnr_ev l fnr, fold_left fname_ev l fn, fold_left status_ev l stt,
   fold_left (vars_ev e) l vs).
Proof. induction l as [|v l IH]; intros; cbn [fold_left obs_ev]; [reflexivity|apply IH]. Qed.

Lemma fold_obs_status e : forall l o,
  let '(_, _, _, stt, _) := fold_left (obs_ev e) l o in
  stt = fold_left status_ev l (let '(_, _, _, stt0, _) := o in stt0).
Proof. intros l [[[[nr fnr] fn] stt] vs]. rewrite fold_obs_split. reflexivity. Qed.

(* a counter that goes up by one at every record and that nothing in [l] writes counts the records of [l] *)
Lemma count_fold (f : Z -> ev -> Z) (w : ev -> bool) :
  (forall x v, w v = false -> f x v = x + (if is_rec v then 1 else 0)) ->
  forall l x, forallb (fun v => negb (w v)) l = true -> fold_left f l x = x + count_recs l.
Proof.
  intros Hf. unfold count_recs. induction l as [|v l IH]; intros x H; cbn [fold_left filter].
  - rewrite zlen_nil. lia.
  - cbn [forallb] in H. apply andb_true_iff in H as [Hv Hl]. apply negb_true_iff in Hv.
    rewrite IH, Hf by assumption. destruct (is_rec v); rewrite ?zlen_cons; lia.
Qed.

Lemma nr_fold_count : forall l x,
  forallb (fun v => negb (writes_nr v)) l = true -> fold_left nr_ev l x = x + count_recs l.
Proof.
  apply count_fold. intros x v Hv. destruct v; cbn [nr_ev is_rec writes_nr] in *; try lia; try discriminate.
  rewrite Hv. lia.
Qed.

Lemma count_recs_rev l : count_recs (rev l) = count_recs l.
Proof.
  unfold count_recs, zlen. rewrite <- (rev_length (filter is_rec l)). do 2 f_equal.
  induction l as [|v l IH]; [reflexivity|]. cbn [rev filter]. rewrite filter_app, IH. cbn [filter].
  destruct (is_rec v); cbn [rev]; [reflexivity|apply app_nil_r].
Qed.

(* NR = NR0 + the number of main-input records taken, as long as nothing assigns NR *)
Lemma tracks_nr_count e s s' :
  tracks e s s' -> exists new, log s' = new ++ log s /\
    (forallb (fun v => negb (writes_nr v)) new = true -> NR s' = NR s + count_recs new).
Proof.
  intros (new & HL & HO). exists new. split; [exact HL|]. intros Hno.
  unfold obs_of in HO. rewrite fold_obs_split in HO. injection HO as -> _ _ _ _.
  rewrite nr_fold_count, count_recs_rev; [reflexivity|].
  rewrite forallb_forall in *. intros v Hv. apply Hno, in_rev, Hv.
Qed.

Lemma status_fold_none : forall l x,
  forallb (fun v => match v with EvExit _ => false | _ => true end) l = true -> fold_left status_ev l x = x.
Proof.
  induction l as [|v l IH]; intros x H; cbn [fold_left]; [reflexivity|].
  cbn [forallb] in H. apply andb_true_iff in H as [Hv Hl].
  destruct v; try discriminate; cbn [status_ev]; apply IH; exact Hl.
Qed.

(* the exit status is the value of the last exit expression evaluated *)
Lemma status_fold_last : forall l x n l',
  forallb (fun v => match v with EvExit _ => false | _ => true end) l' = true ->
  fold_left status_ev (l ++ EvExit n :: l') x = n.
Proof. intros l x n l' H. rewrite fold_left_app. cbn [fold_left status_ev]. apply status_fold_none, H. Qed.

Section Control.
  Variable U : Type.
  Variable step : U -> st -> req * U.
  Variable enter : blk -> U -> U.
  Variable e : env.

  (* next in the body of a rule (at whatever depth inside U): the remaining rules are skipped, the
     state is the one the body left, and the loop goes on with the next record *)
  Lemma exec_rules_next fuel r rules i done f fl u s f' u1 s1 u2 s2 :
    eval_pat U step enter e fuel r i f u s = PVal true f' u1 s1 -> has_body r = true ->
    run U step e fuel (enter (BBody i) u1) s1 = ROk ONext u2 s2 ->
    exec_rules U step enter e fuel (r :: rules) i done (f :: fl) u s = LCont u2 s2 (rev (f' :: done) ++ fl).
  Proof. intros HP HB HR. cbn [exec_rules]. rewrite HP, HB, HR. reflexivity. Qed.

  Lemma exec_rules_nextfile fuel r rules i done f fl u s f' u1 s1 u2 s2 :
    eval_pat U step enter e fuel r i f u s = PVal true f' u1 s1 -> has_body r = true ->
    run U step e fuel (enter (BBody i) u1) s1 = ROk ONextfile u2 s2 ->
    exec_rules U step enter e fuel (r :: rules) i done (f :: fl) u s = LCont u2 (drop_file s2) (rev (f' :: done) ++ fl).
  Proof. intros HP HB HR. cbn [exec_rules]. rewrite HP, HB, HR. reflexivity. Qed.

  (* exit in the body of a rule or in a pattern: execActions returns at once *)
  Lemma exec_rules_exit fuel r rules i done f fl u s f' u1 s1 u2 s2 n :
    eval_pat U step enter e fuel r i f u s = PVal true f' u1 s1 -> has_body r = true ->
    run U step e fuel (enter (BBody i) u1) s1 = ROk (OExit n) u2 s2 ->
    exec_rules U step enter e fuel (r :: rules) i done (f :: fl) u s = LStop (OExit n) u2 s2.
  Proof. intros HP HB HR. cbn [exec_rules]. rewrite HP, HB, HR. reflexivity. Qed.

  (* next / nextfile reached from a pattern expression (through a function it calls): the record is
     abandoned exactly as from a rule body; the rule's range flag keeps the value it had *)
  Lemma exec_rules_skip fuel r rules i done f fl u s f' u1 s1 :
    eval_pat U step enter e fuel r i f u s = PSkip f' u1 s1 ->
    exec_rules U step enter e fuel (r :: rules) i done (f :: fl) u s = LCont u1 s1 (rev (f' :: done) ++ fl).
  Proof. intros HP. cbn [exec_rules]. rewrite HP. reflexivity. Qed.

  Lemma exec_rules_pat_next fuel r rules i done f fl u s u1 s1 :
    rk r = PExpr ->
    run U step e fuel (enter (BPat i false) u) s = ROk ONext u1 s1 ->
    exec_rules U step enter e fuel (r :: rules) i done (f :: fl) u s = LCont u1 s1 (rev (f :: done) ++ fl).
  Proof. intros Hk HR. apply exec_rules_skip. unfold eval_pat, run_pat. rewrite Hk, HR. reflexivity. Qed.

  Lemma exec_rules_pat_nextfile fuel r rules i done f fl u s u1 s1 :
    rk r = PExpr ->
    run U step e fuel (enter (BPat i false) u) s = ROk ONextfile u1 s1 ->
    exec_rules U step enter e fuel (r :: rules) i done (f :: fl) u s = LCont u1 (drop_file s1) (rev (f :: done) ++ fl).
  Proof. intros Hk HR. apply exec_rules_skip. unfold eval_pat, run_pat. rewrite Hk, HR. reflexivity. Qed.

  (* the same from the start pattern of a closed range (flag stays off) and from the stop pattern of an
     open range (flag stays on) *)
  Lemma exec_rules_range_start_next fuel r rules i done fl u s u1 s1 :
    rk r = PRange ->
    run U step e fuel (enter (BPat i false) u) s = ROk ONext u1 s1 ->
    exec_rules U step enter e fuel (r :: rules) i done (false :: fl) u s = LCont u1 s1 (rev (false :: done) ++ fl).
  Proof. intros Hk HR. apply exec_rules_skip. unfold eval_pat, run_pat. rewrite Hk, HR. reflexivity. Qed.

  Lemma exec_rules_range_stop_next fuel r rules i done fl u s u1 s1 :
    rk r = PRange ->
    run U step e fuel (enter (BPat i true) u) s = ROk ONext u1 s1 ->
    exec_rules U step enter e fuel (r :: rules) i done (true :: fl) u s = LCont u1 s1 (rev (true :: done) ++ fl).
  Proof. intros Hk HR. apply exec_rules_skip. unfold eval_pat, run_pat. rewrite Hk, HR. reflexivity. Qed.

  (* nextfile at the two range sites: as next, and the rest of the current file is dropped *)
  Lemma exec_rules_range_start_nextfile fuel r rules i done fl u s u1 s1 :
    rk r = PRange ->
    run U step e fuel (enter (BPat i false) u) s = ROk ONextfile u1 s1 ->
    exec_rules U step enter e fuel (r :: rules) i done (false :: fl) u s = LCont u1 (drop_file s1) (rev (false :: done) ++ fl).
  Proof. intros Hk HR. apply exec_rules_skip. unfold eval_pat, run_pat. rewrite Hk, HR. reflexivity. Qed.

  Lemma exec_rules_range_stop_nextfile fuel r rules i done fl u s u1 s1 :
    rk r = PRange ->
    run U step e fuel (enter (BPat i true) u) s = ROk ONextfile u1 s1 ->
    exec_rules U step enter e fuel (r :: rules) i done (true :: fl) u s = LCont u1 (drop_file s1) (rev (true :: done) ++ fl).
  Proof. intros Hk HR. apply exec_rules_skip. unfold eval_pat, run_pat. rewrite Hk, HR. reflexivity. Qed.

  (* the opening record: the start pattern of a closed range matches and the stop pattern is left through
     next / nextfile on that very record: the flag is SET (inRange[i] is assigned before the second
     pattern is evaluated), the range is open for the following records *)
  Lemma exec_rules_opening_record_next fuel r rules i done fl u s u1 s1 u2 s2 :
    rk r = PRange ->
    run U step e fuel (enter (BPat i false) u) s = ROk (OVal true) u1 s1 ->
    run U step e fuel (enter (BPat i true) u1) s1 = ROk ONext u2 s2 ->
    exec_rules U step enter e fuel (r :: rules) i done (false :: fl) u s = LCont u2 s2 (rev (true :: done) ++ fl).
  Proof. intros Hk H1 H2. apply exec_rules_skip. unfold eval_pat, run_pat. rewrite Hk, H1, H2. reflexivity. Qed.

  Lemma exec_rules_opening_record_nextfile fuel r rules i done fl u s u1 s1 u2 s2 :
    rk r = PRange ->
    run U step e fuel (enter (BPat i false) u) s = ROk (OVal true) u1 s1 ->
    run U step e fuel (enter (BPat i true) u1) s1 = ROk ONextfile u2 s2 ->
    exec_rules U step enter e fuel (r :: rules) i done (false :: fl) u s = LCont u2 (drop_file s2) (rev (true :: done) ++ fl).
  Proof. intros Hk H1 H2. apply exec_rules_skip. unfold eval_pat, run_pat. rewrite Hk, H1, H2. reflexivity. Qed.

  (* after nextfile the rest of the current file is out of the plan: the next record comes from the next operand *)
  Lemma drop_file_plan s : plan e (drop_file s) = planF e (argv s) (argc s) (idx s) (had s) (stdin s).
  Proof.
    unfold drop_file. destruct (cur s) as [[name rest]|] eqn:Hc; unfold plan, cur_part; sst; [|rewrite Hc]; reflexivity.
  Qed.

  Lemma main_loop_unfold fuel n rules flags u s :
    main_loop U step enter e fuel (S n) rules flags u s =
    match next_line e s with
    | (NLEof, s1) => LCont u s1 flags
    | (NLErr, s1) => LStop OErr u s1
    | (NLRec r, s1) =>
        match exec_rules U step enter e fuel rules 0 [] flags u (set_line e r s1) with
        | LCont u' s' flags' => main_loop U step enter e fuel n rules flags' u' s'
        | x => x
        end
    | (NLUnmod, _) => LUnmod
    | (NLFuel, _) => LFuel
    end.
  Proof. reflexivity. Qed.

  (* the iterations of the main loop *)
  Inductive loop_reaches (fuel : nat) (rules : list rule) : U * st * list bool -> U * st * list bool -> Prop :=
  | lr_refl x : loop_reaches fuel rules x x
  | lr_step u s fl r s1 u' s' fl' x :
      next_line e s = (NLRec r, s1) ->
      exec_rules U step enter e fuel rules 0 [] fl u (set_line e r s1) = LCont u' s' fl' ->
      loop_reaches fuel rules (u', s', fl') x -> loop_reaches fuel rules (u, s, fl) x.

  (* when the input is exhausted, $0 and the fields are those left by the processing of the last
     record (or those before the loop if there was no record): END sees the last record *)
  Lemma main_loop_end_record fuel rules : forall n flags u s u' s' fl',
    main_loop U step enter e fuel n rules flags u s = LCont u' s' fl' ->
    exists s0, loop_reaches fuel rules (u, s, flags) (u', s0, fl') /\
               next_line e s0 = (NLEof, s') /\ line s' = line s0 /\ fields s' = fields s0.
  Proof.
    induction n as [|n IH]; intros flags u s u' s' fl' H; [discriminate|].
    rewrite main_loop_unfold in H.
    destruct (next_line e s) as [res s1] eqn:HN.
    destruct res as [r| | | |]; try discriminate.
    - destruct (exec_rules U step enter e fuel rules 0 [] flags u (set_line e r s1)) as [| |u2 s2 fl2|o u2 s2] eqn:HE; try discriminate.
      apply IH in H as (s0 & HL & HN0 & H1 & H2). exists s0. split; [|tauto].
      eapply lr_step; eassumption.
    - injection H as <- <- <-. exists s. split; [apply lr_refl|].
      split; [exact HN|]. apply next_line_frame in HN. tauto.
  Qed.

  (* the last phase of executeAll: END, if there is one *)
  Definition end_phase (fuel : nat) (has_end : bool) (u : U) (s : st) : fin U :=
    if negb has_end then FOk u s
    else match run U step e fuel (enter BEnd u) s with
         | RFuel => FFuel | RUnmod => FUnmod
         | ROk o3 u3 s3 => if is_exit o3 || is_val o3 then FOk u3 s3 else FErr u3 s3
         end.

  (* exit in BEGIN: the main loop is not entered; END (if any) runs once, from the state BEGIN left *)
  Lemma exec_all_begin_exit fuel rules has_end u s n u1 s1 :
    run U step e fuel (enter BBegin u) s = ROk (OExit n) u1 s1 ->
    exec_all U step enter e fuel rules has_end u s =
    end_phase fuel has_end u1 s1.
  Proof.
    intros H. unfold exec_all. rewrite H. cbn [is_exit is_val orb negb].
    destruct rules; destruct has_end; reflexivity.
  Qed.

  (* exit in a main rule: the remaining input is skipped; END runs once, from the state of the exit *)
  Lemma exec_all_main_exit fuel rules has_end u s b u1 s1 n u2 s2 :
    run U step e fuel (enter BBegin u) s = ROk (OVal b) u1 s1 ->
    main_loop U step enter e fuel fuel rules (map (fun _ => false) rules) u1 s1 = LStop (OExit n) u2 s2 ->
    rules <> [] ->
    exec_all U step enter e fuel rules has_end u s =
    end_phase fuel has_end u2 s2.
  Proof.
    intros HB HM Hr. unfold exec_all. rewrite HB. cbn [is_exit is_val orb negb].
    destruct rules as [|r0 rules']; [contradiction|]. cbn [andb]. rewrite HM. reflexivity.
  Qed.

  (* the input is exhausted: END runs once from the state in which nextLine reported the end *)
  Lemma exec_all_main_eof fuel rules has_end u s b u1 s1 u2 s2 fl :
    run U step e fuel (enter BBegin u) s = ROk (OVal b) u1 s1 ->
    main_loop U step enter e fuel fuel rules (map (fun _ => false) rules) u1 s1 = LCont u2 s2 fl ->
    (rules <> [] \/ has_end = true) ->
    exec_all U step enter e fuel rules has_end u s =
    end_phase fuel has_end u2 s2.
  Proof.
    intros HB HM Hr. unfold exec_all. rewrite HB. cbn [is_exit is_val orb negb].
    assert (Hc : (match rules with [] => true | _ :: _ => false end) && negb has_end = false).
    { destruct rules; [|reflexivity]. destruct Hr as [Hr| ->]; [contradiction|reflexivity]. }
    rewrite Hc, HM. reflexivity.
  Qed.

  (* a block left by exit n has set the exit status to n *)
  Lemma run_exit_status fuel u s n u' s' :
    run U step e fuel u s = ROk (OExit (Some n)) u' s' -> status s' = n.
  Proof.
    revert u s. induction fuel as [|fuel IH]; intros u s H; cbn [run] in H; [discriminate|].
    destruct (step u s) as [r u1].
    destruct r as [o1| | | | | | | | | | |];
      try (destruct (prim e _ s) as [s1|]; [|discriminate]; eapply IH; exact H).
    destruct o1 as [b| | |[m|]|]; try discriminate; injection H as <- _ <-. reflexivity.
  Qed.
End Control.

Definition name_char (c : Z) : bool := is_alpha_ c || is_digit c.

Lemma split_name_spec : forall rest acc v,
  forallb name_char rest = true -> split_name (rest ++ 61 :: v) acc = Some (rev acc ++ rest, v).
Proof.
  induction rest as [|c rest IH]; intros acc v H; cbn [app split_name].
  - rewrite Z.eqb_refl, app_nil_r. reflexivity.
  - cbn [forallb] in H. apply andb_true_iff in H as [Hc Hr].
    assert (c =? 61 = false) as ->.
    { unfold name_char, is_alpha_, is_digit in Hc. apply Z.eqb_neq. intros ->. cbn in Hc. discriminate. }
    unfold name_char in Hc. rewrite Hc. rewrite IH by exact Hr. cbn [rev]. rewrite <- app_assoc. reflexivity.
Qed.

(* an operand name=value with a well-formed name is an assignment of exactly that value, whatever
   bytes the value contains (line feeds included) *)
Lemma parse_assign_spec c rest v :
  is_alpha_ c = true -> forallb name_char rest = true ->
  parse_assign (c :: rest ++ 61 :: v) = Some (c :: rest, v).
Proof.
  intros Hc Hr. cbn [parse_assign]. rewrite Hc, split_name_spec by exact Hr. reflexivity.
Qed.
