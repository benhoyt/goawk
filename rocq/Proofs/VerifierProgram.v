(* C02: the whole-program form of the verifier theorem, the limits check, the one-byte RS
   model, the field slices behind $i in CSV/TSV mode ([csv_fields_never_panic]), and an instance
   showing that the hypothesis on the primitives is satisfiable. *)
From Coq Require Import ZifyBool.
From Verif Require Import Lib.Base Model.Ast Model.Instr Model.Compiler Model.Prims Model.VM
  Model.Verifier Proofs.CodeAt Proofs.VerifierBase Proofs.VerifierSound Gen.Consts.

(* the units of a program; interp.executeAll / execActions start each with an empty frame at call
   depth 0, patterns leave one value *)
Inductive unit_of (p : cprogram) : code -> Z -> Prop :=
| UBegin : unit_of p (c_begin p) 0
| UEnd : unit_of p (c_end p) 0
| UPattern : forall a c, In a (c_actions p) -> In c (fst a) -> unit_of p c 1
| UBody : forall a b, In a (c_actions p) -> snd a = Some b -> unit_of p b 0.

Lemma check_program_units p :
  check_program p = true ->
  check_funcs (c_funcs p) = true /\
  forall c dend, unit_of p c dend -> check_code (ftable_of (c_funcs p)) 0 false 0 dend c = true.
Proof.
  unfold check_program. intros H.
  apply andb_true_iff in H as [H He]. apply andb_true_iff in H as [H Ha]. apply andb_true_iff in H as [Hf Hb].
  split; [exact Hf|]. rewrite forallb_forall in Ha.
  intros c dend U. destruct U as [| |a c Hin Hc|a b Hin Hb'].
  - exact Hb.
  - exact He.
  - specialize (Ha a Hin). apply andb_true_iff in Ha as [Hp _]. rewrite forallb_forall in Hp. exact (Hp c Hc).
  - specialize (Ha a Hin). apply andb_true_iff in Ha as [_ Hbody]. rewrite Hb' in Hbody. exact Hbody.
Qed.

Theorem checked_program_never_stuck (value St err : Type) (P : prims value St err) (p : cprogram) :
  prims_shape P -> check_program p = true ->
  forall c dend, unit_of p c dend ->
  forall fuel stk (s : St),
    match run P (c_funcs p) fuel c 0 stk {| ms := s; frame := []; depth := 0 |} with
    | VStuck => False
    | VDone stk' m' => zlen stk' = zlen stk + dend /\ frame m' = [] /\ depth m' = 0
    | VRet _ _ _ => False
    | VBrk _ _ => False
    | _ => True
    end.
Proof.
  intros Hsh Hp c dend U fuel stk s.
  destruct (check_program_units p Hp) as [Hf Hu]. specialize (Hu c dend U).
  pose proof (check_code_balanced value St err P Hsh (c_funcs p) Hf 0 false 0 dend c Hu fuel stk
                {| ms := s; frame := []; depth := 0 |}
                ltac:(pose proof (zlen_nonneg stk); lia) ltac:(reflexivity)) as H.
  destruct (run P (c_funcs p) fuel c 0 stk {| ms := s; frame := []; depth := 0 |}); auto.
  - destruct H as (H1 & H2 & H3). split; [lia|]. split; [|exact H3].
    destruct (frame m); [reflexivity|]. rewrite zlen_cons in H2. pose proof (zlen_nonneg l). lia.
  - destruct H as [H _]. discriminate.
Qed.

Lemma fetch_In C ip i : fetch C ip = Some i -> In i C.
Proof.
  intros H. destruct (fetch_code_at _ _ _ H) as (pre & post & -> & _). apply in_or_app. right. left. reflexivity.
Qed.

Theorem check_limits_sound L C :
  check_limits L C = true -> forall ip i, fetch C ip = Some i -> instr_in_limits L i = true.
Proof.
  unfold check_limits. rewrite forallb_forall. intros H ip i Hf. apply H. eapply fetch_In. exact Hf.
Qed.

(* no empty or one-byte record separator makes setSpecial panic *)
Theorem rs_one_byte_never_panics : forall rs, (length rs <= 1)%nat -> set_rs_short rs = RsOk.
Proof.
  intros rs Hl. destruct rs as [|b [|c rs]]; cbn [length] in Hl; [reflexivity| |lia].
  unfold set_rs_short, must_compile_quoted. destruct (valid_utf8_short [b]); reflexivity.
Qed.

(* the validity test is what prevents it: the compilation alone panics exactly on non-ASCII bytes *)
Theorem must_compile_quoted_exact : forall b, must_compile_quoted [b] = RsPanic <-> ~ (0 <= b < 128).
Proof.
  intros b. unfold must_compile_quoted. cbn [valid_utf8_short].
  destruct ((0 <=? b) && (b <? 128)) eqn:E; split; intros H; try discriminate.
  - apply andb_true_iff in E as [E1 E2]. lia.
  - apply andb_false_iff in E as [E|E]; lia.
  - reflexivity.
Qed.

(* CSV mode: the two parallel slices behind $i stay the same length *)

Lemma f_run_inv : forall ops s,
  (fs_have s = true -> fs_true s = fs_fields s) -> f_run s ops <> None.
Proof.
  induction ops as [|o ops IH]; intros s Hinv; cbn [f_run]; [discriminate|].
  assert (He : fs_have (f_ensure s) = true /\ fs_true (f_ensure s) = fs_fields (f_ensure s)).
  { unfold f_ensure. destruct (fs_have s) eqn:E; cbn [fs_have fs_true fs_fields]; [split; [exact E|auto]|split; reflexivity]. }
  destruct o as [n d|n| |i|b]; cbn [f_step].
  - apply IH. cbn [fs_have]. discriminate.
  - apply IH. cbn [fs_have fs_true fs_fields]. exact Hinv.
  - apply IH. intros _. apply He.
  - destruct He as [He1 He2].
    destruct (fs_fields (f_ensure s) <? i) eqn:E1.
    + apply IH. intros _. exact He2.
    + destruct (i <=? fs_true (f_ensure s)) eqn:E2; [|lia].
      apply IH. intros _. exact He2.
  - apply IH. cbn [fs_have fs_true fs_fields]. exact Hinv.
Qed.

(* whatever sequence of records read by the main loop, records read by `getline var`, uses of NF,
   reads of $i and changes of INPUTMODE in the middle of the stream happens, getField never
   indexes p.fieldsIsTrueStr out of range *)
Theorem csv_fields_never_panic : forall ops, f_run fs_init ops <> None.
Proof. intros ops. apply f_run_inv. cbn. discriminate. Qed.

(* `getline var` leaves the state of the current record exactly as it was, in every mode *)
Theorem getline_var_keeps_fields : forall s n, f_step s (OGetlineVar n) = Some s.
Proof. intros [f t h m sv d] n. reflexivity. Qed.

(* the hypothesis on the primitives is satisfiable: any primitive record, with CallBuiltin
   forced to the table's arities, conforms *)

Section Reshape.
  Variables value St err : Type.
  Variable P : prims value St err.

  Fixpoint fit (n : nat) (d : value) (l : list value) : list value :=
    match n with
    | O => []
    | S n' => match l with [] => d :: fit n' d [] | x :: t => x :: fit n' d t end
    end.

  Lemma fit_length n d l : length (fit n d l) = n.
  Proof. revert l. induction n as [|n IH]; intros l; cbn [fit]; [reflexivity|]. destruct l; cbn [length]; rewrite IH; reflexivity. Qed.

  Definition reshape : prims value St err :=
    {| p_num := p_num P; p_str := p_str P; p_null := p_null P; p_of_bool := p_of_bool P; p_to_bool := p_to_bool P;
       p_num_pos := p_num_pos P; p_neg := p_neg P; p_plus := p_plus P; p_arith := p_arith P; p_aug := p_aug P;
       p_incr := p_incr P; p_cmp := p_cmp P; p_cmpj := p_cmpj P; p_concat := p_concat P;
       p_concat_multi := p_concat_multi P; p_index_multi := p_index_multi P; p_match := p_match P; p_regex := p_regex P;
       p_get_field := p_get_field P; p_get_field_int := p_get_field_int P; p_get_named := p_get_named P;
       p_get_named_str := p_get_named_str P; p_set_field := p_set_field P; p_get_global := p_get_global P;
       p_set_global := p_set_global P; p_get_special := p_get_special P; p_set_special := p_set_special P;
       p_array_get := p_array_get P; p_array_set := p_array_set P; p_array_in := p_array_in P;
       p_array_del := p_array_del P; p_array_clear := p_array_clear P; p_array_len := p_array_len P;
       p_array_keys := p_array_keys P;
       p_builtin_arity := builtin_arity;
       p_builtin := fun b s vs =>
         match p_builtin P b s vs with
         | (s', EOk rs) => (s', EOk (fit (builtin_nres b) (p_null P) rs))
         | (s', EErr e) => (s', EErr e)
         end;
       p_split := p_split P; p_sprintf := p_sprintf P; p_native := p_native P; p_push_arrays := p_push_arrays P;
       p_pop_arrays := p_pop_arrays P; p_err_depth := p_err_depth P; p_print := p_print P; p_getline := p_getline P;
       p_set_line := p_set_line P; p_set_exit := p_set_exit P |}.

  Lemma reshape_shape : prims_shape reshape.
  Proof.
    split.
    - intros b. reflexivity.
    - intros b s vs s' rs H. cbn [reshape p_builtin] in H.
      destruct (p_builtin P b s vs) as [s1 [rs1|e]]; [|discriminate].
      injection H as _ <-. apply fit_length.
  Qed.
End Reshape.
