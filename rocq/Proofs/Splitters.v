(* bufio.ScanLines, byteSplitter and regexSplitter (also with RS assigned between records):
   closed forms (no slice ever panics), well-behavedness, stability, losslessness. *)
From Verif Require Import Lib.Base Model.Scanner Model.Splitters Proofs.Scanner.

(* dropCR (c = 13) and dropLF (c = 10) as total functions: remove one trailing c *)
Fixpoint strip_last (c : Z) (d : bytes) : bytes :=
  match d with
  | [] => []
  | x :: d' => match d' with
               | [] => if x =? c then [] else [x]
               | _ => x :: strip_last c d'
               end
  end.

Lemma strip_last_snoc c a x : strip_last c (a ++ [x]) = if x =? c then a else a ++ [x].
Proof.
  induction a as [|y a IH]; [cbn; destruct (x =? c); reflexivity|].
  cbn [app strip_last]. destruct (a ++ [x]) eqn:E; [destruct a; discriminate|].
  rewrite IH. destruct (x =? c); reflexivity.
Qed.

Lemma drop_last_ok c d : drop_last c d = Ok (strip_last c d).
Proof.
  destruct d as [|x0 d0]; [reflexivity|].
  destruct (@exists_last _ (x0 :: d0)) as (a & x & E); [discriminate|]. rewrite E. clear E.
  unfold drop_last.
  assert (0 < zlen (a ++ [x])) by (rewrite zlen_app; change (zlen [x]) with 1; pose proof (zlen_nonneg a); lia).
  replace (0 <? zlen (a ++ [x])) with true by (symmetry; apply Z.ltb_lt; lia).
  rewrite index_last. cbn [rbind]. rewrite strip_last_snoc.
  destruct (x =? c); [|reflexivity].
  rewrite slice_prefix by lia. f_equal.
  rewrite zlen_app. change (zlen [x]) with 1. replace (zlen a + 1 - 1) with (zlen a) by lia.
  apply ztake_zlen_app.
Qed.

Lemma zlen_strip_last c d : zlen (strip_last c d) <= zlen d.
Proof.
  induction d as [|x d IH]; [cbn; lia|].
  cbn [strip_last]. destruct d as [|y d].
  - destruct (x =? c); rewrite ?zlen_cons, ?zlen_nil; lia.
  - rewrite !zlen_cons in *. lia.
Qed.

Lemma strip_last_notin c d : ~ In c d -> strip_last c d = d.
Proof.
  induction d as [|x d IH]; [reflexivity|]. intros Hn. cbn [strip_last]. destruct d as [|y d].
  - destruct (x =? c) eqn:E; [|reflexivity]. apply Z.eqb_eq in E. exfalso. apply Hn. left. exact E.
  - rewrite IH; [reflexivity|]. intro H. apply Hn. right. exact H.
Qed.

Lemma strip_last_app c a d : d <> [] -> strip_last c (a ++ d) = a ++ strip_last c d.
Proof.
  intros Hd. induction a as [|x a IH]; [reflexivity|].
  cbn [app strip_last]. destruct (a ++ d) eqn:E; [destruct a; [cbn in E; congruence|discriminate]|].
  rewrite IH. reflexivity.
Qed.

Lemma strip_last_prefix c d : exists s, d = strip_last c d ++ s.
Proof.
  induction d as [|x d IH]; [exists []; reflexivity|]. cbn [strip_last]. destruct d as [|y d].
  - destruct (x =? c); [exists [x]|exists []]; reflexivity.
  - destruct IH as (s & Hs). exists s. cbn [app]. rewrite <- Hs. reflexivity.
Qed.

Lemma in_strip_last c d x : In x (strip_last c d) -> In x d.
Proof.
  intros H. destruct (strip_last_prefix c d) as (s & Hs). rewrite Hs. apply in_or_app. left. exact H.
Qed.

Lemma strip_last_zdrop c d : strip_last c d ++ zdrop (zlen (strip_last c d)) d = d.
Proof.
  destruct (strip_last_prefix c d) as (s & Hs). remember (strip_last c d) as t eqn:Ht. clear Ht.
  subst d. rewrite zdrop_zlen_app. reflexivity.
Qed.

Lemma index_byte_from_found c pre post i : ~ In c pre ->
  index_byte_from c (pre ++ c :: post) i = i + zlen pre.
Proof.
  revert i; induction pre as [|x pre IH]; intros i Hn.
  - cbn [app index_byte_from]. rewrite Z.eqb_refl. rewrite zlen_nil. lia.
  - cbn [app index_byte_from]. destruct (x =? c) eqn:E.
    + apply Z.eqb_eq in E. exfalso. apply Hn. left. exact E.
    + rewrite IH by (intro; apply Hn; right; assumption). rewrite zlen_cons. lia.
Qed.

Lemma index_byte_from_none c d i : ~ In c d -> index_byte_from c d i = -1.
Proof.
  revert i; induction d as [|x d IH]; intros i Hn; [reflexivity|].
  cbn [index_byte_from]. destruct (x =? c) eqn:E.
  - apply Z.eqb_eq in E. exfalso. apply Hn. left. exact E.
  - apply IH. intro; apply Hn; right; assumption.
Qed.

Lemma index_byte_found c pre post : ~ In c pre -> index_byte c (pre ++ c :: post) = zlen pre.
Proof. intros H. unfold index_byte. rewrite index_byte_from_found by exact H. lia. Qed.

Lemma index_byte_none c d : ~ In c d -> index_byte c d = -1.
Proof. apply index_byte_from_none. Qed.

Lemma first_occurrence (c : Z) (d : bytes) :
  ~ In c d \/ exists pre post, d = pre ++ c :: post /\ ~ In c pre.
Proof.
  induction d as [|x d IH]; [left; intros []|].
  destruct (Z.eq_dec x c) as [->|Hne].
  - right. exists [], d. split; [reflexivity|intros []].
  - destruct IH as [Hn|(pre & post & -> & Hn)].
    + left. intros [H|H]; [congruence|exact (Hn H)].
    + right. exists (x :: pre), post. split; [reflexivity|].
      intros [H|H]; [congruence|exact (Hn H)].
Qed.

(* the answer of byteSplitter, ScanLines and regexSplitter when the data holds no separator: at
   EOF the rest is the last token t, before EOF more is asked for *)
Definition at_end {St Tok} (t : Tok) (st : St) (d : bytes) (e : bool) : sres St Tok :=
  if e && negb (nilb d) then SOk (zlen d) (Some t) st else SOk 0 None st.

Lemma at_end_false {St Tok} (t : Tok) (st : St) d : at_end t st d false = SOk 0 None st.
Proof. reflexivity. Qed.

Lemma at_end_ok {St Tok} (t : Tok) (st : St) (d : bytes) e : exists adv tok st',
  at_end t st d e = SOk adv tok st' /\ 0 <= adv <= zlen d /\ (tok <> None -> 0 < adv).
Proof.
  unfold at_end. destruct (e && negb (nilb d)) eqn:E; eexists _, _, _; (split; [reflexivity|]).
  - apply andb_true_iff in E as [_ E]. apply negb_true_iff, nilb_false, nonnil_zlen in E.
    split; [lia|]. intros _. exact E.
  - pose proof (zlen_nonneg d). split; [lia|]. congruence.
Qed.

Lemma sep_ind (sep : Z) (P : bytes -> Prop) :
  P [] ->
  (forall pre post, ~ In sep pre -> P post -> P (pre ++ sep :: post)) ->
  (forall d, ~ In sep d -> d <> [] -> P d) ->
  forall d, P d.
Proof.
  intros H0 H1 H2. induction d as [d IH] using list_len_ind.
  destruct (first_occurrence sep d) as [Hno|(pre & post & -> & Hno)].
  - destruct d as [|x d]; [exact H0|]. apply H2; [exact Hno|discriminate].
  - apply H1; [exact Hno|]. apply IH. rewrite app_length. cbn [length]. lia.
Qed.

(* the token is f of the text before the first sep: f = identity for byteSplitter, dropCR for
   ScanLines *)
Record sep_spec (sep : Z) (f : bytes -> bytes) (sc : rawfn) : Prop := {
  sc_found : forall pre post e, ~ In sep pre ->
    sc (pre ++ sep :: post) e = Ok (zlen pre + 1, Some (f pre), None);
  sc_none : forall d e, ~ In sep d ->
    sc d e = Ok (if e && negb (nilb d) then (zlen d, Some (f d), None) else (0, None, None))
}.

Lemma byte_scan_spec sep : sep_spec sep (fun x => x) (byte_scan sep).
Proof.
  split.
  - intros pre post e Hn. unfold byte_scan. rewrite zlen_eqb_0.
    replace (nilb (pre ++ sep :: post)) with false by (destruct pre; reflexivity).
    rewrite andb_false_r. rewrite index_byte_found by exact Hn.
    pose proof (zlen_nonneg pre).
    replace (0 <=? zlen pre) with true by (symmetry; apply Z.leb_le; lia).
    rewrite slice_prefix by (rewrite zlen_app; pose proof (zlen_nonneg (sep :: post)); lia).
    cbn [rbind]. rewrite ztake_zlen_app. reflexivity.
  - intros d e Hn. unfold byte_scan. rewrite zlen_eqb_0.
    destruct e, (nilb d) eqn:E; cbn [andb negb]; try reflexivity;
      rewrite index_byte_none by exact Hn; reflexivity.
Qed.

(* bufio.ScanLines is byteSplitter for "\n" with dropCR applied to the token *)
Lemma scan_lines_byte d e :
  scan_lines d e = match byte_scan 10 d e with
                   | Ok (adv, Some t, rt) => Ok (adv, Some (strip_last 13 t), rt)
                   | r => r
                   end.
Proof.
  unfold scan_lines, byte_scan, drop_cr. destruct (e && (zlen d =? 0)); [reflexivity|].
  destruct (0 <=? index_byte 10 d).
  - destruct (slice d 0 (index_byte 10 d)); cbn [rbind]; try reflexivity.
    rewrite drop_last_ok. reflexivity.
  - destruct e; [|reflexivity]. rewrite drop_last_ok. reflexivity.
Qed.

Lemma scan_lines_spec : sep_spec 10 (strip_last 13) scan_lines.
Proof.
  split.
  - intros pre post e Hn. rewrite scan_lines_byte, (sc_found _ _ _ (byte_scan_spec 10)) by exact Hn.
    reflexivity.
  - intros d e Hn. rewrite scan_lines_byte, (sc_none _ _ _ (byte_scan_spec 10)) by exact Hn.
    destruct (e && negb (nilb d)); reflexivity.
Qed.

Section SepSplit.
  Variable sep : Z.
  Variable f : bytes -> bytes.
  Variable rs : bytes.
  Variable sc : rawfn.
  Hypothesis spec : sep_spec sep f sc.

  Let sp := to_split rs sc.

  Lemma sep_found st pre post e : ~ In sep pre ->
    sp st (pre ++ sep :: post) e = SOk (zlen pre + 1) (Some (f pre, rs)) st.
  Proof. intros H. unfold sp, to_split. rewrite (sc_found _ _ _ spec) by exact H. reflexivity. Qed.

  Lemma sep_none st d e : ~ In sep d -> sp st d e = at_end (f d, rs) st d e.
  Proof.
    intros H. unfold sp, to_split, at_end. rewrite (sc_none _ _ _ spec) by exact H.
    destruct (e && negb (nilb d)); reflexivity.
  Qed.

  Lemma sep_wb : wb unit record sp.
  Proof.
    split.
    - intros st d e. destruct (first_occurrence sep d) as [Hn|(pre & post & -> & Hn)].
      + rewrite sep_none by exact Hn. apply at_end_ok.
      + rewrite sep_found by exact Hn. exists (zlen pre + 1), (Some (f pre, rs)), st.
        split; [reflexivity|]. rewrite zlen_app, zlen_cons.
        pose proof (zlen_nonneg pre). pose proof (zlen_nonneg post). split; [lia|]. intros _. lia.
    - intros st. rewrite sep_none by (intros []). reflexivity.
  Qed.

  Lemma sep_stable : stable unit record sp.
  Proof.
    apply stable_simple. split; [exact sep_wb| |].
    - intros st d adv t st' Hs d'.
      destruct (first_occurrence sep d) as [Hn|(pre & post & -> & Hn)].
      + rewrite sep_none, at_end_false in Hs by exact Hn. discriminate.
      + rewrite sep_found in Hs by exact Hn. rewrite <- app_assoc. cbn [app].
        rewrite sep_found by exact Hn. exact Hs.
    - intros st d adv st' Hs.
      destruct (first_occurrence sep d) as [Hn|(pre & post & -> & Hn)].
      + rewrite sep_none, at_end_false in Hs by exact Hn. injection Hs as <- <-. split; reflexivity.
      + rewrite sep_found in Hs by exact Hn. discriminate.
  Qed.

  Definition sep_records (data : bytes) : list bytes :=
    map fst (fst (reference unit record sp tt data)).

  Lemma sep_records_nil : sep_records [] = [].
  Proof.
    unfold sep_records, reference, finish. rewrite (drainF_wb _ _ _ sep_wb).
    rewrite sep_none by (intros []). reflexivity.
  Qed.

  Lemma sep_records_found pre post : ~ In sep pre ->
    sep_records (pre ++ sep :: post) = f pre :: sep_records post.
  Proof.
    intros Hn. unfold sep_records, reference, finish. rewrite (drainF_wb _ _ _ sep_wb).
    rewrite sep_found by exact Hn. rewrite zdrop_app_zlen by lia. change (zdrop 1 (sep :: post)) with post.
    destruct tt. cbn [tcons fst snd map]. reflexivity.
  Qed.

  Lemma sep_records_none d : ~ In sep d -> d <> [] -> sep_records d = [f d].
  Proof.
    intros Hn Hd. unfold sep_records, reference, finish. rewrite (drainF_wb _ _ _ sep_wb).
    rewrite sep_none by exact Hn. unfold at_end. apply nilb_false in Hd. rewrite Hd. cbn [andb negb].
    rewrite zdrop_all by lia. destruct tt. cbn [tcons fst snd map].
    rewrite (drainF_wb _ _ _ sep_wb). rewrite sep_none by (intros []). reflexivity.
  Qed.
End SepSplit.

Fixpoint join (sep : bytes) (l : list bytes) : bytes :=
  match l with
  | [] => []
  | r :: l' => match l' with [] => r | _ => r ++ sep ++ join sep l' end
  end.

Definition byte_split (sep : Z) : splitfn unit record := to_split [sep] (byte_scan sep).
Definition lines_split : splitfn unit record := to_split [10] scan_lines.

Definition byte_records (sep : Z) : bytes -> list bytes := sep_records [sep] (byte_scan sep).
Definition lines_records : bytes -> list bytes := sep_records [10] scan_lines.

Lemma byte_stable sep : stable unit record (byte_split sep).
Proof. exact (sep_stable sep _ [sep] _ (byte_scan_spec sep)). Qed.

Lemma lines_stable : stable unit record lines_split.
Proof. exact (sep_stable 10 _ [10] _ scan_lines_spec). Qed.

(* single-byte RS: the records joined by RS give back the input, up to one final RS; no record
   contains RS; there is no record iff the input is empty *)
Theorem byte_join sep data :
  let recs := byte_records sep data in
  (data = join [sep] recs \/ data = join [sep] recs ++ [sep]) /\
  Forall (fun r => ~ In sep r) recs /\
  (recs = [] <-> data = []).
Proof.
  cbn zeta. unfold byte_records. pose proof (byte_scan_spec sep) as B.
  pattern data. apply (sep_ind sep); clear data.
  - rewrite (sep_records_nil sep _ [sep] _ B).
    split; [left; reflexivity|]. split; [constructor|]. split; reflexivity.
  - intros pre post Hn (IH1 & IH2 & IH3).
    rewrite (sep_records_found sep _ [sep] _ B) by exact Hn.
    split; [|split; [constructor; assumption|split; [discriminate|intros H; destruct pre; discriminate]]].
    cbn [join]. destruct (sep_records [sep] (byte_scan sep) post) as [|r recs] eqn:E.
    + assert (post = []) by (apply IH3; reflexivity). subst post. right. reflexivity.
    + destruct IH1 as [IH1|IH1].
      * left. rewrite IH1 at 1. reflexivity.
      * right. rewrite IH1 at 1. rewrite <- !app_assoc. reflexivity.
  - intros d Hn Hd. rewrite (sep_records_none sep _ [sep] _ B) by assumption.
    split; [left; reflexivity|]. split; [repeat constructor; exact Hn|]. split; [discriminate|congruence].
Qed.

Lemma sep_records_map sep f1 rs1 sc1 f2 rs2 sc2 (g : bytes -> bytes) :
  sep_spec sep f1 sc1 -> sep_spec sep f2 sc2 -> (forall x, f1 x = g (f2 x)) ->
  forall data, sep_records rs1 sc1 data = map g (sep_records rs2 sc2 data).
Proof.
  intros S1 S2 Hg data. pattern data. apply (sep_ind sep); clear data.
  - rewrite (sep_records_nil sep f1 rs1 sc1 S1), (sep_records_nil sep f2 rs2 sc2 S2). reflexivity.
  - intros pre post Hn IH.
    rewrite (sep_records_found sep f1 rs1 sc1 S1), (sep_records_found sep f2 rs2 sc2 S2) by exact Hn.
    cbn [map]. rewrite IH, Hg. reflexivity.
  - intros d Hn Hd.
    rewrite (sep_records_none sep f1 rs1 sc1 S1), (sep_records_none sep f2 rs2 sc2 S2) by assumption.
    cbn [map]. rewrite Hg. reflexivity.
Qed.

(* RS = "\n": the records are the "\n"-separated pieces with one trailing CR dropped *)
Theorem lines_spec data : lines_records data = map (strip_last 13) (byte_records 10 data).
Proof. exact (sep_records_map 10 _ _ _ _ _ _ _ scan_lines_spec (byte_scan_spec 10) (fun x => eq_refl) data). Qed.

Section RegexSplit.
  Variable find : bytes -> option (Z * Z).
  Variable rs : bytes.
  (* FindIndex returns offsets inside the text *)
  Hypothesis find_bounds : forall d s e, find d = Some (s, e) -> 0 <= s /\ s <= e /\ e <= zlen d.

  Let sp := to_split rs (regex_scan find).

  Lemma regex_found st d e s en : find d = Some (s, en) -> s <> en ->
    sp st d e = SOk en (Some (ztake s d, ztake (en - s) (zdrop s d))) st.
  Proof.
    intros Hf Hne. destruct (find_bounds _ _ _ Hf) as (H1 & H2 & H3).
    unfold sp, to_split, regex_scan. rewrite zlen_eqb_0.
    assert (Hd : d <> []) by (intros ->; rewrite zlen_nil in H3; lia).
    rewrite (proj2 (nilb_false d) Hd).
    rewrite andb_false_r. rewrite Hf.
    replace (s =? en) with false by (symmetry; apply Z.eqb_neq; exact Hne). cbn [negb].
    rewrite slice_ok by lia. rewrite slice_prefix by lia. reflexivity.
  Qed.

  Lemma regex_nomatch st d e :
    (find d = None \/ exists s, find d = Some (s, s)) -> sp st d e = at_end (d, []) st d e.
  Proof.
    intros Hf. unfold sp, to_split, regex_scan, at_end. rewrite zlen_eqb_0.
    destruct e, (nilb d) eqn:E; cbn [andb negb]; try reflexivity;
      destruct Hf as [->|(s & ->)]; try rewrite Z.eqb_refl; reflexivity.
  Qed.

  Lemma find_cases d :
    (exists s en, find d = Some (s, en) /\ s <> en) \/ (find d = None \/ exists s, find d = Some (s, s)).
  Proof.
    destruct (find d) as [[s en]|] eqn:E; [|right; left; reflexivity].
    destruct (Z.eq_dec s en) as [->|Hne]; [right; right; exists en; reflexivity|].
    left. exists s, en. split; [reflexivity|exact Hne].
  Qed.

  Lemma regex_wb : wb unit record sp.
  Proof.
    split.
    - intros st d e. destruct (find_cases d) as [(s & en & Hf & Hne)|Hf].
      + rewrite (regex_found st d e s en Hf Hne). destruct (find_bounds _ _ _ Hf) as (H1 & H2 & H3).
        eexists _, _, _. split; [reflexivity|]. split; [lia|]. intros _. lia.
      + rewrite regex_nomatch by exact Hf. apply at_end_ok.
    - intros st. destruct (find_cases []) as [(s & en & Hf & Hne)|Hf].
      + destruct (find_bounds _ _ _ Hf) as (H1 & H2 & H3). rewrite zlen_nil in H3. lia.
      + rewrite regex_nomatch by exact Hf. reflexivity.
  Qed.

  (* regex RS: for EVERY delivery, record ++ RT concatenated in order is the input *)
  Lemma regex_consuming : consuming unit record sp (fun t => fst t ++ snd t).
  Proof.
    split; [exact regex_wb| |].
    - intros st d e adv t st' Hs. destruct (find_cases d) as [(s & en & Hf & Hne)|Hf].
      + rewrite (regex_found st d e s en Hf Hne) in Hs. injection Hs as <- <- <-.
        destruct (find_bounds _ _ _ Hf) as (H1 & H2 & H3). cbn [fst snd].
        rewrite <- ztake_add by lia. f_equal. lia.
      + rewrite regex_nomatch in Hs by exact Hf. unfold at_end in Hs.
        destruct (e && negb (nilb d)); [|discriminate].
        injection Hs as <- <- <-. cbn [fst snd]. rewrite app_nil_r. apply ztake_all. lia.
    - intros st d e adv st' Hs. destruct (find_cases d) as [(s & en & Hf & Hne)|Hf].
      + rewrite (regex_found st d e s en Hf Hne) in Hs. discriminate.
      + rewrite regex_nomatch in Hs by exact Hf. unfold at_end in Hs.
        destruct (e && negb (nilb d)) eqn:E; [discriminate|].
        injection Hs as <- <-. split; [reflexivity|]. intros ->. cbn [andb] in E.
        apply negb_false_iff, nilb_true in E. exact E.
  Qed.

  (* a non-empty match, once found, is the match whatever data follows *)
  Definition match_final : Prop :=
    forall d d' s en, find d = Some (s, en) -> s <> en -> find (d ++ d') = Some (s, en).

  Lemma regex_simple : match_final -> simple unit record sp.
  Proof.
    intros MF. split; [exact regex_wb| |].
    - intros st d adv t st' Hs d'. destruct (find_cases d) as [(s & en & Hf & Hne)|Hf].
      + rewrite (regex_found st d false s en Hf Hne) in Hs. injection Hs as <- <- <-.
        destruct (find_bounds _ _ _ Hf) as (H1 & H2 & H3).
        rewrite (regex_found st (d ++ d') true s en (MF _ _ _ _ Hf Hne) Hne).
        rewrite ztake_app_le by lia. rewrite zdrop_app_le by lia.
        rewrite ztake_app_le; [reflexivity|]. rewrite zlen_zdrop by lia. lia.
      + rewrite regex_nomatch, at_end_false in Hs by exact Hf. discriminate.
    - intros st d adv st' Hs. destruct (find_cases d) as [(s & en & Hf & Hne)|Hf].
      + rewrite (regex_found st d false s en Hf Hne) in Hs. discriminate.
      + rewrite regex_nomatch, at_end_false in Hs by exact Hf. injection Hs as <- <-. split; reflexivity.
  Qed.

  Lemma regex_stable : match_final -> stable unit record sp.
  Proof. intros MF. exact (stable_simple _ _ _ (regex_simple MF)). Qed.
End RegexSplit.

(* RS assigned while a regexSplitter reads: in state n it is the regexSplitter for find_at n *)
Section Sched.
  Variable rs_at : nat -> bytes.
  Variable find_at : nat -> bytes -> option (Z * Z).
  Hypothesis find_bounds : forall n d s e, find_at n d = Some (s, e) -> 0 <= s /\ s <= e /\ e <= zlen d.

  Let sp := regex_split_sched rs_at find_at.

  Lemma sched_unit n d e :
    sp n d e = match to_split (rs_at n) (regex_scan (find_at n)) tt d e with
               | SOk adv tok _ => SOk adv tok (match tok with Some _ => S n | None => n end)
               | SPanic => SPanic
               end.
  Proof.
    unfold sp, regex_split_sched, to_split.
    destruct (regex_scan (find_at n) d e) as [[[adv tok] rtw]| | |]; try reflexivity.
    destruct tok; reflexivity.
  Qed.

  Lemma sched_stable : (forall n, match_final (find_at n)) -> stable nat record sp.
  Proof.
    intros MF. apply stable_simple.
    apply (simple_indexed nat record (fun n => to_split (rs_at n) (regex_scan (find_at n))) S sp sched_unit).
    intros n. exact (regex_simple (find_at n) (rs_at n) (find_bounds n) (MF n)).
  Qed.
End Sched.
