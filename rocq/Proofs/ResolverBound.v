(* C16: a static bound on the number of passes.  Every pass that is followed by
   another one has created a variable or determined a type; a table has one
   entry per parameter and per global variable of the program.  Hence with at
   most [cut/2] distinct variables and parameters the cut-off cannot fire. *)
From Verif Require Import Lib.Base Model.Resolver Proofs.Resolver Proofs.ResolverSound Proofs.ResolverExact.
Open Scope Z_scope.

Definition key_dec : forall a b : key, {a = b} + {a <> b}.
Proof. decide equality; apply (list_eq_dec Z.eq_dec). Defined.

Definition keys_of (c : constr) : list key :=
  match c with CIs k _ => [k] | CEq k1 k2 => [k1; k2] | CNotArr k => [k] end.

Definition prog_constraints (P : program) : list constr :=
  flat_map (fun fd => flat_map (constr_of_step P (f_name fd)) (flat_events (f_body fd))) (p_funcs P)
  ++ flat_map (constr_of_step P []) (flat_events (p_main P)).

Definition local_keys (P : program) : list key :=
  flat_map (fun fd => map (fun p => (f_name fd, p)) (f_params fd)) (p_funcs P).

(* every key the table can ever hold *)
Definition var_keys (P : program) : list key :=
  [gk n_ARGV; gk n_ENVIRON; gk n_FIELDS] ++ local_keys P ++ flat_map keys_of (prog_constraints P).

(* number of distinct parameters and global variables (ARGV, ENVIRON, FIELDS included) *)
Definition key_count (P : program) : Z := zlen (nodup key_dec (var_keys P)).

(* what the updates are counted against: the entries of a table plus those with a type *)

Definition isknown (t : ty) : Z := match t with TUnknown => 0 | _ => 1 end.
Fixpoint known_count (t : vtable) : Z :=
  match t with [] => 0 | (_, v) :: r => isknown v + known_count r end.
Definition mu (t : vtable) : Z := zlen t + known_count t.

Lemma get_None_keys t k : get t k = None <-> ~ In k (map fst t).
Proof.
  induction t as [|[k' v] t IH]; cbn [get map fst In].
  - split; [intros _ [] | reflexivity].
  - destruct (key_eqb k k') eqn:E.
    + apply key_eqb_eq in E. subst. split; [discriminate | intros H; exfalso; apply H; left; reflexivity].
    + apply key_eqb_neq in E. rewrite IH. split; [intros H [H1|H1]; [congruence | contradiction] | intros H H1; apply H; right; exact H1].
Qed.

Lemma get_present_keys t k : get t k <> None <-> In k (map fst t).
Proof.
  split.
  - intros H. destruct (in_dec key_dec k (map fst t)) as [Hin|Hin]; [exact Hin|].
    apply get_None_keys in Hin. contradiction.
  - intros Hin Hc. apply get_None_keys in Hc. contradiction.
Qed.

Lemma put_absent t k v : get t k = None -> put t k v = t ++ [(k, v)].
Proof.
  induction t as [|[k' v'] t IH]; cbn [get put app]; [reflexivity|].
  destruct (key_eqb k k'); [discriminate|]. intros H. rewrite (IH H). reflexivity.
Qed.

Lemma put_present_keys t k v : get t k <> None -> map fst (put t k v) = map fst t.
Proof.
  induction t as [|[k' v'] t IH]; cbn [get put map fst]; [congruence|].
  destruct (key_eqb k k') eqn:E; cbn [map fst].
  - apply key_eqb_eq in E. subst. reflexivity.
  - intros H. rewrite (IH H). reflexivity.
Qed.

Lemma put_present_known t k v old :
  get t k = Some old -> known_count (put t k v) = known_count t - isknown old + isknown v.
Proof.
  induction t as [|[k' v'] t IH]; cbn [get put known_count]; [discriminate|].
  destruct (key_eqb k k') eqn:E; cbn [known_count].
  - intros H. injection H as ->. lia.
  - intros H. rewrite (IH H). lia.
Qed.

Lemma known_count_app a b : known_count (a ++ b) = known_count a + known_count b.
Proof. induction a as [|[k v] a IH]; cbn [app known_count]; [reflexivity | rewrite IH; lia]. Qed.

Lemma known_count_bounds t : 0 <= known_count t <= zlen t.
Proof.
  induction t as [|[k v] t IH]; cbn [known_count]; [unfold zlen; cbn; lia|].
  rewrite zlen_cons. destruct v; cbn [isknown]; lia.
Qed.

(* the keys of the table are distinct and among [K], and every update so far
   has added an entry or given one its type *)
Definition tbK (K : list key) (s : state) : Prop :=
  NoDup (map fst (st_vars s)) /\ incl (map fst (st_vars s)) K /\ st_updates s <= mu (st_vars s).

Lemma tbK_put_absent K s k v :
  tbK K s -> get (st_vars s) k = None -> In k K ->
  tbK K {| st_vars := put (st_vars s) k v; st_updates := st_updates s + 1 |}.
Proof.
  intros [B1 [B2 B3]] G Hk. unfold tbK. cbn [st_vars st_updates]. rewrite (put_absent _ k v G).
  rewrite map_app. cbn [map fst]. split; [|split].
  - apply NoDup_snoc; [exact B1 | apply get_None_keys; exact G].
  - intros x Hx. apply in_app_or in Hx. destruct Hx as [Hx|[<-|[]]]; [apply B2; exact Hx | exact Hk].
  - unfold mu in *. rewrite zlen_app, known_count_app. cbn [known_count]. unfold zlen at 2. cbn [length].
    destruct v; cbn [isknown]; lia.
Qed.

Lemma tbK_put_known K s k v :
  tbK K s -> get (st_vars s) k = Some TUnknown -> v <> TUnknown ->
  tbK K {| st_vars := put (st_vars s) k v; st_updates := st_updates s + 1 |}.
Proof.
  intros [B1 [B2 B3]] G Hv. unfold tbK. cbn [st_vars st_updates].
  assert (Hne : get (st_vars s) k <> None) by congruence.
  rewrite (put_present_keys _ k v Hne). split; [exact B1|]. split; [exact B2|].
  unfold mu in *. rewrite (put_present_known _ k v TUnknown G).
  assert (Hl : zlen (put (st_vars s) k v) = zlen (st_vars s)).
  { unfold zlen. f_equal. rewrite <- (map_length fst (put (st_vars s) k v)), (put_present_keys _ k v Hne). apply map_length. }
  rewrite Hl. destruct v; cbn [isknown]; try congruence; lia.
Qed.

Lemma record_var_tbK P K s cur v typ s' :
  tbK K s -> (lookup_var (st_vars s) cur v = None -> In (gk v) K) ->
  record_var P s cur v typ = ROk s' -> tbK K s' /\ st_updates s <= st_updates s'.
Proof.
  intros Hb Hk H. pose proof (record_var_out P s cur v typ) as O. rewrite H in O.
  inversion O; subst; cbn [st_updates]; (split; [|lia]).
  - exact Hb.
  - apply tbK_put_known; assumption.
  - apply tbK_put_absent; [exact Hb | eapply lookup_var_None; eassumption | auto].
Qed.

Lemma tbK_len K K' s :
  tbK K s -> incl K K' -> st_updates s <= 2 * num_vars s /\ num_vars s <= zlen K'.
Proof.
  intros [B1 [B2 B3]] HK. unfold num_vars. pose proof (known_count_bounds (st_vars s)) as Hk. unfold mu in B3.
  split; [lia|]. unfold zlen. apply inj_le. rewrite <- (map_length fst (st_vars s)).
  apply NoDup_incl_length; [exact B1|]. intros k Hin. apply HK, B2, Hin.
Qed.

Lemma put_nodup t k v : NoDup (map fst t) -> NoDup (map fst (put t k v)).
Proof.
  intros H. destruct (get t k) eqn:G.
  - rewrite put_present_keys; [exact H | congruence].
  - rewrite (put_absent t k v G), map_app. cbn [map fst].
    apply NoDup_snoc; [exact H | apply get_None_keys; exact G].
Qed.

Lemma init_vars_nodup P : NoDup (map fst (init_vars P)).
Proof.
  unfold init_vars.
  assert (G : forall fs t, NoDup (map fst t) ->
            NoDup (map fst (fold_left (fun t fd => fold_left (fun t p => put t (f_name fd, p) TUnknown) (f_params fd) t) fs t))).
  { induction fs as [|fd fs IH]; intros t Ht; cbn [fold_left]; [exact Ht|]. apply IH.
    generalize (f_params fd). intros ps. revert t Ht. induction ps as [|p ps IHp]; intros t Ht; cbn [fold_left]; [exact Ht|].
    apply IHp. apply put_nodup. exact Ht. }
  apply G. constructor.
Qed.

Lemma tbK_start P K : incl (local_keys P) K -> tbK K (start_state P).
Proof.
  intros HK. split; [apply init_vars_nodup|]. cbn [start_state st_vars st_updates]. split.
  - intros k Hk. apply get_present_keys in Hk.
    destruct (init_vars_key P k Hk) as [fd [p [Hfd [Hp ->]]]]. apply HK.
    unfold local_keys. apply in_flat_map. exists fd. split; [exact Hfd|]. apply in_map. exact Hp.
  - pose proof (known_count_bounds (init_vars P)). pose proof (zlen_nonneg (init_vars P)). unfold mu. lia.
Qed.

(* the updates counter never goes back: the preorder of [good] for the bounds *)
Lemma forward_refl (s : state) : st_updates s <= st_updates s.
Proof. lia. Qed.
Lemma forward_trans (a b c : state) :
  st_updates a <= st_updates b -> st_updates b <= st_updates c -> st_updates a <= st_updates c.
Proof. lia. Qed.

(* ---------- with the keys the constraints mention ------------------------------------------- *)

Section Bound.
Variable P : program.
Hypothesis Hnodup : NoDup (fnames P).
Hypothesis Hnonempty : names_ok P.

Definition bounded (s : state) : Prop := tbK (var_keys P) s.

Lemma record_var_bounded s cur v typ s' :
  inv P (st_vars s) -> bounded s ->
  (kspecial (scope_key P cur v) = false -> In (scope_key P cur v) (var_keys P)) ->
  record_var P s cur v typ = ROk s' -> bounded s'.
Proof.
  intros Hi Hb Hk H. apply (record_var_tbK P _ s cur v typ s' Hb); [|exact H].
  rewrite (lookup_spec P _ cur v Hi). cbv zeta. intros El.
  destruct (kspecial (scope_key P cur v)) eqn:Ek; [discriminate El|].
  destruct (get (st_vars s) (scope_key P cur v)) eqn:G; [discriminate El|].
  rewrite <- (absent_global P _ cur v Hi G). apply Hk. reflexivity.
Qed.

Lemma mentions_keys c k : mentions c k -> In k (keys_of c).
Proof. destruct c; cbn [mentions keys_of In]; tauto. Qed.

Lemma keys_of_mentions c k : In k (keys_of c) -> mentions c k.
Proof. destruct c; cbn [mentions keys_of In]; tauto. Qed.

Lemma constraint_keys c k :
  In c (constraints P) -> In k (keys_of c) -> kspecial k = false -> In k (var_keys P).
Proof.
  intros Hc Hk Hs. unfold constraints in Hc. apply in_app_or in Hc. destruct Hc as [Hc|Hc].
  - apply in_base_constraints in Hc. destruct Hc as [[v [Hv ->]]|[v [Hv ->]]]; cbn [keys_of In] in Hk; destruct Hk as [<-|[]].
    + unfold var_keys. apply in_or_app. left. cbn [In] in *. destruct Hv as [<-|[<-|[<-|[]]]]; auto.
    + rewrite kspecial_gk in Hs. congruence.
  - unfold var_keys. apply in_or_app. right. apply in_or_app. right.
    apply in_flat_map. exists c. split; [exact Hc | exact Hk].
Qed.

Lemma prog_constraint_quiet s c :
  all_quiet P s -> In c (prog_constraints P) -> exists cur st, quiet P s cur st /\ In c (constr_of_step P cur st).
Proof.
  intros [Hfq Hmq] Hc. unfold prog_constraints in Hc. apply in_app_or in Hc. destruct Hc as [Hc|Hc].
  - apply in_flat_map in Hc. destruct Hc as [fd [Hfd Hc]]. apply in_flat_map in Hc. destruct Hc as [st [Hst Hc]].
    exists (f_name fd), st. split; [|exact Hc].
    specialize (Hfq fd Hfd). rewrite Forall_forall in Hfq. apply Hfq. exact Hst.
  - apply in_flat_map in Hc. destruct Hc as [st [Hst Hc]].
    exists [], st. split; [|exact Hc].
    rewrite Forall_forall in Hmq. apply Hmq. exact Hst.
Qed.

(* A good state within the bound.  No step reports the cut-off, so the errors
   [E] of a run may or may not include it: it is left out where the cut-off is
   to be refuted, and let in where only the end state matters. *)
Section Within.
Variable E : rerr -> Prop.
Hypothesis HE : forall e, e <> ETooManyIter -> E e.

Notation within := (good (fun s => state_ok P s /\ bounded s) (fun s s' => st_updates s <= st_updates s') E True True).

Lemma visit_step_within cur st s : step_in P cur st -> state_ok P s /\ bounded s -> within s (visit_step P cur s st).
Proof.
  intros Hin [Hok Hb]. pose proof (visit_step_sound P Hnonempty cur st s Hin Hok) as G.
  pose proof (visit_step_not_toomany P cur s st) as Ht.
  destruct (visit_step P cur s st) as [s'|e| |] eqn:Ev; cbn [good] in *; trivial; [|apply HE; congruence].
  destruct G as [Hok' [Hm _]]. split; [|exact Hm]. split; [exact Hok'|].
  pose proof (visit_step_out P cur s st) as O. rewrite Ev in O. inversion O as [| | |c v t c0 Hc0 Hm0 _ Hr]; subst; [exact Hb|].
  apply (record_var_bounded s c v t s' (proj1 Hok) Hb); [|exact Hr].
  apply (constraint_keys c0); [apply Hin; exact Hc0 | apply mentions_keys; exact Hm0].
Qed.

Lemma body_within fd s :
  In fd (p_funcs P) -> state_ok P s /\ bounded s -> within s (run_steps P (f_name fd) (flat_events (f_body fd)) s).
Proof.
  intros Hfd. apply (run_steps_good P _ _ _ _ _ forward_refl forward_trans (step_in P) visit_step_within).
  apply body_steps_in. exact Hfd.
Qed.

Lemma main_within s : state_ok P s /\ bounded s -> within s (run_steps P [] (flat_events (p_main P)) s).
Proof.
  apply (run_steps_good P _ _ _ _ _ forward_refl forward_trans (step_in P) visit_step_within). apply main_steps_in.
Qed.

Lemma walk_ordered_within order s : state_ok P s /\ bounded s -> within s (walk_ordered P order s).
Proof. apply (walk_ordered_good P _ _ _ _ _ forward_refl forward_trans body_within main_within). Qed.

Lemma init_bounded : bounded (start_state P).
Proof.
  apply (tbK_start P). intros k Hk. unfold var_keys. apply in_or_app. right. apply in_or_app. left. exact Hk.
Qed.

Lemma builtin_key_in (v : name) : In v [n_ARGV; n_ENVIRON; n_FIELDS] ->
  kspecial (scope_key P [] v) = false -> In (scope_key P [] v) (var_keys P).
Proof.
  intros Hv _. assert (Hk : scope_key P [] v = gk v) by reflexivity. rewrite Hk.
  unfold var_keys. apply in_or_app. left. cbn [In] in *. destruct Hv as [<-|[<-|[<-|[]]]]; auto.
Qed.

Lemma record_builtin_within v s :
  In v [n_ARGV; n_ENVIRON; n_FIELDS] -> state_ok P s /\ bounded s -> within s (record_var P s [] v TArray).
Proof.
  intros Hv [Hok Hb]. pose proof (record_builtin_sound P v s Hv Hok) as G.
  pose proof (record_var_not_toomany P s [] v TArray) as Ht.
  destruct (record_var P s [] v TArray) as [s'|e| |] eqn:Er; cbn [good] in *; trivial; [|apply HE; congruence].
  destruct G as [Hok' [Hm _]]. split; [|exact Hm]. split; [exact Hok'|].
  exact (record_var_bounded s [] v TArray s' (proj1 Hok) Hb (builtin_key_in v Hv) Er).
Qed.

Lemma passes_within order loop :
  (forall s3 s4, st_updates s3 >= 0 -> state_ok P s4 /\ bounded s4 -> st_updates s3 <= st_updates s4 ->
     within s4 (loop s4 (st_updates s3))) ->
  within (start_state P) (passes P order loop).
Proof.
  intros Hloop.
  apply (passes_good P _ _ _ _ _ forward_refl forward_trans body_within main_within
           (conj (init_state_ok P Hnodup Hnonempty) init_bounded) record_builtin_within).
  intros s3 s4 _ M3 H4 M4. cbn [start_state st_updates] in M3. apply Hloop; [lia | exact H4 | exact M4].
Qed.

End Within.

Lemma bounded_updates s : bounded s -> st_updates s <= 2 * key_count P.
Proof.
  intros Hb. destruct (tbK_len _ (nodup key_dec (var_keys P)) s Hb) as [H1 H2]; [|unfold key_count; lia].
  intros k Hk. apply nodup_In. exact Hk.
Qed.

(* every pass that is followed by another one has updated the table, and the
   updates are bounded: a loop with enough turns left never reports the cut-off *)
Lemma pass_loop_within order k : forall s u,
  state_ok P s /\ bounded s -> u <= st_updates s -> 2 * key_count P < u + Z.of_nat k + 1 ->
  good (fun s => state_ok P s /\ bounded s) (fun s s' => st_updates s <= st_updates s')
       (fun e => e <> ETooManyIter) True True s (pass_loop P order k s u).
Proof.
  induction k as [|k IH]; intros s u Hs Hu Hk; rewrite pass_loop_eq;
    (destruct (Z.eqb_spec (st_updates s) u) as [|E]; [apply (good_ok _ _ _ _ _ forward_refl); exact Hs|]);
    (apply (good_bind _ _ _ _ _ forward_trans); [apply walk_ordered_within; [auto | exact Hs]|]); intros s1 H1 R1.
  - exfalso. pose proof (bounded_updates s1 (proj2 H1)). lia.
  - apply IH; [exact H1 | exact R1 | lia].
Qed.

(* STATIC BOUND: with at most cut/2 distinct variables and parameters the
   iteration cut-off cannot fire *)
Theorem resolve_order_no_cutoff cut order :
  2 * key_count P <= Z.of_nat cut -> resolve_order cut order P <> RErr ETooManyIter.
Proof.
  intros Hc. rewrite resolve_order_eq. unfold finish. destruct (first_dup [] (fnames P)); [discriminate|].
  pose proof (passes_within (fun e => e <> ETooManyIter) (fun e H => H) order (pass_loop P order cut)) as G.
  destruct (passes P order (pass_loop P order cut)); cbn [rbind2 good] in *; try discriminate.
  intros Heq. injection Heq as ->. apply G; [|reflexivity].
  intros s3 s4 M3 H4 M4. apply pass_loop_within; [exact H4 | exact M4 | lia].
Qed.

Lemma passes_bounded order cut s5 : passes P order (pass_loop P order cut) = ROk s5 -> bounded s5.
Proof.
  intros Ep. pose (any := fun _ : rerr => True). assert (Hany : forall e, e <> ETooManyIter -> any e) by exact (fun _ _ => I).
  pose proof (passes_within any Hany order (pass_loop P order cut)) as G. rewrite Ep in G. apply G.
  intros s3 s4 _ H4 _.
  apply (pass_loop_good P _ _ any True True forward_refl forward_trans (body_within any Hany) (main_within any Hany));
    [exact I | exact H4].
Qed.

End Bound.
