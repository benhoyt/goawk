(* C11: what holds of whole runs.  A reflexive, transitive relation on input states that every primitive
   move respects holds between the start and the end of every run of an arbitrary program.  Two such relations:
   [advances], for a program that leaves ARGV, ARGC and the stdin file alone: the main-input events of the
   history followed by the plan of the current state are always the plan of the initial state;
   [tracks], for every program: NR, FNR, FILENAME, the exit status and the variables are folds of the history. *)
From Verif Require Import Lib.Base Model.Input Proofs.Input.

(* what lets a relation on states be lifted: it is reflexive and transitive and every primitive move of a run
   respects it; [Q] holds of the requests the program is allowed to make *)
Record step_closed (e : env) (R : st -> st -> Prop) (Q : req -> Prop) : Prop := {
  sc_refl : forall s, R s s;
  sc_trans : forall a b c, R a b -> R b c -> R a c;
  sc_prim : forall r s s', Q r -> prim e r s = Some s' -> R s s';
  sc_exit : forall n s, R s (add_log (EvExit n) (set_status n s));
  sc_next : forall s res s', next_line e s = (res, s') -> res <> NLUnmod -> R s s';
  sc_drop : forall s, R s (drop_file s);
  sc_setline : forall l s, R s (set_line e l s);
  sc_out : forall o s, R s (add_out o s)
}.

Section Lift.
  Variable U : Type.
  Variable step : U -> st -> req * U.
  Variable enter : blk -> U -> U.
  Variable e : env.
  Variable R : st -> st -> Prop.
  Variable Q : req -> Prop.
  Hypothesis HR : step_closed e R Q.
  Let R_refl := sc_refl e R Q HR.
  Let R_trans := sc_trans e R Q HR.
  Let R_prim := sc_prim e R Q HR.
  Let R_exit := sc_exit e R Q HR.
  Let R_next := sc_next e R Q HR.
  Let R_drop := sc_drop e R Q HR.
  Let R_setline := sc_setline e R Q HR.
  Let R_out := sc_out e R Q HR.
  Variable G : U -> Prop.            (* an invariant of the program's own state *)
  Hypothesis Hprog : forall u s, G u -> Q (fst (step u s)) /\ G (snd (step u s)).
  Hypothesis Henter : forall b u, G u -> G (enter b u).

  (* the program state and the input state with which a result hands control back, if it does *)
  Definition rres_end (x : rres U) : option (U * st) :=
    match x with ROk _ u' s' => Some (u', s') | _ => None end.
  Definition pres_end (x : pres U) : option (U * st) :=
    match x with PStop _ u' s' | PSkip _ u' s' | PVal _ _ u' s' => Some (u', s') | _ => None end.
  Definition lres_end (x : lres U) : option (U * st) :=
    match x with LCont u' s' _ | LStop _ u' s' => Some (u', s') | _ => None end.
  Definition fin_end (x : fin U) : option (U * st) :=
    match x with FOk u' s' | FErr u' s' => Some (u', s') | _ => None end.

  Definition ends (s0 : st) (x : option (U * st)) : Prop :=
    match x with Some (u', s') => R s0 s' /\ G u' | None => True end.

  (* the state [s0] a run started from is carried along: each lemma takes the relation from [s0] to the present
     state and returns it from [s0] to wherever the result leaves off *)
  Lemma run_from s0 : forall fuel u s o u' s',
    R s0 s -> G u -> run U step e fuel u s = ROk o u' s' -> R s0 s' /\ G u'.
  Proof.
    induction fuel as [|fuel IH]; intros u s o u' s' H0 HG H; cbn [run] in H; [discriminate|].
    destruct (Hprog u s HG) as [HQ HG1].
    destruct (step u s) as [r u1]. cbn [fst snd] in HQ, HG1.
    destruct r as [o1| | | | | | | | | | |];
      try (destruct (prim e _ s) as [s1|] eqn:Hp; [|discriminate];
           eapply IH; [|exact HG1|exact H]; eapply R_trans; [exact H0|eapply R_prim; eassumption]).
    destruct o1 as [b| | |[n|]|]; injection H as _ <- <-; (split; [|exact HG1]); try exact H0.
    eapply R_trans; [exact H0|apply R_exit].
  Qed.

  Lemma run_lift fuel u s o u' s' : G u -> run U step e fuel u s = ROk o u' s' -> R s s' /\ G u'.
  Proof. apply run_from, R_refl. Qed.

  Lemma run_enter s0 fuel b u s : R s0 s -> G u -> ends s0 (rres_end (run U step e fuel (enter b u) s)).
  Proof.
    intros H0 HG. destruct (run U step e fuel (enter b u) s) as [| |o u1 s1] eqn:H; try exact I.
    exact (run_from s0 _ _ _ _ _ _ H0 (Henter b u HG) H).
  Qed.

  Lemma run_pat_lift s0 fuel b fcur u s k : R s0 s -> G u ->
    (forall v u1 s1, R s0 s1 -> G u1 -> ends s0 (pres_end (k v u1 s1))) ->
    ends s0 (pres_end (run_pat U step enter e fuel b fcur u s k)).
  Proof.
    intros H0 HG Hk. unfold run_pat. pose proof (run_enter s0 fuel b u s H0 HG) as H1.
    destruct (run U step e fuel (enter b u) s) as [| |o u1 s1]; [exact I..|]. destruct H1 as [H1 HG1].
    destruct o as [v| | |n|]; cbn; try (split; assumption).
    - apply Hk; assumption.
    - split; [eapply R_trans; [exact H1|apply R_drop]|exact HG1].
  Qed.

  Lemma eval_pat_lift s0 fuel r i f u s : R s0 s -> G u ->
    ends s0 (pres_end (eval_pat U step enter e fuel r i f u s)).
  Proof.
    intros H0 HG. unfold eval_pat.
    assert (Hstop : forall u1 s1, R s0 s1 -> G u1 ->
              ends s0 (pres_end (run_pat U step enter e fuel (BPat i true) true u1 s1 (fun b u2 s2 => PVal true (negb b) u2 s2)))).
    { intros u1 s1 H1 HG1. apply run_pat_lift; try assumption. intros v u2 s2 H2 HG2. split; assumption. }
    destruct (rk r).
    - split; assumption.
    - apply run_pat_lift; try assumption. intros v u1 s1 H1 HG1. split; assumption.
    - destruct f; [apply Hstop; assumption|].
      apply run_pat_lift; try assumption. intros v u1 s1 H1 HG1.
      destruct v; [apply Hstop; assumption|split; assumption].
  Qed.

  Lemma exec_rules_lift s0 fuel : forall rules i done fl u s, R s0 s -> G u ->
    ends s0 (lres_end (exec_rules U step enter e fuel rules i done fl u s)).
  Proof.
    induction rules as [|r rules IH]; intros i done fl u s H0 HG; cbn [exec_rules]; [split; assumption|].
    destruct fl as [|f fl']; [split; assumption|].
    pose proof (eval_pat_lift s0 fuel r i f u s H0 HG) as HP.
    destruct (eval_pat U step enter e fuel r i f u s) as [| |o u1 s1|f' u1 s1|m f' u1 s1];
      [exact I|exact I|exact HP|exact HP|].
    destruct HP as [HP HG1].
    destruct (negb m); [apply IH; assumption|].
    destruct (negb (has_body r)); [apply IH; [eapply R_trans; [exact HP|apply R_out]|exact HG1]|].
    pose proof (run_enter s0 fuel (BBody i) u1 s1 HP HG1) as H2.
    destruct (run U step e fuel (enter (BBody i) u1) s1) as [| |o u2 s2]; [exact I..|]. destruct H2 as [H2 HG2].
    destruct o as [b| | |n|]; cbn; try (split; assumption).
    - apply IH; assumption.
    - split; [eapply R_trans; [exact H2|apply R_drop]|exact HG2].
  Qed.

  Lemma main_loop_lift s0 fuel rules : forall n flags u s, R s0 s -> G u ->
    ends s0 (lres_end (main_loop U step enter e fuel n rules flags u s)).
  Proof.
    induction n as [|n IH]; intros flags u s H0 HG; cbn [main_loop]; [exact I|].
    destruct (next_line e s) as [res s1] eqn:HN.
    assert (H1 : res <> NLUnmod -> R s0 s1) by (intros Hun; eapply R_trans; [exact H0|eapply R_next; eassumption]).
    destruct res as [r| | | |]; cbn; try exact I; try (split; [apply H1; discriminate|exact HG]).
    assert (H2 : R s0 (set_line e r s1)) by (eapply R_trans; [apply H1; discriminate|apply R_setline]).
    pose proof (exec_rules_lift s0 fuel rules 0 [] flags u _ H2 HG) as H3.
    destruct (exec_rules U step enter e fuel rules 0 [] flags u (set_line e r s1)) as [| |u' s' fl'|o u' s'];
      [exact I|exact I| |exact H3].
    destruct H3 as [H3 HG3]. apply IH; assumption.
  Qed.

  Lemma exec_all_lift fuel rules has_end u s : G u ->
    ends s (fin_end (exec_all U step enter e fuel rules has_end u s)).
  Proof.
    intros HG. unfold exec_all. pose proof (run_enter s fuel BBegin u s (R_refl s) HG) as HB.
    destruct (run U step e fuel (enter BBegin u) s) as [| |o u1 s1]; [exact I..|]. destruct HB as [HB HG1].
    destruct (negb (is_exit o || is_val o)); [split; assumption|].
    destruct ((match rules with [] => true | _ :: _ => false end) && negb has_end); [split; assumption|].
    set (am := if is_exit o then _ else _).
    assert (HM : match am with inl x => ends s (fin_end x) | inr (u2, s2) => R s s2 /\ G u2 end).
    { subst am. destruct (is_exit o); [split; assumption|].
      pose proof (main_loop_lift s fuel rules fuel (map (fun _ => false) rules) u1 s1 HB HG1) as HL.
      destruct (main_loop U step enter e fuel fuel rules (map (fun _ => false) rules) u1 s1) as [| |u2 s2 fl|o2 u2 s2];
        [exact I|exact I|exact HL|].
      destruct (is_exit o2); exact HL. }
    clearbody am. destruct am as [x|[u2 s2]]; [exact HM|]. destruct HM as [HM HG2].
    destruct (negb has_end); [split; assumption|].
    pose proof (run_enter s fuel BEnd u2 s2 HM HG2) as HE.
    destruct (run U step e fuel (enter BEnd u2) s2) as [| |o3 u3 s3]; [exact I..|].
    destruct (is_exit o3 || is_val o3); exact HE.
  Qed.

  (* the same of the results that hand a state back, in the form in which the theorems about whole runs are stated *)
  Lemma main_loop_final fuel rules n flags u s u' s' fl' : G u ->
    main_loop U step enter e fuel n rules flags u s = LCont u' s' fl' -> R s s' /\ G u'.
  Proof.
    intros HG H. pose proof (main_loop_lift s fuel rules n flags u s (R_refl s) HG) as HA. rewrite H in HA. exact HA.
  Qed.

  Lemma exec_all_final fuel rules has_end u s u' s' : G u ->
    exec_all U step enter e fuel rules has_end u s = FOk u' s' \/
    exec_all U step enter e fuel rules has_end u s = FErr u' s' -> R s s' /\ G u'.
  Proof.
    intros HG H. pose proof (exec_all_lift fuel rules has_end u s HG) as HA.
    destruct H as [H|H]; rewrite H in HA; exact HA.
  Qed.
End Lift.

(* how one event of the history moves NR, FNR, FILENAME, the exit status and the variables *)
Definition nr_ev (x : Z) (v : ev) : Z :=
  match v with
  | EvRec _ _ => x + 1
  | EvAssign n val => if bytes_eqb n b_NR then match parse_canon_nat val with Some z => z | None => x end else x
  | EvSetNR z => z
  | _ => x
  end.

Definition fnr_ev (x : Z) (v : ev) : Z :=
  match v with
  | EvRec _ _ => x + 1
  | EvSetFile _ => 0
  | EvAssign n val =>
      if bytes_eqb n b_NR then x
      else if bytes_eqb n b_FNR then match parse_canon_nat val with Some z => z | None => x end else x
  | EvSetFNR z => z
  | _ => x
  end.

Definition fname_ev (x : bytes) (v : ev) : bytes :=
  match v with EvSetFile n => n | _ => x end.

Definition status_ev (x : Z) (v : ev) : Z :=
  match v with EvExit n => n | _ => x end.

Definition vars_ev (e : env) (x : list (bytes * bytes)) (v : ev) : list (bytes * bytes) :=
  match v with
  | EvAssign n val =>
      if bytes_eqb n b_NR then x else if bytes_eqb n b_FNR then x
      else if all_upper n then x else if bmem n (globals e) then bupdate x n val else x
  | EvSetVar n val => bupdate x n val
  | EvGetVar n val => bupdate x n val
  | _ => x
  end.

Definition obs : Type := (Z * Z * bytes * Z * list (bytes * bytes))%type.
Definition obs_of (s : st) : obs := (NR s, FNR s, FILENAME s, status s, vars s).
Definition obs_ev (e : env) (o : obs) (v : ev) : obs :=
  let '(nr, fnr, fn, stt, vs) := o in (nr_ev nr v, fnr_ev fnr v, fname_ev fn v, status_ev stt v, vars_ev e vs v).

(* [s'] is reached from [s] and its observables are those of [s] updated by the new events *)
Definition tracks (e : env) (s s' : st) : Prop :=
  exists new, log s' = new ++ log s /\ obs_of s' = fold_left (obs_ev e) (rev new) (obs_of s).

Lemma tracks_refl e s : tracks e s s.
Proof. exists []. split; reflexivity. Qed.

Lemma tracks_trans e a b c : tracks e a b -> tracks e b c -> tracks e a c.
Proof.
  intros (n1 & L1 & O1) (n2 & L2 & O2). exists (n2 ++ n1). split.
  - rewrite L2, L1, app_assoc. reflexivity.
  - rewrite rev_app_distr, fold_left_app, <- O1. exact O2.
Qed.

Lemma tracks_same e s s' : log s' = log s -> obs_of s' = obs_of s -> tracks e s s'.
Proof. intros HL HO. exists []. split; [exact HL|exact HO]. Qed.

Lemma tracks_one e s s' v : log s' = v :: log s -> obs_of s' = obs_ev e (obs_of s) v -> tracks e s s'.
Proof. intros HL HO. exists [v]. split; [exact HL|exact HO]. Qed.

(* a getline form is a read followed by a store into its target *)
Definition store (e : env) (tg : tgt) (r : Z) (l : record) (s2 : st) : option st :=
  if r =? 1 then
    match tg with
    | TLine => Some (set_line e l s2)
    | TVar v => Some (add_log (EvGetVar v l) (set_vars (bupdate (vars s2) v l) s2))
    | TField n => set_field e n l s2
    end
  else Some s2.

Lemma do_getline_split e sr tg s s' :
  do_getline e sr tg s = Some s' ->
  exists r l s1, rd_read e sr s = Some (r, l, s1) /\ store e tg r l (set_ret r s1) = Some s'.
Proof.
  unfold do_getline, store. destruct (rd_read e sr s) as [[[r l] s1]|]; [|discriminate].
  intros H. exists r, l, s1. split; [reflexivity|exact H].
Qed.

(* a read takes the next record of the main input, or comes from a file or a command and then touches
   nothing but the getline streams, and stdin when the file is "-" *)
Lemma rd_read_cases e sr s r l s1 :
  rd_read e sr s = Some (r, l, s1) ->
  (sr = SMain /\ exists res, next_line e s = (res, s1) /\ res <> NLUnmod) \/
  (sr <> SMain /\
   log s1 = log s /\ obs_of s1 = obs_of s /\ same_record s s1 /\ out s1 = out s /\ same_operands s s1 /\
   (match sr with SFile f => bytes_eqb f b_dash = false | _ => True end -> stdin s1 = stdin s)).
Proof.
  destruct sr as [|f|c]; cbn [rd_read]; unfold scan_rd; intros H; [left; split; [reflexivity|]|right..].
  - destruct (next_line e s) as [res s']. exists res.
    destruct res; try discriminate; injection H as _ _ <-; split; (reflexivity || discriminate).
  - destruct (blookup (rd s) f) as [[|r0 rest]|]; [| |destruct (bytes_eqb f b_dash)].
    1, 2: injection H as _ _ <-; repeat split; discriminate.
    + destruct (rdstdin s) as [[|r0 rest]|]; [| |destruct (stdin s)]; injection H as _ _ <-; repeat split; discriminate.
    + destruct (blookup (fs e) f) as [[|r0 rest]|]; injection H as _ _ <-; repeat split; discriminate.
  - destruct (blookup (rd s) c) as [[|r0 rest]|]; [| |destruct (blookup (cmds e) c) as [[|r0 rest]|]; [| |discriminate]];
      injection H as _ _ <-; repeat split; discriminate.
Qed.

Lemma set_field_quiet e n l s s' :
  set_field e n l s = Some s' -> same_cursor s s' /\ log s' = log s /\ obs_of s' = obs_of s /\ out s' = out s.
Proof.
  unfold set_field. destruct (n =? 0); [|destruct (n <? 0); [discriminate|]]; intros [= <-]; repeat split.
Qed.

Lemma store_quiet e tg r l s s' :
  store e tg r l s = Some s' ->
  same_cursor s s' /\ NR s' = NR s /\ FNR s' = FNR s /\ FILENAME s' = FILENAME s /\ status s' = status s /\ out s' = out s /\
  exists new, log s' = new ++ log s /\ pev_of (rev new) = [] /\ obs_of s' = fold_left (obs_ev e) (rev new) (obs_of s).
Proof.
  unfold store. destruct (r =? 1); [destruct tg as [|v|n]|]; intros H.
  - injection H as <-. repeat split. exists []. repeat split.
  - injection H as <-. repeat split. exists [EvGetVar v l]. repeat split.
  - apply set_field_quiet in H as (HC & HL & HO & Hout). pose proof HO as [= H1 H2 H3 H4 _].
    repeat split; try assumption; try apply HC. exists []. repeat split; assumption.
  - injection H as <-. repeat split. exists []. repeat split.
Qed.

(* the requests that leave ARGV, ARGC and the stdin file alone *)
Definition neutral (r : req) : Prop :=
  match r with
  | RSetArgc _ | RSetArgv _ _ | RDelArgv _ => False
  | RGetline (SFile f) _ => bytes_eqb f b_dash = false
  | _ => True
  end.

(* what a request other than getline logs *)
Definition req_log (r : req) : list ev :=
  match r with
  | RSetNR z => [EvSetNR z] | RSetFNR z => [EvSetFNR z] | RSetVar name val => [EvSetVar name val]
  | _ => []
  end.

Lemma prim_quiet e r s s' :
  prim e r s = Some s' -> (forall sr tg, r <> RGetline sr tg) ->
  log s' = req_log r ++ log s /\ obs_of s' = fold_left (obs_ev e) (rev (req_log r)) (obs_of s) /\
  (neutral r -> same_cursor s s').
Proof.
  intros H Hg. destruct r; cbn [prim] in H; try (injection H as <-; repeat split; contradiction).
  exfalso. eapply Hg. reflexivity.
Qed.

Lemma prim_advances e r s s' : neutral r -> prim e r s = Some s' -> advances e s s'.
Proof.
  intros Hn H. destruct r as [| |sr tg| | | | | | | | |];
    try (apply prim_quiet in H as (HL & _ & HC); [|discriminate]; exact (advances_quiet e _ _ _ HL eq_refl (HC Hn))).
  apply do_getline_split in H as (r & l & s1 & HR & HS).
  apply store_quiet in HS as (HC & _ & _ & _ & _ & _ & new & HL & HP & _).
  eapply advances_trans; [|exact (advances_quiet e _ _ new HL HP HC)].
  destruct (rd_read_cases _ _ _ _ _ _ HR) as [(-> & res & HN & Hun)|(_ & HL1 & _ & _ & _ & Hops & Hs)].
  - eapply advances_trans; [exact (next_line_advances _ _ _ _ HN Hun)|]. apply (advances_quiet e _ _ []); repeat split.
  - apply (advances_quiet e _ _ []); [exact HL1|reflexivity|]. split; [exact Hops|].
    apply Hs. destruct sr; [exact I|exact Hn|exact I].
Qed.

Lemma drop_file_advances e s : advances e s (drop_file s).
Proof.
  unfold drop_file. destruct (cur s) as [[name rest]|] eqn:Hc; [|apply advances_refl].
  exists [EvSkip name rest]. split; [reflexivity|].
  unfold plan, cur_part. sst. rewrite Hc. cbn [rev app pev_of flat_map pev_of1]. rewrite app_nil_r. reflexivity.
Qed.

Lemma advances_closed e : step_closed e (advances e) neutral.
Proof.
  split.
  - apply advances_refl.
  - apply advances_trans.
  - apply prim_advances.
  - intros n s. apply (advances_quiet e _ _ [EvExit n]); repeat split.
  - apply next_line_advances.
  - apply drop_file_advances.
  - intros l s. apply (advances_quiet e _ _ []); repeat split.
  - intros o s. apply (advances_quiet e _ _ []); repeat split.
Qed.

Section Order.
  Variable U : Type.
  Variable step : U -> st -> req * U.
  Variable enter : blk -> U -> U.
  Variable e : env.
  Variable G : U -> Prop.     (* an invariant of the program's own state under which it makes only neutral requests *)
  Hypothesis Hneutral : forall u s, G u -> neutral (fst (step u s)) /\ G (snd (step u s)).
  Hypothesis Henter : forall b u, G u -> G (enter b u).

  Lemma exec_all_advances fuel rules has_end u s u' s' : G u ->
    exec_all U step enter e fuel rules has_end u s = FOk u' s' \/
    exec_all U step enter e fuel rules has_end u s = FErr u' s' -> advances e s s' /\ G u'.
  Proof. exact (exec_all_final U step enter e _ _ (advances_closed e) G Hneutral Henter fuel rules has_end u s u' s'). Qed.

  Lemma main_loop_advances fuel n rules flags u s u' s' fl' : G u ->
    main_loop U step enter e fuel n rules flags u s = LCont u' s' fl' -> advances e s s' /\ G u'.
  Proof. exact (main_loop_final U step enter e _ _ (advances_closed e) G Hneutral Henter fuel rules n flags u s u' s' fl'). Qed.

  Lemma run_advances fuel u s o u' s' : G u ->
    run U step e fuel u s = ROk o u' s' -> advances e s s' /\ G u'.
  Proof. exact (run_lift U step e _ _ (advances_closed e) G Hneutral fuel u s o u' s'). Qed.
End Order.

(* the plan of the initial state, as a function of the operand list *)
Fixpoint plan_ops (e : env) (ops : list bytes) (hd : bool) (sin : list record) : list pev :=
  match ops with
  | [] => if hd then [] else PFile b_dash :: map (PRec b_dash) sin
  | name :: ops' =>
      match (if noargvars e then None else parse_assign name) with
      | Some (v, raw) =>
          match operand_value raw with
          | None => []
          | Some val => if assign_ok v val then PAssign v val :: plan_ops e ops' hd sin else []
          end
      | None =>
          match name with
          | [] => plan_ops e ops' hd sin
          | _ =>
            if bytes_eqb name b_dash then PFile b_dash :: map (PRec b_dash) sin ++ plan_ops e ops' true []
            else match blookup (fs e) name with
                 | None => PBad name :: plan_ops e ops' hd sin
                 | Some recs => PFile name :: map (PRec name) recs ++ plan_ops e ops' true sin
                 end
          end
      end
  end.

Lemma zlookup_number_from_lt {A} : forall (l : list A) i k, k < i -> zlookup (number_from i l) k = None.
Proof.
  induction l as [|x l IH]; intros i k H; cbn [number_from zlookup]; [reflexivity|].
  destruct (i =? k) eqn:E; [apply Z.eqb_eq in E; lia|]. apply IH. lia.
Qed.

Lemma planF_ops e : forall ops i hd sin av,
  (forall k, i <= k -> zlookup av k = zlookup (number_from i ops) k) ->
  planF e av (i + zlen ops) i hd sin = plan_ops e ops hd sin.
Proof.
  induction ops as [|op ops IH]; intros i hd sin av Hav; rewrite planF_unfold.
  - rewrite zlen_nil. replace (i + 0 <=? i) with true by (symmetry; apply Z.leb_le; lia).
    cbn [plan_ops]. destruct hd; reflexivity.
  - rewrite zlen_cons. pose proof (zlen_nonneg ops).
    replace (i + (1 + zlen ops) <=? i) with false by (symmetry; apply Z.leb_gt; lia).
    cbn [andb]. cbn zeta.
    rewrite (Hav i) by lia. cbn [number_from zlookup]. rewrite Z.eqb_refl.
    assert (Hav' : forall k, i + 1 <= k -> zlookup av k = zlookup (number_from (i + 1) ops) k).
    { intros k Hk. rewrite Hav by lia. cbn [number_from zlookup].
      destruct (i =? k) eqn:E; [apply Z.eqb_eq in E; lia|reflexivity]. }
    replace (i + (1 + zlen ops)) with ((i + 1) + zlen ops) by lia.
    cbn [plan_ops]. rewrite !IH by exact Hav'. reflexivity.
Qed.

Lemma plan_init e a0 args sin : plan e (init_st a0 args sin) = plan_ops e args false sin.
Proof.
  unfold plan, cur_part, init_st. sst. cbn [app].
  apply planF_ops.
  intros k Hk. cbn [zlookup]. destruct (0 =? k) eqn:E; [apply Z.eqb_eq in E; lia|reflexivity].
Qed.

Lemma set_var_by_name_obs e v val s s2 :
  set_var_by_name e v val s = Some s2 -> obs_of s2 = obs_ev e (obs_of s) (EvAssign v val).
Proof.
  unfold set_var_by_name, obs_of, obs_ev, nr_ev, fnr_ev, fname_ev, status_ev, vars_ev. intros H.
  destruct (bytes_eqb v b_NR).
  { destruct (parse_canon_nat val); [|discriminate]. injection H as <-. reflexivity. }
  destruct (bytes_eqb v b_FNR).
  { destruct (parse_canon_nat val); [|discriminate]. injection H as <-. reflexivity. }
  destruct (all_upper v); [discriminate|].
  destruct (bmem v (globals e)); injection H as <-; reflexivity.
Qed.

Lemma next_line_tracks e s res s' : next_line e s = (res, s') -> tracks e s s'.
Proof.
  intros H. change s' with (snd (res, s')). rewrite <- H. clear H. revert s.
  apply next_line_rel; try solve [intros; apply tracks_same; reflexivity].
  - apply tracks_trans.
  - intros name s. apply (tracks_one e _ _ (EvSetFile name)); reflexivity.
  - intros name r rest s. apply (tracks_one e _ _ (EvRec name r)); reflexivity.
  - intros v val s s2 H. apply (tracks_one e _ _ (EvAssign v val)).
    + apply set_var_by_name_some in H as (_ & HL & _). sst. rewrite HL. reflexivity.
    + exact (set_var_by_name_obs _ _ _ _ _ H).
  - intros name s. apply (tracks_one e _ _ (EvNoFile name)); reflexivity.
Qed.

Lemma prim_tracks e r s s' : prim e r s = Some s' -> tracks e s s'.
Proof.
  intros H. destruct r as [| |sr tg| | | | | | | | |];
    try (apply prim_quiet in H as (HL & HO & _); [|discriminate]; eexists; split; [exact HL|exact HO]).
  apply do_getline_split in H as (r & l & s1 & HR & HS).
  apply store_quiet in HS as (_ & _ & _ & _ & _ & _ & new & HL & _ & HO).
  eapply tracks_trans; [|exists new; split; [exact HL|exact HO]].
  destruct (rd_read_cases _ _ _ _ _ _ HR) as [(-> & res & HN & _)|(_ & HL1 & HO1 & _)].
  - eapply tracks_trans; [exact (next_line_tracks _ _ _ _ HN)|]. apply tracks_same; reflexivity.
  - apply tracks_same; assumption.
Qed.

Lemma tracks_closed e : step_closed e (tracks e) (fun _ => True).
Proof.
  split.
  - apply tracks_refl.
  - apply tracks_trans.
  - intros r s s' _. apply prim_tracks.
  - intros n s. apply (tracks_one e _ _ (EvExit n)); reflexivity.
  - intros s res s' H _. exact (next_line_tracks _ _ _ _ H).
  - intros s. unfold drop_file. destruct (cur s) as [[name rest]|]; [|apply tracks_refl].
    apply (tracks_one e _ _ (EvSkip name rest)); reflexivity.
  - intros l s. apply tracks_same; reflexivity.
  - intros o s. apply tracks_same; reflexivity.
Qed.

Section Counters.
  Variable U : Type.
  Variable step : U -> st -> req * U.
  Variable enter : blk -> U -> U.
  Variable e : env.

  Lemma exec_all_tracks fuel rules has_end u s u' s' :
    exec_all U step enter e fuel rules has_end u s = FOk u' s' \/
    exec_all U step enter e fuel rules has_end u s = FErr u' s' -> tracks e s s'.
  Proof. intros H. apply (exec_all_final U step enter e _ _ (tracks_closed e) (fun _ => True)) in H; tauto. Qed.

  Lemma run_tracks fuel u s o u' s' : run U step e fuel u s = ROk o u' s' -> tracks e s s'.
  Proof. intros H. apply (run_lift U step e _ _ (tracks_closed e) (fun _ => True)) in H; tauto. Qed.
End Counters.
