(* C15: the VM under a context (Model/Cancel.v) against the plain VM (Model/VM.v): a result that is
   not checkContext's error is VM.run's result, and a context that is never cancelled never
   produces that error.  Also executeAll with its record-loop and END continuations named. *)
From Verif Require Import Lib.Base Model.Ast Model.Instr Model.Compiler Model.Prims Model.VM Model.Cancel
  Proofs.CodeAt Proofs.VMLemmas Gen.Consts.

Section CancelSim.
  Variables value St err : Type.
  Variable P : prims value St err.
  Variable F : list cfunc.
  Variable cancel_req : St -> bool.

  Notation run := (run P F).
  Notation step := (step P F).
  Notation run_ctx := (run_ctx P F cancel_req).
  Notation latch := (latch cancel_req).
  Notation latch_res := (latch_res cancel_req).
  Notation mstate := (mstate value St).

  Lemma run_ctx_sim : forall k C ip stk m cs r cs',
    run_ctx k C ip stk m cs = (CRes r, cs') -> run k C ip stk m = r.
  Proof.
    induction k as [|k IH]; intros C ip stk m cs r cs' H.
    - cbn in H. inversion H. reflexivity.
    - cbn [Cancel.run_ctx] in H. rewrite run_S.
      destruct (csize C <=? ip) eqn:Eend.
      { apply Z.leb_le in Eend. rewrite step_end by exact Eend. inversion H. reflexivity. }
      destruct (poll cs) as [stop cs1]. destruct stop; [discriminate H|].
      cbv zeta in H. remember (tick cs1) as cs2 eqn:Ecs2. clear Ecs2 cs1 cs.
      destruct (step C ip stk m) as [ip' stk' m'|r0|vsc vi keys body ipa stk0 m0|fn m1 saved ipa stk0].
      + eapply IH; eassumption.
      + inversion H. reflexivity.
      + clear stk m. revert stk0 m0 cs2 H.
        induction keys as [|key ks IHk]; intros stk0 m0 cs2 H.
        * eapply IH; eassumption.
        * destruct (var_write P m0 vsc vi key) as [m1|e m1|]; try (inversion H; reflexivity).
          destruct (run_ctx k body 0 stk0 m1 cs2) as [[rb|mb] csb] eqn:Eb.
          -- rewrite (IH _ _ _ _ _ _ _ Eb).
             destruct rb as [stk' m2|v stk' m2|stk' m2|x m2| |]; try (inversion H; reflexivity).
             ++ eapply IHk; eassumption.
             ++ eapply IH; eassumption.
          -- discriminate H.
      + cbv zeta in H |- *.
        destruct (run_ctx k (cf_body fn) 0 stk0 m1 cs2) as [[rb|mb] csb] eqn:Eb.
        * rewrite (IH _ _ _ _ _ _ _ Eb).
          destruct rb as [stk' m2|v stk' m2|stk' m2|x m2| |]; try (inversion H; reflexivity).
          (* VDone, VRet: the epilogue *)
          all: destruct (pop_n (Z.to_nat (cf_nscalars fn)) stk' []) as [[a t]|]; [|inversion H; reflexivity].
          all: eapply IH; eassumption.
        * discriminate H.
  Qed.

  (* Execute, or a context that is not (and will not be) cancelled *)
  Definition silent (cs : cstate) : Prop := checkCtx cs = false \/ done_at cs = None.

  Hypothesis never_req : forall s, cancel_req s = false.

  Lemma latch_id cs (m : mstate) : latch cs m = cs.
  Proof. unfold Cancel.latch. destruct (done_at cs); [reflexivity|]. rewrite never_req. reflexivity. Qed.

  Lemma latch_res_id cs (r : vres value St err) : latch_res cs r = cs.
  Proof. destruct r; cbn [Cancel.latch_res]; try apply latch_id; reflexivity. Qed.

  Lemma poll_silent cs : silent cs -> exists cs1, poll cs = (false, cs1) /\ silent cs1.
  Proof.
    intros Hs. unfold poll. destruct (checkCtx cs) eqn:Ec.
    - destruct Hs as [Hs|Hs]; [congruence|].
      unfold check_context. destruct (ctxOps cs + 1 <? checkContextOps).
      + eexists; split; [reflexivity|]. right. exact Hs.
      + unfold closed. rewrite Hs. eexists; split; [reflexivity|]. right. exact Hs.
    - exists cs. split; [reflexivity|]. left. exact Ec.
  Qed.

  Lemma tick_silent cs : silent cs -> silent (tick cs).
  Proof. intros [H|H]; [left|right]; exact H. Qed.

  Lemma run_ctx_silent : forall k C ip stk m cs,
    silent cs -> exists cs', run_ctx k C ip stk m cs = (CRes (run k C ip stk m), cs') /\ silent cs'.
  Proof.
    induction k as [|k IH]; intros C ip stk m cs Hs.
    - exists cs. split; [reflexivity|exact Hs].
    - cbn [Cancel.run_ctx]. rewrite run_S.
      destruct (csize C <=? ip) eqn:Eend.
      { apply Z.leb_le in Eend. rewrite step_end by exact Eend. exists cs. split; [reflexivity|exact Hs]. }
      destruct (poll_silent cs Hs) as (cs1 & Ep & Hs1). rewrite Ep. cbv zeta.
      pose proof (tick_silent cs1 Hs1) as Hs2. remember (tick cs1) as cs2 eqn:Ecs2. clear Ecs2 Ep Hs1 cs1 Hs cs.
      destruct (step C ip stk m) as [ip' stk' m'|r0|vsc vi keys body ipa stk0 m0|fn m1 saved ipa stk0].
      + rewrite latch_id. apply IH. exact Hs2.
      + rewrite latch_res_id. exists cs2. split; [reflexivity|exact Hs2].
      + clear stk m. revert stk0 m0 cs2 Hs2.
        induction keys as [|key ks IHk]; intros stk0 m0 cs2 Hs2.
        * apply IH. exact Hs2.
        * destruct (var_write P m0 vsc vi key) as [m1|e m1|]; try (exists cs2; split; [reflexivity|exact Hs2]).
          destruct (IH body 0 stk0 m1 cs2 Hs2) as (csb & Eb & Hsb). rewrite Eb.
          destruct (run k body 0 stk0 m1) as [stk' m2|v stk' m2|stk' m2|x m2| |];
            try (exists csb; split; [reflexivity|exact Hsb]).
          -- apply IHk. exact Hsb.
          -- apply IH. exact Hsb.
      + cbv zeta.
        destruct (IH (cf_body fn) 0 stk0 m1 cs2 Hs2) as (csb & Eb & Hsb). rewrite Eb.
        destruct (run k (cf_body fn) 0 stk0 m1) as [stk' m2|v stk' m2|stk' m2|x m2| |];
          try (exists csb; split; [reflexivity|exact Hsb]).
        (* VDone, VRet: the epilogue *)
        all: destruct (pop_n (Z.to_nat (cf_nscalars fn)) stk' []) as [[a t]|];
          [apply IH; exact Hsb|exists csb; split; [reflexivity|exact Hsb]].
  Qed.

End CancelSim.

Section ExecuteAll.
  Variables value St err : Type.
  Variable P : prims value St err.
  Variable F : list cfunc.
  Variable cancel_req : St -> bool.
  Variable IO : ioprims value St err.

  Notation run_ctx := (run_ctx P F cancel_req).
  Notation mstate := (mstate value St).

  Definition finish_end (fuel : nat) (cp : cprogram) (stk : list value) (m : mstate) (cs : cstate)
    : xres value St err * option St * cstate :=
    let '(re, cs3) := run_ctx fuel (c_end cp) 0 stk m cs in
    match classify re cs3 with
    | KFail r fin => (r, option_map (close IO) fin, cs3)
    | KNil _ m3 | KExit m3 => (RStatus (io_exit_status IO (ms m3)), Some (close IO m3), cs3)
    end.

  Definition run_records (fuel : nat) (cp : cprogram) (stk : list value) (m1 : mstate) (cs1 : cstate)
    : xres value St err * option St * cstate :=
    let '(ra, cs2) := exec_actions P F cancel_req IO fuel fuel (c_actions cp)
                        (repeat false (length (c_actions cp))) stk m1 cs1 in
    match classify ra cs2 with
    | KFail r fin => (r, option_map (close IO) fin, cs2)
    | KNil stk2 m2 => finish_end fuel cp stk2 m2 cs2
    | KExit m2 => finish_end fuel cp stk m2 cs2
    end.

  Definition begin_only (cp : cprogram) : bool :=
    match c_actions cp, c_end cp with [], [] => true | _, _ => false end.

  Lemma execute_all_eq fuel cp m0 cs0 :
    execute_all P F cancel_req IO fuel cp m0 cs0 =
    let '(rb, cs1) := run_ctx fuel (c_begin cp) 0 [] m0 cs0 in
    match classify rb cs1 with
    | KFail r fin => (r, option_map (close IO) fin, cs1)
    | KNil stk m1 =>
        if begin_only cp then (RStatus (io_exit_status IO (ms m1)), Some (close IO m1), cs1)
        else run_records fuel cp stk m1 cs1
    | KExit m1 =>
        if begin_only cp then (RStatus (io_exit_status IO (ms m1)), Some (close IO m1), cs1)
        else finish_end fuel cp [] m1 cs1
    end.
  Proof.
    unfold execute_all, run_records, finish_end, begin_only.
    destruct (run_ctx fuel (c_begin cp) 0 [] m0 cs0) as [rb cs1].
    destruct (classify rb cs1); destruct (c_actions cp), (c_end cp); reflexivity.
  Qed.

End ExecuteAll.

Arguments finish_end {value St err}.
Arguments run_records {value St err}.
