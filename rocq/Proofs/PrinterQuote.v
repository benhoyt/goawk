(* C20 — ast.formatString / lexer.parseString round trip: for EVERY byte string s the lexer reads the
   quoted text back as exactly s.  (With strconv.Quote this failed for non-printable runes: \uXXXX
   before a hex digit and \UXXXXXXXX, defect F-C20-3, repaired: \u with all eight digits.) *)
From Coq Require Import ZifyBool.
From Verif Require Import Lib.Base Lib.Utf8 Gen.Prec Model.ExprAst Model.ExprParser Model.Printer Proofs.Utf8Facts Proofs.PrinterLex.

Definition byte_ok (b : Z) : bool := (0 <=? b) && (b <? 256).

(* every list element is a byte: the only condition (after the repair of F-C20-3) *)
Definition quote_safe (s : bytes) : bool := forallb byte_ok s.

Lemma hex_digit_hexdig n : 0 <= n < 16 -> hex_digit (hexdig n) = n.
Proof.
  intros H. unfold hexdig. destruct (n <? 10) eqn:E; unfold hex_digit, is_digit.
  - replace ((48 <=? 48 + n) && (48 + n <=? 57)) with true by lia. lia.
  - replace ((48 <=? 87 + n) && (87 + n <=? 57)) with false by lia.
    replace ((97 <=? 87 + n) && (87 + n <=? 102)) with true by lia. lia.
Qed.

Lemma hexdig_not_special n : 0 <= n < 16 ->
  let c := hexdig n in 48 <= c <= 102.
Proof. intros H. unfold hexdig. cbn zeta. destruct (n <? 10) eqn:E; lia. Qed.

Lemma hex_digit_high c : 128 <= c -> hex_digit c = -1.
Proof.
  intros H. unfold hex_digit, is_digit.
  replace ((48 <=? c) && (c <=? 57)) with false by lia.
  replace ((97 <=? c) && (c <=? 102)) with false by lia.
  replace ((65 <=? c) && (c <=? 70)) with false by lia. reflexivity.
Qed.

Lemma more_hex_S n acc X : 0 <= hex_digit (ch X) ->
  more_hex (S n) acc X = more_hex n (acc * 16 + hex_digit (ch X)) (nxt X).
Proof. intros H. cbn [more_hex]. replace (hex_digit (ch X) <? 0) with false by lia. reflexivity. Qed.

Lemma more_hex_hexn n : forall m acc r Y,
  more_hex (n + m) acc (hexn n r ++ Y) = more_hex m (acc * 16 ^ Z.of_nat n + r mod 16 ^ Z.of_nat n) Y.
Proof.
  induction n as [|n IH]; intros m acc r Y.
  - cbn [hexn app plus Z.of_nat]. rewrite Z.pow_0_r, Z.mod_1_r, Z.mul_1_r, Z.add_0_r. reflexivity.
  - cbn [hexn]. rewrite <- app_assoc, Nat.add_succ_comm, IH. cbn [app].
    pose proof (Z.mod_pos_bound r 16 eq_refl) as Hd.
    rewrite more_hex_S; cbn [ch nxt]; rewrite hex_digit_hexdig by exact Hd; [|lia].
    f_equal. rewrite Nat2Z.inj_succ, Z.pow_succ_r, Z.rem_mul_r by lia. ring.
Qed.

Lemma hexn_first n : forall r, exists d t, 0 <= d < 16 /\ hexn (S n) r = hexdig d :: t.
Proof.
  induction n as [|n IH]; intros r.
  - exists (r mod 16), []. split; [apply Z.mod_pos_bound; lia | reflexivity].
  - destruct (IH (r / 16)) as (d & t & Hd & E). exists d, (t ++ [hexdig (r mod 16)]).
    split; [exact Hd|]. change (hexn (S (S n)) r) with (hexn (S n) (r / 16) ++ [hexdig (r mod 16)]).
    rewrite E. reflexivity.
Qed.

(* strconv.IsPrint on ASCII: the first entry of the table *)
Lemma in_ranges_below lo hi lo' hi' t r : r < lo' ->
  in_ranges ((lo, hi) :: (lo', hi') :: t) r = (lo <=? r) && (r <=? hi).
Proof.
  intros H. cbn [in_ranges]. replace (r <? lo') with true by lia.
  destruct (r <? lo) eqn:E1; [lia|]. destruct (r <=? hi) eqn:E2; lia.
Qed.

Lemma is_print_ascii r : r < 128 -> is_print r = (32 <=? r) && (r <=? 126).
Proof. intros H. apply (in_ranges_below 32 126 161 172). lia. Qed.

(* parseString reads the text X as the bytes out, in at most one iteration per byte of X *)
Definition reads (X out : bytes) : Prop :=
  exists m, (m <= length X)%nat /\
  forall F Y acc, parse_string (m + F) 34 (X ++ Y) acc = parse_string F 34 Y (rev out ++ acc).

Lemma reads_nil : reads [] [].
Proof. exists 0%nat. split; [apply le_n | reflexivity]. Qed.

Lemma reads_app X X' out out' : reads X out -> reads X' out' -> reads (X ++ X') (out ++ out').
Proof.
  intros (m & Hm & H) (m' & Hm' & H'). exists (m + m')%nat. split.
  - rewrite app_length. apply Nat.add_le_mono; assumption.
  - intros F Y acc. rewrite <- Nat.add_assoc, <- app_assoc, H, H', rev_app_distr, <- app_assoc. reflexivity.
Qed.

Lemma reads_step c X out :
  (forall F Y acc, parse_string (S F) 34 (c :: X ++ Y) acc = parse_string F 34 Y (rev out ++ acc)) ->
  reads (c :: X) out.
Proof. intros H. exists 1%nat. split; [cbn [length]; lia | exact H]. Qed.

Lemma ps_end F rest acc : parse_string (S F) 34 (34 :: rest) acc = Some (rev acc, 34 :: rest).
Proof. reflexivity. Qed.

Definition plain (c : Z) : bool :=
  negb (c =? 34) && negb (c =? 0) && negb (c =? 13) && negb (c =? 10) && negb (c =? 92).

Lemma reads_plains l : forallb plain l = true -> reads l l.
Proof.
  induction l as [|c l IH]; intros Hl; [exact reads_nil|].
  cbn [forallb] in Hl. apply andb_prop in Hl as [Hc Hl].
  apply (reads_app [c] l [c] l); [|exact (IH Hl)].
  apply reads_step. intros F Y acc. unfold plain in Hc. cbn [parse_string ch nxt app].
  replace ((c =? 34) || (c =? 0)) with false by lia.
  replace ((c =? 13) || (c =? 10)) with false by lia.
  replace (negb (c =? 92)) with true by lia. reflexivity.
Qed.

(* \n \t \r \a \b \f \v, and an escaped quote or backslash *)
Lemma reads_esc e v :
  e = 110 /\ v = 10 \/ e = 116 /\ v = 9 \/ e = 114 /\ v = 13 \/ e = 97 /\ v = 7 \/ e = 98 /\ v = 8
  \/ e = 102 /\ v = 12 \/ e = 118 /\ v = 11 \/ e = 34 /\ v = 34 \/ e = 92 /\ v = 92 ->
  reads [92; e] [v].
Proof.
  intros H. apply reads_step. intros F Y acc.
  repeat (destruct H as [[-> ->] | H]; [reflexivity|]). destruct H as [-> ->]. reflexivity.
Qed.

(* \x + two lower-case hex digits *)
Lemma ps_hex F d1 d2 Y acc : 0 <= d1 < 16 -> 0 <= d2 < 16 ->
  parse_string (S F) 34 (92 :: 120 :: hexdig d1 :: hexdig d2 :: Y) acc
  = parse_string F 34 Y ((d1 * 16 + d2) mod 256 :: acc).
Proof.
  intros H1 H2. cbn [parse_string ch nxt Z.eqb Pos.eqb orb negb].
  rewrite !hex_digit_hexdig by assumption.
  replace (d1 <? 0) with false by lia. replace (d2 <? 0) with false by lia. reflexivity.
Qed.

Lemma reads_xbyte b : byte_ok b = true -> reads (92 :: 120 :: hexn 2 b) [b].
Proof.
  unfold byte_ok. intros Hb. apply reads_step. intros F Y acc.
  change (hexn 2 b) with [hexdig ((b / 16) mod 16); hexdig (b mod 16)]. cbn [app].
  rewrite ps_hex by (apply Z.mod_pos_bound; lia).
  replace ((b / 16) mod 16 * 16 + b mod 16) with (b mod (16 * 16)) by (rewrite Z.rem_mul_r by lia; ring).
  rewrite Z.mod_mod, Z.mod_small by lia. reflexivity.
Qed.

(* \u + a hex digit: that digit and up to seven more *)
Lemma ps_uhex F X acc : 0 <= hex_digit (ch X) ->
  parse_string (S F) 34 (92 :: 117 :: X) acc =
  let '(r, X') := more_hex 8 0 X in
  if valid_rune r then parse_string F 34 X' (rev (encode_rune r) ++ acc) else None.
Proof.
  intros H. rewrite more_hex_S by exact H. cbn [parse_string ch nxt Z.eqb Pos.eqb orb negb].
  replace (hex_digit (ch X) <? 0) with false by lia. reflexivity.
Qed.

(* \u + the eight lower-case hex digits of a rune: the lexer stops after the eighth by itself *)
Lemma reads_u r : valid_rune r = true -> reads (92 :: 117 :: hexn 8 r) (encode_rune r).
Proof.
  intros Hv. apply reads_step. intros F Y acc. cbn [app]. rewrite ps_uhex.
  - change 8%nat with (8 + 0)%nat at 1. rewrite more_hex_hexn. cbn [more_hex].
    change (16 ^ Z.of_nat 8) with 4294967296. rewrite Z.mod_small by (unfold valid_rune in Hv; lia).
    cbn [Z.mul Z.add]. rewrite Hv. reflexivity.
  - destruct (hexn_first 7 r) as (d & t & Hd & ->). cbn [app ch]. rewrite hex_digit_hexdig; lia.
Qed.

(* an ASCII byte: escaped_rune writes one of  c  \c  \a..\v  \xHH *)
Lemma esc_ascii b : byte_ok b = true -> b < 128 -> reads (escaped_rune b) [b].
Proof.
  intros Hb Hlt. unfold byte_ok in Hb. unfold escaped_rune.
  destruct ((b =? 34) || (b =? 92)) eqn:E1; [assert (b = 34 \/ b = 92) as [-> | ->] by lia; apply reads_esc; lia|].
  rewrite (is_print_ascii b Hlt).
  destruct ((32 <=? b) && (b <=? 126)) eqn:E2.
  { rewrite (seq_unique b _ [b] (encode_rune_seq b ltac:(lia)) (Seq1 b Hlt)). apply reads_plains. unfold forallb, plain. lia. }
  destruct (b =? 7) eqn:E7; [apply reads_esc; lia|].
  destruct (b =? 8) eqn:E8; [apply reads_esc; lia|].
  destruct (b =? 12) eqn:E12; [apply reads_esc; lia|].
  destruct (b =? 10) eqn:E10; [apply reads_esc; lia|].
  destruct (b =? 13) eqn:E13; [apply reads_esc; lia|].
  destruct (b =? 9) eqn:E9; [apply reads_esc; lia|].
  destruct (b =? 11) eqn:E11; [apply reads_esc; lia|].
  destruct ((b <? 32) || (b =? 127)) eqn:E32; [|lia].
  apply reads_xbyte. unfold byte_ok. lia.
Qed.

(* a well-formed multi-byte sequence: its own bytes if the rune is printable, else \u and eight digits *)
Lemma esc_rune r s : utf8_seq r s -> 128 <= ch s -> reads (escaped_rune r) s.
Proof.
  intros Hs Hb.
  assert (H : 128 <= r /\ valid_rune r = true /\ forallb (fun b => 128 <=? b) s = true)
    by (unfold valid_rune; destruct Hs; cbn [ch forallb] in *; lia).
  destruct H as (Hr & Hv & Hhigh).
  assert (Ee : encode_rune r = s) by (apply (seq_unique r); [apply encode_rune_seq; unfold valid_rune in Hv; lia | exact Hs]).
  unfold escaped_rune. rewrite Ee.
  replace ((r =? 34) || (r =? 92)) with false by lia.
  destruct (is_print r).
  - apply reads_plains. rewrite forallb_forall in *. intros x Hx. apply Hhigh in Hx. unfold plain. lia.
  - replace (r =? 7) with false by lia. replace (r =? 8) with false by lia. replace (r =? 12) with false by lia.
    replace (r =? 10) with false by lia. replace (r =? 13) with false by lia. replace (r =? 9) with false by lia.
    replace (r =? 11) with false by lia. replace ((r <? 32) || (r =? 127)) with false by lia.
    rewrite <- Ee. apply reads_u. exact Hv.
Qed.

Lemma quote_rt : forall n s, forallb byte_ok s = true -> (length s <= n)%nat -> reads (quote_body n s) s.
Proof.
  induction n as [|n IH]; intros s Hb Hlen; (destruct s as [|b0 s']; [exact reads_nil|]); [cbn in Hlen; lia|].
  cbn [forallb] in Hb. apply andb_prop in Hb as [Hb0 Hb'].
  cbn [length] in Hlen. apply le_S_n in Hlen. cbn [quote_body].
  destruct (b0 <? 128) eqn:E128.
  - (* ASCII *)
    replace ((1 =? 1) && (b0 =? rune_error)) with false by (unfold rune_error; lia).
    apply (reads_app _ _ [b0] s'); [apply esc_ascii; [exact Hb0 | lia] | exact (IH s' Hb' Hlen)].
  - destruct (decode_rune (b0 :: s')) as [r w] eqn:Hd.
    destruct ((w =? 1) && (r =? rune_error)) eqn:Herr.
    + (* an invalid byte: \xHH *)
      apply (reads_app (92 :: 120 :: hexn 2 b0) _ [b0] s'); [exact (reads_xbyte b0 Hb0) | exact (IH s' Hb' Hlen)].
    + (* a well-formed sequence s, then the rest t of the string *)
      pose proof (decode_rune_width (b0 :: s') ltac:(discriminate)) as Hw. rewrite Hd in Hw. cbn [snd] in Hw.
      destruct (decode_rune_inv _ _ _ Hd) as (s & t & E & Hs & ->); [unfold rune_error in *; lia|].
      rewrite E, zdrop_zlen_app.
      destruct s as [|c s0]; [inversion Hs|]. injection E as <- ->.
      rewrite forallb_app in Hb'. apply andb_prop in Hb' as [_ Hbt]. rewrite app_length in Hlen.
      apply reads_app; [apply esc_rune; [exact Hs | cbn [ch]; lia] | apply IH; [exact Hbt | lia]].
Qed.

(* the lexer reads formatString(s) back as s, for every byte string s *)
Theorem string_roundtrip : forall s, quote_safe s = true ->
  forall rest sp, scan_body (quote s ++ rest) sp = STok (TString s) sp rest.
Proof.
  intros s Hb rest sp. unfold quote_safe in Hb.
  destruct (quote_rt (length s) s Hb (le_n _)) as (m & Hm & H).
  unfold quote. cbn [app]. rewrite scan_quote, <- app_assoc. cbn [app].
  set (X := quote_body (length s) s) in *.
  set (L := length (X ++ 34 :: rest)).
  assert (HL : (m <= L)%nat) by (subst L; rewrite app_length; lia).
  replace (S L) with (m + S (L - m))%nat by lia.
  rewrite H, ps_end, app_nil_r, rev_involutive. reflexivity.
Qed.
