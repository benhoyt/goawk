(* C10, byte mode: substr / int / index obey their defining equations. *)
From Verif Require Import Lib.Base Lib.Dyadic Lib.Utf8 Model.Builtins Proofs.Utf8Facts.

(* a truncated numeric argument: an integer or an infinity *)
Inductive ext : Type := NegInf | Fin (z : Z) | PosInf.

Definition etrunc (x : fnum) : option ext :=
  match x with
  | FNaN => None
  | FInf s => Some (if s then NegInf else PosInf)
  | FFin m e => Some (Fin (ftrunc m e))
  end.

(* "starts at position m, taken as 1 if smaller": drop max(1,m)-1 characters *)
Definition spec_drop {A} (s : list A) (t : ext) : list A :=
  match t with
  | NegInf => s
  | PosInf => []
  | Fin z => zdrop (Z.max 1 z - 1) s
  end.

(* "the next n characters, none if negative, all remaining if it exceeds" *)
Definition spec_take {A} (l : list A) (t : ext) : list A :=
  match t with
  | NegInf => []
  | PosInf => l
  | Fin z => ztake (Z.max 0 z) l
  end.

(* every Go string is shorter than 2^63-1 bytes *)
Definition go_len (s : bytes) : Prop := zlen s < maxint.

Lemma two63_pos : 0 < two63. Proof. reflexivity. Qed.

Lemma float_to_int_fin m e :
  let t := ftrunc m e in
  float_to_int (FFin m e) = Z.max minint (Z.min maxint t).
Proof.
  cbn [float_to_int]. unfold maxint, minint. pose proof two63_pos.
  destruct (Z.leb_spec two63 (ftrunc m e)); [lia|]. destruct (Z.leb_spec (ftrunc m e) (- two63)); lia.
Qed.

Lemma substr_bytes_pos (s : bytes) (p : Z) :
  let pos := if p >? zlen s then zlen s + 1 else p in
  let pos := if pos <? 1 then 1 else pos in
  1 <= pos <= zlen s + 1 /\ zdrop (pos - 1) s = zdrop (Z.max 1 p - 1) s.
Proof.
  pose proof (zlen_nonneg s) as Hl. cbn zeta. destruct (Z.gtb_spec p (zlen s)).
  - destruct (Z.ltb_spec (zlen s + 1) 1); [lia|]. split; [lia|]. rewrite !zdrop_all by lia. reflexivity.
  - destruct (Z.ltb_spec p 1); (split; [lia|]); f_equal; lia.
Qed.

(* on the converted integers: every double, NaN included *)
Lemma substr_bytes_Z s x : substr_bytes s x = Ok (zdrop (Z.max 1 (float_to_int x) - 1) s).
Proof.
  pose proof (zlen_nonneg s) as Hl. unfold substr_bytes.
  pose proof (substr_bytes_pos s (float_to_int x)) as Hp. cbn zeta in Hp.
  set (pos := if (if float_to_int x >? zlen s then zlen s + 1 else float_to_int x) <? 1 then 1
              else (if float_to_int x >? zlen s then zlen s + 1 else float_to_int x)) in *.
  destruct Hp as [Hr Hd].
  replace (pos - 1 + (zlen s - pos + 1)) with (zlen s) by lia.
  rewrite slice_to_end by lia. rewrite Hd. reflexivity.
Qed.

Lemma substr_len_bytes_Z s x y :
  substr_len_bytes s x y = Ok (ztake (Z.max 0 (float_to_int y)) (zdrop (Z.max 1 (float_to_int x) - 1) s)).
Proof.
  pose proof (zlen_nonneg s) as Hl. unfold substr_len_bytes.
  pose proof (substr_bytes_pos s (float_to_int x)) as Hp. cbn zeta in Hp.
  set (pos := if (if float_to_int x >? zlen s then zlen s + 1 else float_to_int x) <? 1 then 1
              else (if float_to_int x >? zlen s then zlen s + 1 else float_to_int x)) in *.
  destruct Hp as [Hr Hd].
  set (ly := float_to_int y).
  set (l1 := if ly <? 0 then 0 else ly).
  set (l2 := if l1 >? zlen s - pos + 1 then zlen s - pos + 1 else l1).
  assert (Hl1 : l1 = Z.max 0 ly) by (unfold l1; destruct (Z.ltb_spec ly 0); lia).
  assert (Hl2 : l2 = Z.min l1 (zlen s - pos + 1)) by (unfold l2; destruct (Z.gtb_spec l1 (zlen s - pos + 1)); lia).
  rewrite slice_ok by lia.
  replace (pos - 1 + l2 - (pos - 1)) with l2 by lia.
  assert (Hzd : zlen (zdrop (pos - 1) s) = zlen s - pos + 1) by (rewrite zlen_zdrop by lia; lia).
  rewrite Hl2, <- Hzd, ztake_min, Hl1, Hd. reflexivity.
Qed.

Lemma drop_float_to_int {A} (l : list A) x t :
  zlen l < maxint -> etrunc x = Some t -> zdrop (Z.max 1 (float_to_int x) - 1) l = spec_drop l t.
Proof.
  unfold maxint. intros Hl Ht. pose proof two63_pos as H63. pose proof (zlen_nonneg l).
  destruct x as [|[|]|m e]; cbn [etrunc] in Ht; try discriminate; injection Ht as <-; cbn [spec_drop].
  - cbn [float_to_int]. unfold minint. rewrite Z.max_l by lia. reflexivity.
  - cbn [float_to_int]. unfold maxint. apply zdrop_all. lia.
  - rewrite float_to_int_fin. unfold maxint, minint. cbn zeta.
    destruct (Z.le_gt_cases two63 (ftrunc m e)) as [Hb|Hb].
    + rewrite !zdrop_all by lia. reflexivity.
    + f_equal. lia.
Qed.

Lemma take_float_to_int {A} (l : list A) y t :
  zlen l < maxint -> etrunc y = Some t -> ztake (Z.max 0 (float_to_int y)) l = spec_take l t.
Proof.
  unfold maxint. intros Hl Ht. pose proof two63_pos as H63. pose proof (zlen_nonneg l).
  destruct y as [|[|]|m e]; cbn [etrunc] in Ht; try discriminate; injection Ht as <-; cbn [spec_take].
  - cbn [float_to_int]. unfold minint. rewrite Z.max_l by lia. reflexivity.
  - cbn [float_to_int]. unfold maxint. apply ztake_all. lia.
  - rewrite float_to_int_fin. unfold maxint, minint. cbn zeta.
    destruct (Z.le_gt_cases two63 (ftrunc m e)) as [Hb|Hb].
    + rewrite !ztake_all by lia. reflexivity.
    + f_equal. lia.
Qed.

Theorem substr_bytes_spec (s : bytes) (x : fnum) (t : ext) :
  go_len s -> etrunc x = Some t -> substr_bytes s x = Ok (spec_drop s t).
Proof. intros Hlen Ht. rewrite substr_bytes_Z, (drop_float_to_int s x t Hlen Ht). reflexivity. Qed.

Theorem substr_len_bytes_spec (s : bytes) (x y : fnum) (tx ty : ext) :
  go_len s -> etrunc x = Some tx -> etrunc y = Some ty ->
  substr_len_bytes s x y = Ok (spec_take (spec_drop s tx) ty).
Proof.
  intros Hlen Hx Hy. rewrite substr_len_bytes_Z, (drop_float_to_int s x tx Hlen Hx).
  rewrite (take_float_to_int (spec_drop s tx) y ty); [reflexivity | | exact Hy].
  unfold go_len in Hlen.
  destruct tx; cbn [spec_drop]; [lia | pose proof (zlen_zdrop_le (Z.max 1 z - 1) s); lia | reflexivity].
Qed.

(* never a Go panic, for every argument including NaN *)

Theorem substr_bytes_no_panic (s : bytes) (x : fnum) :
  go_len s -> exists r, substr_bytes s x = Ok r.
Proof. intros _. eexists. apply substr_bytes_Z. Qed.

Theorem substr_len_bytes_no_panic (s : bytes) (x y : fnum) :
  go_len s -> exists r, substr_len_bytes s x y = Ok r.
Proof. intros _. eexists. apply substr_len_bytes_Z. Qed.

Theorem int_spec (m e : Z) : builtin_int (FFin m e) = FFin (ftrunc m e) 0.
Proof. reflexivity. Qed.

(* ftrunc really is truncation toward zero of m * 2^e *)
Theorem ftrunc_spec_nonneg_exp m e : 0 <= e -> ftrunc m e = m * 2 ^ e.
Proof. intros H. unfold ftrunc. destruct (0 <=? e) eqn:E; [reflexivity|apply Z.leb_gt in E; lia]. Qed.

Theorem ftrunc_spec_neg_exp m e :
  e < 0 ->
  let t := ftrunc m e in let d := 2 ^ (- e) in
  (0 <= m -> t * d <= m < (t + 1) * d) /\ (m <= 0 -> (t - 1) * d < m <= t * d).
Proof.
  intros H t d. unfold t, ftrunc. destruct (0 <=? e) eqn:E; [apply Z.leb_le in E; lia|].
  assert (Hd : 0 < d) by (unfold d; apply Z.pow_pos_nonneg; lia).
  fold d. split; intros Hm.
  - rewrite Z.quot_div_nonneg by lia. pose proof (Z.div_mod m d ltac:(lia)). pose proof (Z.mod_pos_bound m d Hd). nia.
  - pose proof (Z.quot_opp_l m d ltac:(lia)) as Ho.
    assert (Hq : Z.quot m d = - Z.quot (- m) d) by lia.
    rewrite Hq. rewrite Z.quot_div_nonneg by lia.
    pose proof (Z.div_mod (- m) d ltac:(lia)). pose proof (Z.mod_pos_bound (- m) d Hd). nia.
Qed.

Lemma is_prefix_app t s : is_prefix t s = true <-> exists r, s = t ++ r.
Proof.
  revert s; induction t as [|x t IH]; intros s; cbn [is_prefix].
  - split; [intros _; exists s; reflexivity|reflexivity].
  - destruct s as [|y s].
    + split; [discriminate|intros [r Hr]; discriminate].
    + rewrite andb_true_iff, Z.eqb_eq, IH. split.
      * intros [-> [r ->]]. exists r. reflexivity.
      * intros [r Hr]. injection Hr as -> ->. split; [reflexivity|exists r; reflexivity].
Qed.

(* strings.Index finds an occurrence, and it is the first one *)
Lemma strings_index_from_spec s t off :
  let i := strings_index_from s t off in
  (i = -1 /\ forall k, 0 <= k <= zlen s -> is_prefix t (zdrop k s) = false) \/
  (off <= i <= off + zlen s /\ is_prefix t (zdrop (i - off) s) = true /\
   forall k, 0 <= k < i - off -> is_prefix t (zdrop k s) = false).
Proof.
  revert off; induction s as [|c s IH]; intros off; cbn [strings_index_from].
  - destruct (is_prefix t []) eqn:E.
    + right. rewrite zlen_nil. replace (off - off) with 0 by lia. split; [lia|]. split; [exact E|]. intros; lia.
    + left. split; [reflexivity|]. intros k Hk. unfold zlen in Hk; cbn [length] in Hk. replace k with 0 by lia. exact E.
  - destruct (is_prefix t (c :: s)) eqn:E.
    + right. replace (off - off) with 0 by lia. pose proof (zlen_nonneg (c :: s)). split; [lia|]. split; [exact E|]. intros; lia.
    + specialize (IH (off + 1)). cbn zeta in IH. rewrite zlen_cons.
      destruct IH as [[Hi Hall]|[Hr [Hp Hmin]]].
      * left. split; [exact Hi|]. intros k Hk.
        destruct (Z.eq_dec k 0) as [->|Hk0]; [exact E|]. rewrite zdrop_cons by lia. apply Hall. lia.
      * right. set (i := strings_index_from s t (off + 1)) in *.
        split; [lia|]. split.
        -- rewrite zdrop_cons by lia. replace (i - off - 1) with (i - (off + 1)) by lia. exact Hp.
        -- intros k Hk. destruct (Z.eq_dec k 0) as [->|Hk0]; [exact E|]. rewrite zdrop_cons by lia. apply Hmin. lia.
Qed.

(* index(s,t) = 0 iff t occurs nowhere; otherwise it is the first position
   at which substr(s, index, length(t)) = t *)
Theorem index_bytes_spec (s t : bytes) :
  exists i, builtin_index false s t = Ok i /\
  ((i = 0 /\ forall k, 0 <= k <= zlen s -> is_prefix t (zdrop k s) = false) \/
   (1 <= i <= zlen s + 1 /\ ztake (zlen t) (zdrop (i - 1) s) = t /\
    forall k, 1 <= k < i -> is_prefix t (zdrop (k - 1) s) = false)).
Proof.
  unfold builtin_index, strings_index.
  pose proof (strings_index_from_spec s t 0) as H. cbn zeta in H.
  set (i := strings_index_from s t 0) in *.
  destruct H as [[Hi Hall]|[Hr [Hp Hmin]]].
  - rewrite Hi. cbn. eexists; split; [reflexivity|]. left. split; [reflexivity|exact Hall].
  - destruct (i <? 0) eqn:E; [apply Z.ltb_lt in E; lia|].
    eexists; split; [reflexivity|]. right. split; [lia|].
    replace (i + 1 - 1) with (i - 0) by lia. split.
    + apply is_prefix_app in Hp as [r Hr']. rewrite Hr'. apply ztake_zlen_app.
    + intros k Hk. apply Hmin. lia.
Qed.
