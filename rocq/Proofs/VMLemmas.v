(* C01 (used by C02 and C15 as well): one-step unfolding of the VM at a known instruction, and fuel monotonicity. *)
From Verif Require Import Lib.Base Model.Ast Model.Instr Model.Compiler Model.Prims Model.VM Proofs.CodeAt.

Section VMLemmas.
  Variables value St err : Type.
  Variable P : prims value St err.
  Variable F : list cfunc.

  Notation run := (run P F).
  Notation step := (step P F).
  Notation mstate := (mstate value St).

  Lemma run_S k C ip stk m :
    run (S k) C ip stk m =
    match step C ip stk m with
    | ANext ip' stk' m' => run k C ip' stk' m'
    | AStop r => r
    | AForIn vsc vi keys body ipa stk0 m0 =>
        (fix loop (ks : list value) (stk : list value) (m : mstate) : vres value St err :=
           match ks with
           | [] => run k C ipa stk m
           | key :: ks' =>
               match var_write P m vsc vi key with
               | WStuck => VStuck
               | WErr e m1 => VAbort (XError e) m1
               | WOk m1 =>
                   match run k body 0 stk m1 with
                   | VDone stk' m2 => loop ks' stk' m2
                   | VBrk stk' m2 => run k C ipa stk' m2
                   | other => other
                   end
               end
           end) keys stk0 m0
    | ACall fn m1 saved ipa stk0 =>
        let finish := fun (v : value) (stk' : list value) (m2 : mstate) =>
          match pop_n (Z.to_nat (cf_nscalars fn)) stk' [] with
          | Some (_, t) => run k C ipa (v :: t) (restore P saved m2)
          | None => VStuck
          end in
        match run k (cf_body fn) 0 stk0 m1 with
        | VDone stk' m2 => finish (p_null P) stk' m2
        | VRet v stk' m2 => finish v stk' m2
        | VBrk stk' m2 => VBrk stk' (restore P saved m2)
        | VAbort x m2 => VAbort x (restore P saved m2)
        | VStuck => VStuck
        | VFuel => VFuel
        end
    end.
  Proof. reflexivity. Qed.

  Lemma step_at C p i c stk m :
    code_at C p (i :: c) ->
    step C p stk m =
    (let ip' := p + isize i in
     match i with
     | IJump off => ANext (ip' + off) stk m
     | IJumpFalse off =>
         match stk with
         | v :: t => ANext (if p_to_bool P v then ip' else ip' + off) t m
         | _ => AStop VStuck end
     | IJumpTrue off =>
         match stk with
         | v :: t => ANext (if p_to_bool P v then ip' + off else ip') t m
         | _ => AStop VStuck end
     | IJumpCmp c0 off =>
         match stk with
         | r :: l :: t => ANext (if p_cmpj P c0 (ms m) l r then ip' + off else ip') t m
         | _ => AStop VStuck end
     | INext => AStop (VAbort XNext m)
     | INextfile => AStop (VAbort XNextfile m)
     | IExit => AStop (VAbort XExit m)
     | IExitStatus =>
         match stk with
         | v :: _ => AStop (VAbort XExit (with_ms m (p_set_exit P (ms m) v)))
         | _ => AStop VStuck end
     | IBreakForIn => AStop (VBrk stk m)
     | IReturn => match stk with v :: t => AStop (VRet v t m) | _ => AStop VStuck end
     | IReturnNull => AStop (VRet (p_null P) stk m)
     | IForIn vsc vi asc ai off =>
         match sub_code C ip' off with
         | None => AStop VStuck
         | Some body => AForIn vsc vi (p_array_keys P (ms m) asc ai) body (ip' + off) stk m
         end
     | ICallUser fi arrs =>
         if fi <? 0 then AStop VStuck else
         match nth_error F (Z.to_nat fi) with
         | None => AStop VStuck
         | Some fn =>
           if Gen.Consts.maxCallDepth <=? depth m then AStop (VAbort (XError (p_err_depth P fi)) m) else
           match pop_n (Z.to_nat (cf_nscalars fn)) stk [] with
           | None => AStop VStuck
           | Some (args, _) =>
               ACall fn {| ms := p_push_arrays P (ms m) arrs (cf_narrays fn); frame := args; depth := depth m + 1 |}
                     m ip' stk
           end
         end
     | _ =>
         match exec_simple P i stk m with
         | SOk stk' m' => ANext ip' stk' m'
         | SErr e m' => AStop (VAbort (XError e) m')
         | SStuck => AStop VStuck
         end
     end).
  Proof.
    intros H. unfold VM.step.
    pose proof (code_at_lt _ _ _ _ H) as Hlt.
    destruct (csize C <=? p) eqn:E; [apply Z.leb_le in E; lia|].
    rewrite (code_at_fetch _ _ _ _ H). reflexivity.
  Qed.

  Lemma step_simple C p i c stk m :
    code_at C p (i :: c) -> is_control i = false ->
    step C p stk m =
    match exec_simple P i stk m with
    | SOk stk' m' => ANext (p + isize i) stk' m'
    | SErr e m' => AStop (VAbort (XError e) m')
    | SStuck => AStop VStuck
    end.
  Proof.
    intros H Hc. rewrite (step_at _ _ _ _ stk m H). destruct i; try discriminate Hc; reflexivity.
  Qed.

  Lemma step_end C p stk m : csize C <= p -> step C p stk m = AStop (VDone stk m).
  Proof.
    intros H. unfold VM.step. destruct (csize C <=? p) eqn:E; [reflexivity|apply Z.leb_gt in E; lia].
  Qed.

  Lemma run_end k C p stk m : csize C <= p -> run (S k) C p stk m = VDone stk m.
  Proof. intros H. rewrite run_S, step_end by exact H. reflexivity. Qed.

  (* the for-in loop of [run] (the AForIn arm of run_S) *)
  Fixpoint vm_forin (k : nat) (C body : code) (ipa : Z) (vsc : scope) (vi : Z)
           (ks : list value) (stk : list value) (m : mstate) : vres value St err :=
    match ks with
    | [] => run k C ipa stk m
    | key :: ks' =>
        match var_write P m vsc vi key with
        | WStuck => VStuck
        | WErr e m1 => VAbort (XError e) m1
        | WOk m1 =>
            match run k body 0 stk m1 with
            | VDone stk' m2 => vm_forin k C body ipa vsc vi ks' stk' m2
            | VBrk stk' m2 => run k C ipa stk' m2
            | other => other
            end
        end
    end.

  Lemma run_S_forin k C p stk m vsc vi keys body ipa stk0 m0 :
    step C p stk m = AForIn vsc vi keys body ipa stk0 m0 ->
    run (S k) C p stk m = vm_forin k C body ipa vsc vi keys stk0 m0.
  Proof.
    intros Hs. rewrite run_S, Hs. clear Hs. revert stk0 m0.
    induction keys as [|key ks IH]; intros stk0 m0; [reflexivity|].
    cbn [vm_forin]. destruct (var_write P m0 vsc vi key); try reflexivity.
    destruct (run k body 0 stk0 m1); try reflexivity. apply IH.
  Qed.

  (* a run that did not run out of fuel k is the same run with fuel k' *)
  Definition extends (k k' : nat) : Prop :=
    forall C ip stk m, run k C ip stk m <> VFuel -> run k' C ip stk m = run k C ip stk m.

  Lemma vm_forin_extends k k' C body ipa vsc vi ks : extends k k' -> forall stk m,
    vm_forin k C body ipa vsc vi ks stk m <> VFuel ->
    vm_forin k' C body ipa vsc vi ks stk m = vm_forin k C body ipa vsc vi ks stk m.
  Proof.
    intros Hkk'. induction ks as [|key ks IH]; intros stk m Hf; cbn [vm_forin] in *.
    - apply Hkk'. exact Hf.
    - destruct (var_write P m vsc vi key) as [m1|e m1|]; try reflexivity.
      rewrite (Hkk' body) by (intros E; rewrite E in Hf; congruence).
      destruct (run k body 0 stk m1); try reflexivity; [apply IH|apply Hkk']; exact Hf.
  Qed.

  Lemma run_extends : forall k k', (k <= k')%nat -> extends k k'.
  Proof.
    induction k as [|k IH]; intros k' Hle C ip stk m Hf; [contradiction Hf; reflexivity|].
    destruct k' as [|k']; [lia|]. specialize (IH k' ltac:(lia)).
    destruct (step C ip stk m) as [ip' stk' m'|r0|vsc vi keys body ipa stk0 m0|fn m1 saved ipa stk0] eqn:Es.
    - rewrite !run_S, Es in *. apply IH. exact Hf.
    - rewrite !run_S, Es. reflexivity.
    - rewrite !(run_S_forin _ _ _ _ _ _ _ _ _ _ _ _ Es) in *. apply vm_forin_extends; assumption.
    - rewrite !run_S, Es in *. cbv zeta in *.
      rewrite (IH (cf_body fn)) by (intros E; rewrite E in Hf; congruence).
      destruct (run k (cf_body fn) 0 stk0 m1) as [stk' m2|v stk' m2|stk' m2|x m2| |]; try reflexivity;
        (destruct (pop_n (Z.to_nat (cf_nscalars fn)) stk' []) as [[a t]|]; [|reflexivity]); apply IH; exact Hf.
  Qed.

  Lemma run_mono : forall k C ip stk m r,
    run k C ip stk m = r -> r <> VFuel -> forall k', (k <= k')%nat -> run k' C ip stk m = r.
  Proof. intros k C ip stk m r <- Hf k' Hle. apply run_extends; assumption. Qed.

  Lemma run_max_l k1 k2 C ip stk m r :
    run k1 C ip stk m = r -> r <> VFuel -> run (Nat.max k1 k2) C ip stk m = r.
  Proof. intros H Hf. exact (run_mono _ _ _ _ _ _ H Hf _ (Nat.le_max_l k1 k2)). Qed.

  Lemma run_max_r k1 k2 C ip stk m r :
    run k2 C ip stk m = r -> r <> VFuel -> run (Nat.max k1 k2) C ip stk m = r.
  Proof. intros H Hf. exact (run_mono _ _ _ _ _ _ H Hf _ (Nat.le_max_r k1 k2)). Qed.

End VMLemmas.

Arguments vm_forin {value St err}.
Arguments run_S_forin {value St err P F} k {C p stk m vsc vi keys body ipa stk0 m0}.
Arguments run_max_l {value St err P F} k1 k2 {C ip stk m r}.
Arguments run_max_r {value St err P F} k1 k2 {C ip stk m r}.
