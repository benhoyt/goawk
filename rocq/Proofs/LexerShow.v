(* C03: goawk.go showSourceLine never slices out of range for the position of
   any offset 0..len of the source. *)
From Verif Require Import Lib.Base Lib.Utf8 Model.Lexer Proofs.LexerPos.
From Coq Require Import ZifyBool.
Open Scope Z_scope.

Definition lt_step (acc : bytes) (c : Z) : bytes := if c =? 10 then [] else acc ++ [c].

(* the bytes of s before its first LF *)
Fixpoint takeline (s : bytes) : bytes :=
  match s with
  | [] => []
  | c :: t => if c =? 10 then [] else c :: takeline t
  end.

Lemma split_head suf : forall cur, exists rest,
  split_lines_aux suf cur = (rev cur ++ takeline suf) :: rest.
Proof.
  induction suf as [|c t IH]; intros cur; cbn [split_lines_aux takeline].
  - exists []. rewrite app_nil_r. reflexivity.
  - destruct (c =? 10).
    + eexists. rewrite app_nil_r. reflexivity.
    + destruct (IH (c :: cur)) as (rest & E). exists rest. rewrite E. cbn [rev].
      rewrite <- app_assoc. reflexivity.
Qed.

Lemma count_lf_cons c p : count_lf (c :: p) = (if c =? 10 then 1 else 0) + count_lf p.
Proof.
  unfold count_lf. cbn [filter]. destruct (c =? 10); [rewrite zlen_cons|]; lia.
Qed.

Lemma count_lf_nonneg p : 0 <= count_lf p.
Proof. unfold count_lf. apply zlen_nonneg. Qed.

Lemma split_nth pre : forall suf cur,
  nth_error (split_lines_aux (pre ++ suf) cur) (Z.to_nat (count_lf pre))
  = Some (fold_left lt_step pre (rev cur) ++ takeline suf).
Proof.
  induction pre as [|c p IH]; intros suf cur.
  - cbn [app fold_left]. destruct (split_head suf cur) as (rest & ->). reflexivity.
  - cbn [app split_lines_aux fold_left]. rewrite count_lf_cons. unfold lt_step at 2.
    pose proof (count_lf_nonneg p) as Hp.
    destruct (c =? 10) eqn:E.
    + replace (Z.to_nat (1 + count_lf p)) with (S (Z.to_nat (count_lf p))) by lia.
      cbn [nth_error]. rewrite IH. reflexivity.
    + replace (0 + count_lf p) with (count_lf p) by lia. rewrite IH. cbn [rev]. reflexivity.
Qed.

Lemma line_tail_fold s : line_tail s = fold_left lt_step s [].
Proof. reflexivity. Qed.

Lemma count_non_cr_le s : 0 <= count_non_cr s <= zlen s.
Proof.
  unfold count_non_cr. split; [apply zlen_nonneg|].
  unfold zlen. pose proof (filter_len_le (fun c => negb (c =? 13)) s). lia.
Qed.

Theorem show_source_line_ok src k :
  0 <= k <= zlen src ->
  exists line, show_source_line src (pos_of_offset src k)
               = Ok (line, ztake (snd (pos_of_offset src k) - 1) line) /\
               valid_pos src (pos_of_offset src k).
Proof.
  intros Hk. set (pre := ztake k src). set (suf := zdrop k src).
  assert (Esrc : src = pre ++ suf) by (symmetry; apply firstn_skipn).
  pose proof (split_nth pre suf []) as Hn. cbn [rev] in Hn. rewrite <- Esrc in Hn.
  fold (split_lines src) in Hn. rewrite <- line_tail_fold in Hn.
  set (line := line_tail pre ++ takeline suf) in *.
  exists line.
  assert (Hfst : fst (pos_of_offset src k) - 1 = count_lf pre) by (unfold pos_of_offset; cbn [fst]; fold pre; lia).
  assert (Hsnd : snd (pos_of_offset src k) - 1 = count_non_cr (line_tail pre)) by (unfold pos_of_offset; cbn [snd]; fold pre; lia).
  pose proof (count_lf_nonneg pre) as H0.
  pose proof (count_non_cr_le (line_tail pre)) as Hc.
  assert (Hlen : zlen (line_tail pre) <= zlen line) by (unfold line; rewrite zlen_app; pose proof (zlen_nonneg (takeline suf)); lia).
  split.
  - unfold show_source_line. rewrite Hfst.
    assert (Hi : index (split_lines src) (count_lf pre) = Ok line).
    { unfold index. assert (Hlt : (Z.to_nat (count_lf pre) < length (split_lines src))%nat).
      { apply nth_error_Some. rewrite Hn. discriminate. }
      unfold zlen. replace ((0 <=? count_lf pre) && (count_lf pre <? Z.of_nat (length (split_lines src)))) with true by lia.
      rewrite Hn. reflexivity. }
    rewrite Hi. cbn [rbind]. unfold slice.
    replace ((0 <=? 0) && (0 <=? snd (pos_of_offset src k) - 1) && (snd (pos_of_offset src k) - 1 <=? zlen line)) with true by lia.
    cbn [rbind]. rewrite zdrop_0. replace (snd (pos_of_offset src k) - 1 - 0) with (snd (pos_of_offset src k) - 1) by lia.
    reflexivity.
  - unfold valid_pos. exists line. rewrite Hfst. split; [exact Hn|]. lia.
Qed.
