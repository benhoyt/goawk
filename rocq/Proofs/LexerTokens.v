(* C03: scan(), scanRegex(), the scan loop. *)
From Verif Require Import Lib.Base Lib.Utf8 Model.Lexer Proofs.LexerPos Proofs.LexerScan.
From Coq Require Import ZifyBool.
Open Scope Z_scope.

Section Tokens.
Variable src : bytes.
Notation P := (pos_of_offset src).
Notation len := (zlen src).
Notation Inv := (Inv src).
Notation NormInv := (NormInv src).

(* LexerMain.token_claim, with the source fixed *)
Definition tok_ok (t : token) : Prop :=
  (tkind t <> T_ILLEGAL -> tpos t = P (tstart t) /\ 0 <= tstart t <= len) /\
  (tkind t = T_ILLEGAL -> exists k, 0 <= k <= len /\ tpos t = P k).

(* the length of the two tokens after which the client may ask for a regex, / and /= : scanRegex()
   steps that far back from the lexer state to the start of the token *)
Definition div_back (k : Z) : option Z :=
  if k =? T_DIV then Some 1 else if k =? T_DIV_ASSIGN then Some 2 else None.

Definition scan_post (l0 : lexer) (r : token * lexer) : Prop :=
  Inv (snd r) /\ tok_ok (fst r) /\
  (is_final (fst r) = false -> NormInv (snd r) /\ offset l0 < offset (snd r)) /\
  (forall b, div_back (tkind (fst r)) = Some b ->
     lpos (snd r) = col_add (tpos (fst r)) b /\ offset (snd r) = tstart (fst r) + 1 + b).

Lemma choice_spec l c one two :
  NormInv l -> c <> 0 ->
  okr (fun tl => NormInv (snd tl) /\ offset l <= offset (snd tl) /\
                 ((fst tl = one /\ snd tl = l) \/
                  (fst tl = two /\ ch l = c /\ offset (snd tl) = offset l + 1 /\ lpos (snd tl) = npos l)))
      (choice src l c one two).
Proof.
  intros Hn Hc. unfold choice. destruct (ch l =? c) eqn:E.
  - eapply okr_bind; [apply (next_norm src l Hn); lia|].
    intros l' (Hn' & Ho' & Hl' & _). apply okr_ret. cbn [fst snd].
    splits; try assumption; try lia. right. splits; try reflexivity; try assumption; lia.
  - apply okr_ret. cbn [fst snd]. splits; try assumption; try lia. left; split; reflexivity.
Qed.

Definition sym_post (c : Z) (l : lexer) (r : Z * bytes * lexer) : Prop :=
  let '(t, v, l') := r in
  NormInv l' /\ offset l <= offset l' /\
  forall b, div_back t = Some b ->
    c = 47 /\ (b = 1 /\ l' = l \/ b = 2 /\ ch l = 61 /\ offset l' = offset l + 1 /\ lpos l' = npos l).

(* the tests on the next character are remembered (next needs it to be non-zero), those on c are not *)
Ltac peel := lazymatch goal with
  | |- okr _ (if ch ?l =? ?k then _ else _) => let E := fresh "E" in destruct (ch l =? k) eqn:E; peel
  | |- okr _ (if ?b then _ else _) => destruct b; peel
  | |- _ => idtac end.

Ltac sym_leaf Hn :=
  apply okr_ret; unfold sym_post; splits; [ exact Hn | lia | intros b Hb; discriminate Hb ].

Lemma scan_symbol_spec c l : NormInv l -> okr (sym_post c l) (scan_symbol src c l).
Proof.
  intros Hn. destruct (Z.eq_dec c 47) as [-> | Hc].
  - (* '/' : DIV or DIV_ASSIGN *)
    change (scan_symbol src 47 l) with (dol tl <- choice src l 61 T_DIV T_DIV_ASSIGN; LOk (fst tl, ([] : bytes), snd tl)).
    eapply okr_bind; [apply (choice_spec l _ _ _ Hn); lia|].
    intros (t, l1) (Hn1 & Ho1 & Hc). cbn [fst snd] in *.
    apply okr_ret. unfold sym_post. splits; try assumption.
    intros b Hb. split; [reflexivity|].
    destruct Hc as [(-> & ->)|(-> & ? & ? & ?)]; injection Hb as <-; [left|right]; splits; auto.
  - (* every other character: no branch gives DIV or DIV_ASSIGN, whatever the tests on c say *)
    unfold scan_symbol. cbv zeta. replace (c =? 47) with false by lia. peel.
    all: try (sym_leaf Hn).
    (* one more character consumed by next *)
    all: try (eapply okr_bind; [apply (next_norm src l Hn); lia|];
              let l1 := fresh "l1" in let Hn1 := fresh "Hn1" in
              intros l1 (Hn1 & ? & _); cbn [lbind]; sym_leaf Hn1).
    (* choice *)
    all: try (eapply okr_bind; [apply (choice_spec l _ _ _ Hn); lia|];
              let t := fresh "t" in let l1 := fresh "l1" in let Hn1 := fresh "Hn1" in
              intros (t, l1) (Hn1 & ? & [(? & ?)|(? & ? & ? & ?)]); cbn [fst snd] in *; subst t;
              sym_leaf Hn1).
    (* "**" then choice *)
    eapply okr_bind; [apply (next_norm src l Hn); lia|].
    intros l1 (Hn1 & Ho1 & _).
    eapply okr_bind; [apply (choice_spec l1 _ _ _ Hn1); lia|].
    intros (t, l2) (Hn2 & Ho2 & [(? & ?)|(? & ? & ? & ?)]); cbn [fst snd] in *; subst t;
      sym_leaf Hn2.
Qed.

(* ---- keyword tokens are never DIV or DIV_ASSIGN ---------------------------------------- *)
Lemma keyword_lookup_in tbl name :
  keyword_lookup tbl name = T_ILLEGAL \/ In (keyword_lookup tbl name) (map snd tbl).
Proof.
  induction tbl as [|(k, t) tbl IH]; cbn [keyword_lookup map snd].
  - left; reflexivity.
  - destruct (bytes_eqb k name); [right; left; reflexivity|].
    destruct IH as [IH|IH]; [left; assumption|right; right; assumption].
Qed.

Lemma keyword_not_div name : div_back (keyword_token name) = None.
Proof.
  unfold keyword_token.
  destruct (keyword_lookup_in keywords name) as [-> | H]; [reflexivity|].
  assert (Hall : forallb (fun t => match div_back t with None => true | _ => false end) (map snd keywords) = true)
    by (vm_compute; reflexivity).
  rewrite forallb_forall in Hall. specialize (Hall _ H).
  destruct (div_back (keyword_lookup keywords name)); [discriminate | reflexivity].
Qed.

Lemma post_illegal l0 l msg :
  Inv l -> scan_post l0 (tok_at l T_ILLEGAL msg l).
Proof.
  intros Hi. unfold scan_post, tok_at. cbn [fst snd tkind tpos tstart].
  splits; try assumption.
  - unfold tok_ok. cbn [tkind tpos tstart]. split.
    + intros Hne; exfalso; apply Hne; reflexivity.
    + intros _. apply (Inv_lpos_exists src l Hi).
  - unfold is_final. cbn [tkind]. intros H; vm_compute in H; discriminate H.
  - intros b H; discriminate H.
Qed.

Lemma tok_at_ok lc kind val l' : NormInv lc -> tok_ok (fst (tok_at lc kind val l')).
Proof.
  intros Hni. unfold tok_ok, tok_at. cbn [fst tkind tpos tstart].
  destruct (NormInv_norm _ _ Hni) as (_ & Hl & _).
  pose proof (NormInv_bounds _ _ Hni) as Hb'.
  replace (Z.max 0 (offset lc - 1)) with (offset lc - 1) by lia.
  split.
  - intros _. split; [assumption|lia].
  - intros _. exists (offset lc - 1). split; [lia|assumption].
Qed.

Lemma post_eof l0 l : NormInv l -> scan_post l0 (tok_at l T_EOF [] l).
Proof.
  intros Hn. unfold scan_post. splits.
  - apply NormInv_Inv; exact Hn.
  - apply tok_at_ok; assumption.
  - intros H; vm_compute in H; discriminate H.
  - intros b H; discriminate H.
Qed.

Lemma post_tok lc l0 l' kind val :
  NormInv lc -> offset l0 <= offset lc -> NormInv l' -> offset lc < offset l' ->
  div_back kind = None ->
  scan_post l0 (tok_at lc kind val l').
Proof.
  intros Hn Ho Hn' Ho' Hk. unfold scan_post. splits.
  - apply NormInv_Inv; exact Hn'.
  - apply tok_at_ok; assumption.
  - intros _. split; [exact Hn'|cbn [snd tok_at]; lia].
  - intros b H. cbn [fst tok_at tkind] in H. congruence.
Qed.

Lemma norm_npos_plain l : NormInv l -> ch l <> 0 -> plain (ch l) -> npos l = col_add (lpos l) 1.
Proof.
  intros Hn Hnz Hpl. destruct (NormInv_norm _ _ Hn) as (_ & Hl & Hnp).
  destruct (W_ch_nonzero src l (NormInv_W _ _ Hn) Hnz) as (_ & Hi).
  pose proof (pos_of_offset_step _ _ _ Hi) as Hs.
  replace (offset l - 1 + 1) with (offset l) in Hs by lia.
  rewrite Hnp, Hs, (adv_plain _ _ Hpl), Hl. reflexivity.
Qed.

Lemma slice_len {A} (s : list A) lo hi r : slice s lo hi = Ok r -> zlen r = hi - lo.
Proof.
  unfold slice. destruct ((0 <=? lo) && (lo <=? hi) && (hi <=? zlen s)) eqn:E; [|discriminate].
  intros H; injection H as <-. rewrite zlen_ztake; [reflexivity|]. rewrite zlen_zdrop; lia.
Qed.

Lemma is_name_start_nz c : is_name_start c = true -> c <> 0.
Proof. unfold is_name_start. lia. Qed.

Lemma name_char_nz c : is_name_start c || is_digit c = true -> c <> 0.
Proof. unfold is_name_start, is_digit. lia. Qed.

Lemma comment_char_nz c : negb (c =? 10) && negb (c =? 0) = true -> c <> 0.
Proof. lia. Qed.

Lemma scan_spec fuel l0 :
  NormInv l0 -> len + 2 - offset l0 <= Z.of_nat fuel -> okr (scan_post l0) (scan src fuel l0).
Proof.
  intros Hn0 Hf. unfold scan. cbv zeta.
  pose proof (NormInv_set_had src false l0 Hn0) as Hna.
  eapply okr_bind; [apply (skip_ws_spec src fuel (offset l0) _ Hna (Z.le_refl _)); exact Hf|].
  intros [l|l] (Hn & Hle); cbn [ws_state] in *.
  { apply okr_ret. apply post_illegal. apply NormInv_Inv; assumption. }
  (* comment *)
  eapply okr_bind with (Q1 := fun l' => NormInv l' /\ offset l0 <= offset l').
  { destruct (ch l =? 35) eqn:E35.
    - eapply okr_bind; [apply (next_norm src l Hn); lia|].
      intros l1 (Hn1 & Ho1 & _).
      eapply okr_weaken; [apply (skip_while_spec src _ comment_char_nz fuel l1 Hn1); lia|].
      intros l2 (? & ? & _). split; [assumption | lia].
    - apply okr_ret. split; assumption. }
  clear l Hn Hle. intros l (Hn & Hle).
  destruct (ch l =? 0) eqn:E0.
  { apply okr_ret. apply post_eof; assumption. }
  assert (Hnz : ch l <> 0) by lia.
  pose proof (NormInv_bounds _ _ Hn) as Hbl.
  eapply okr_bind; [apply (next_norm src l Hn Hnz)|].
  intros l1 (Hn1 & Ho1 & Hl1 & _).
  destruct (is_name_start (ch l)) eqn:Ens.
  { (* names and keywords *)
    eapply okr_bind; [apply (skip_while_spec src _ name_char_nz fuel l1 Hn1); lia|].
    intros l2 (Hn2 & Ho2 & _). pose proof (NormInv_bounds _ _ Hn2) as Hb2.
    assert (exists name, slice src (offset l1 - 2) (offset l2 - 1) = Ok name) as (name & Es) by (eexists; apply slice_ok; lia).
    rewrite Es. cbn [of_res lbind].
    destruct (keyword_token name =? T_ILLEGAL).
    - apply okr_ret. apply post_tok; try assumption; try lia; reflexivity.
    - apply okr_ret. apply post_tok; try assumption; try lia. apply keyword_not_div. }
  destruct (is_digit (ch l) || (ch l =? 46)) eqn:Enum.
  { (* numbers *)
    eapply okr_bind with (Q1 := fun gl => NormInv (snd gl) /\ offset l1 <= offset (snd gl)).
    { destruct (negb (ch l =? 46)).
      - eapply okr_bind; [apply (skip_while_spec src _ is_digit_nz fuel l1 Hn1); lia|].
        intros l2 (Hn2 & Ho2 & _).
        eapply okr_bind with (Q1 := fun l3 => NormInv l3 /\ offset l1 <= offset l3).
        { destruct (ch l2 =? 46) eqn:Edot.
          - eapply okr_weaken; [apply (next_norm src l2 Hn2); lia|].
            intros l3 (? & ? & _). split; [assumption | lia].
          - apply okr_ret. split; [assumption | lia]. }
        intros l3 (? & ?). apply okr_ret. cbn [snd]. split; assumption.
      - apply okr_ret. cbn [snd]. split; [assumption | lia]. }
    intros (got0, l2) (Hn2 & Ho2). cbn [snd] in *.
    eapply okr_bind; [apply (skip_digits_spec src fuel got0 l2 Hn2); lia|].
    intros (got, l3) (Hn3 & Ho3 & _). cbn [fst snd] in *.
    destruct (negb got).
    { apply okr_ret. apply post_illegal. apply NormInv_Inv; assumption. }
    eapply okr_bind with (Q1 := fun l4 => NormInv l4 /\ offset l3 <= offset l4).
    { destruct ((ch l3 =? 101) || (ch l3 =? 69)) eqn:Ee.
      - apply (scan_exponent_spec src fuel l3 Hn3); lia.
      - apply okr_ret. split; [assumption|lia]. }
    intros l4 (Hn4 & Ho4). pose proof (NormInv_bounds _ _ Hn4) as Hb4.
    assert (exists v, slice src (offset l1 - 2) (offset l4 - 1) = Ok v) as (v & Es) by (eexists; apply slice_ok; lia).
    rewrite Es. cbn [of_res lbind].
    apply okr_ret. apply post_tok; try assumption; try lia; reflexivity. }
  destruct ((ch l =? 34) || (ch l =? 39)) eqn:Estr.
  { (* strings *)
    eapply okr_bind; [apply (parse_string_spec src fuel (ch l) [] (offset l1) l1 (NormInv_Inv _ _ Hn1) (Z.le_refl _)); lia|].
    intros [msg l2|chars l2] (Hi2 & Hle12); cbn [str_state] in *.
    { apply okr_ret. apply post_illegal; assumption. }
    destruct (negb (ch l2 =? ch l)) eqn:Eend.
    { apply okr_ret. apply post_illegal; assumption. }
    assert (Hnz2 : ch l2 <> 0) by lia.
    pose proof (Inv_nonzero_NormInv src l2 Hi2 Hnz2) as Hn2.
    eapply okr_bind; [apply (next_norm src l2 Hn2 Hnz2)|].
    intros l3 (Hn3 & Ho3 & _).
    apply okr_ret. apply post_tok; try assumption; try lia; reflexivity. }
  destruct (ch l =? 38) eqn:Eamp.
  { (* '&' *)
    eapply okr_bind; [apply (choice_spec l1 38 T_ILLEGAL T_AND Hn1); lia|].
    intros (t, l2) (Hn2 & Ho2 & Hc). cbn [fst snd] in *.
    destruct Hc as [(-> & ->)|(-> & _)].
    - replace (T_ILLEGAL =? T_ILLEGAL) with true by reflexivity.
      apply okr_ret. apply post_illegal. apply NormInv_Inv; assumption.
    - replace (T_AND =? T_ILLEGAL) with false by reflexivity.
      apply okr_ret. apply post_tok; try assumption; try lia; reflexivity. }
  (* all other characters *)
  eapply okr_bind; [apply (scan_symbol_spec (ch l) l1 Hn1)|].
  intros ((t, v), l2) (Hn2 & Ho2 & Hd).
  apply okr_ret. unfold scan_post. cbn [fst snd tok_at tkind tpos tstart].
  splits.
  - apply NormInv_Inv; exact Hn2.
  - apply (tok_at_ok l t v l2); assumption.
  - intros _. split; [exact Hn2|lia].
  - replace (Z.max 0 (offset l - 1)) with (offset l - 1) by lia.
    intros b Hb. destruct (Hd b Hb) as (Hc47 & [(-> & ->) | (-> & Hc61 & Ho & Hl2)]).
    + rewrite Hl1, (norm_npos_plain l Hn Hnz) by (rewrite Hc47; unfold plain; lia).
      split; [reflexivity|lia].
    + rewrite Hl2, (norm_npos_plain l1 Hn1) by (try (unfold plain); lia).
      rewrite Hl1, (norm_npos_plain l Hn Hnz) by (rewrite Hc47; unfold plain; lia).
      rewrite col_add_add. split; [reflexivity|lia].
Qed.

(* ---- Scan(): scan() + lastTok ------------------------------------------------------------ *)
Lemma Scan_spec fuel l0 :
  NormInv l0 -> len + 2 - offset l0 <= Z.of_nat fuel ->
  okr (fun r => scan_post l0 r /\ lastTok (snd r) = tkind (fst r)) (Scan src fuel l0).
Proof.
  intros Hn Hf. unfold Scan.
  eapply okr_bind; [apply (scan_spec fuel l0 Hn Hf)|].
  intros (t, l') Hp. apply okr_ret. cbn [fst snd]. split; [exact Hp|reflexivity].
Qed.

(* the lexer state right after a DIV (back = 1) or DIV_ASSIGN (back = 2) token that started
   at offset s *)
Definition regex_pre (l0 : lexer) (back : Z) : Prop :=
  exists s, 0 <= s /\ lpos l0 = col_add (P s) back /\ offset l0 = s + 1 + back.

Definition regex_post (l0 : lexer) (r : token * lexer) : Prop :=
  Inv (snd r) /\ tok_ok (fst r) /\
  (is_final (fst r) = false -> NormInv (snd r) /\ offset l0 < offset (snd r)).

Lemma scan_regex_spec fuel l0 :
  NormInv l0 ->
  (exists back, div_back (lastTok l0) = Some back /\ regex_pre l0 back) ->
  len + 2 - offset l0 <= Z.of_nat fuel ->
  okr (regex_post l0) (scan_regex src fuel l0).
Proof.
  intros Hn (back & Hdb & Hpre) Hf. unfold scan_regex.
  assert (Hsel : (back = 1 \/ back = 2) /\
            (if lastTok l0 =? T_DIV then LOk 1 else if lastTok l0 =? T_DIV_ASSIGN then LOk 2 else LPanic) = LOk back).
  { unfold div_back in Hdb.
    destruct (lastTok l0 =? T_DIV); [|destruct (lastTok l0 =? T_DIV_ASSIGN); [|discriminate Hdb]];
      injection Hdb as <-; auto. }
  destruct Hsel as (Hb12 & ->). cbn [lbind].
  pose proof (NormInv_bounds _ _ Hn) as Hb0.
  eapply okr_bind; [apply (regex_loop_spec src fuel _ (offset l0) l0 (NormInv_Inv _ _ Hn) (Z.le_refl _)); exact Hf|].
  intros [msg l|chars l] (Hi & Hr & Hc); cbn [rx_state] in *.
  - apply okr_ret. destruct (post_illegal l0 l msg Hi) as (H1 & H2 & H3 & _).
    unfold regex_post. splits; assumption.
  - assert (Hnz : ch l <> 0) by lia.
    pose proof (Inv_nonzero_NormInv src l Hi Hnz) as Hnl.
    eapply okr_bind; [apply (next_norm src l Hnl Hnz)|].
    intros l' (Hn' & Ho' & _). apply okr_ret.
    unfold regex_post. cbn [fst snd tkind]. splits.
    + apply NormInv_Inv; exact Hn'.
    + unfold tok_ok. cbn [tkind tpos tstart].
      destruct Hpre as (s & Hs0 & Hl & Ho).
      assert (Epos : col_add (lpos l0) (- back) = P s).
      { rewrite Hl, col_add_add. replace (back + - back) with 0 by lia. apply col_add_0. }
      split.
      * intros _. rewrite Epos. replace (offset l0 - 1 - back) with s by lia. split; [reflexivity|lia].
      * intros H; vm_compute in H; discriminate H.
    + intros _. split; [exact Hn'|lia].
Qed.

Lemma ScanRegex_spec fuel l0 :
  NormInv l0 ->
  (exists back, div_back (lastTok l0) = Some back /\ regex_pre l0 back) ->
  len + 2 - offset l0 <= Z.of_nat fuel ->
  okr (regex_post l0) (ScanRegex src fuel l0).
Proof.
  intros Hn Hl Hf. unfold ScanRegex.
  eapply okr_bind; [apply (scan_regex_spec fuel l0 Hn Hl Hf)|].
  intros (t, l') Hp. apply okr_ret. exact Hp.
Qed.

(* ---- the client loop ------------------------------------------------------------------------ *)
Definition all_ok (os : list obs) : Prop := Forall (fun o => tok_ok (otok o)) os.
Definition ends_final (os : list obs) : Prop :=
  exists pre o, os = pre ++ [o] /\ is_final (otok o) = true /\
                Forall (fun o' => is_final (otok o') = false) pre.

Lemma ends_final_one o : is_final (otok o) = true -> ends_final [o].
Proof. intros H. exists [], o. repeat split; [exact H | constructor]. Qed.

Lemma ends_final_cons o os : is_final (otok o) = false -> ends_final os -> ends_final (o :: os).
Proof.
  intros H (pre & o' & -> & Hf & Hp). exists (o :: pre), o'.
  repeat split; [exact Hf | constructor; assumption].
Qed.

Lemma lex_fuel_enough l : NormInv l -> len + 2 - offset l <= Z.of_nat (lex_fuel src).
Proof.
  intros Hn. pose proof (NormInv_bounds _ _ Hn). unfold lex_fuel, zlen. lia.
Qed.

Lemma scan_loop_spec :
  forall fuel ds l, NormInv l -> len + 2 - offset l <= Z.of_nat fuel ->
  okr (fun os => all_ok os /\ ends_final os) (scan_loop src (lex_fuel src) fuel ds l).
Proof.
  induction fuel as [|f IH]; intros ds l Hn Hf.
  - exfalso. pose proof (NormInv_bounds _ _ Hn). lia.
  - cbn [scan_loop].
    eapply okr_bind; [apply (Scan_spec _ l Hn (lex_fuel_enough l Hn))|].
    intros (t, l1) ((Hi1 & Hok & Hnf & Hdiv) & Hlast). cbn [fst snd] in *.
    destruct (is_final t) eqn:Efin.
    { apply okr_ret. split; [constructor; [exact Hok | constructor] | apply ends_final_one; exact Efin]. }
    destruct (Hnf eq_refl) as (Hn1 & Ho1).
    set (want := match ds with d :: _ => is_div t && d | [] => false end).
    destruct want eqn:Ewant.
    + (* the client asks for a regex *)
      assert (Hd : is_div t = true) by (subst want; destruct ds; [discriminate|]; lia).
      assert (Hpre : exists b, div_back (lastTok l1) = Some b /\ regex_pre l1 b).
      { assert (Hb : exists b, div_back (tkind t) = Some b).
        { unfold is_div in Hd. unfold div_back.
          destruct (tkind t =? T_DIV); [|destruct (tkind t =? T_DIV_ASSIGN); [|discriminate Hd]]; eauto. }
        destruct Hb as (b & Hb). exists b. split; [rewrite Hlast; exact Hb|].
        destruct (Hdiv b Hb) as (Hl & Ho).
        assert (Hk : tkind t <> T_ILLEGAL) by (intros Ek; rewrite Ek in Hb; discriminate Hb).
        destruct Hok as (Hp & _). destruct (Hp Hk) as (Hp1 & Hs & _).
        exists (tstart t). splits; [assumption | congruence | lia]. }
      eapply okr_bind; [apply (ScanRegex_spec _ l1 Hn1 Hpre (lex_fuel_enough l1 Hn1))|].
      intros (r, l2) (Hi2 & Hok2 & Hnf2). cbn [fst snd] in *.
      destruct (is_final r) eqn:Efin2.
      { apply okr_ret. split; [constructor; [exact Hok | constructor; [exact Hok2 | constructor]]|].
        apply ends_final_cons; [exact Efin | apply ends_final_one; exact Efin2]. }
      destruct (Hnf2 eq_refl) as (Hn2 & Ho2).
      eapply okr_bind; [apply (IH _ l2 Hn2); lia|].
      intros rest (Hall & Hend). apply okr_ret. split.
      * constructor; [exact Hok|constructor; [exact Hok2|exact Hall]].
      * apply ends_final_cons; [exact Efin|]. apply ends_final_cons; [exact Efin2 | exact Hend].
    + eapply okr_bind; [apply (IH _ l1 Hn1); lia|].
      intros rest (Hall & Hend). apply okr_ret. split.
      * constructor; [exact Hok|exact Hall].
      * apply ends_final_cons; [exact Efin | exact Hend].
Qed.

End Tokens.
