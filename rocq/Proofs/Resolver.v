(* C16: the resolver model: tables and scoping; what
   recordVar and one step of the visitor do, first by outcome alone, then for a
   table that is forced by the constraints; and the scheme by which every
   property of a step is carried up to a whole run of [resolve_order]. *)
From Verif Require Import Lib.Base Model.Resolver.
Open Scope Z_scope.

Lemma neqb_eq a b : neqb a b = true <-> a = b.
Proof. apply bytes_eqb_eq. Qed.

Lemma neqb_refl a : neqb a a = true.
Proof. apply neqb_eq. reflexivity. Qed.

Lemma neqb_neq a b : neqb a b = false <-> a <> b.
Proof. rewrite <- neqb_eq. symmetry. apply not_true_iff_false. Qed.

Lemma neqb_sym a b : neqb a b = neqb b a.
Proof.
  destruct (neqb a b) eqn:E.
  - apply neqb_eq in E. subst. symmetry. apply neqb_refl.
  - symmetry. apply neqb_neq. apply neqb_neq in E. congruence.
Qed.

Lemma mem_In x l : mem x l = true <-> In x l.
Proof.
  unfold mem. rewrite existsb_exists. split.
  - intros [y [Hy E]]. apply neqb_eq in E. subst. exact Hy.
  - intros H. exists x. split; [exact H | apply neqb_refl].
Qed.

Lemma mem_not_In x l : mem x l = false <-> ~ In x l.
Proof. rewrite <- mem_In. symmetry. apply not_true_iff_false. Qed.

Lemma is_empty_nil n : is_empty n = true <-> n = [].
Proof. destruct n; cbn; split; intro H; congruence. Qed.

Lemma is_empty_false n : is_empty n = false <-> n <> [].
Proof. destruct n; cbn; split; intro H; congruence. Qed.

Lemma key_eqb_eq a b : key_eqb a b = true <-> a = b.
Proof.
  destruct a as [a1 a2], b as [b1 b2]. unfold key_eqb. cbn [fst snd].
  rewrite andb_true_iff, !neqb_eq. split.
  - intros [-> ->]. reflexivity.
  - intros H. injection H as -> ->. split; reflexivity.
Qed.

Lemma key_eqb_refl a : key_eqb a a = true.
Proof. apply key_eqb_eq. reflexivity. Qed.

Lemma key_eqb_neq a b : key_eqb a b = false <-> a <> b.
Proof. rewrite <- key_eqb_eq. symmetry. apply not_true_iff_false. Qed.

Lemma get_put t k v k' : get (put t k v) k' = if key_eqb k' k then Some v else get t k'.
Proof.
  induction t as [|[k0 v0] t IH]; cbn [put get]; [reflexivity|].
  destruct (key_eqb k k0) eqn:E; cbn [get].
  - apply key_eqb_eq in E. subst k0. destruct (key_eqb k' k); reflexivity.
  - rewrite IH. destruct (key_eqb k' k0) eqn:E0; [|reflexivity].
    apply key_eqb_eq in E0. subst k0. destruct (key_eqb k' k) eqn:E1; [|reflexivity].
    apply key_eqb_eq in E1. subst k'. rewrite key_eqb_refl in E. discriminate.
Qed.

Lemma get_put_same t k v : get (put t k v) k = Some v.
Proof. rewrite get_put, key_eqb_refl. reflexivity. Qed.

Lemma get_put_other t k v k' : k' <> k -> get (put t k v) k' = get t k'.
Proof. intros Hne. rewrite get_put. apply key_eqb_neq in Hne. rewrite Hne. reflexivity. Qed.

(* [(x, y)] with x : list Z and with x : name are the same term up to conversion only *)
Ltac norm := change (@pair (list Z) name) with (@pair name name) in *.
Notation gk v := (@pair name name (@nil Z) v).

Definition isarr (t : ty) : bool := match t with TArray => true | _ => false end.

Lemma ty_eqb_eq a b : ty_eqb a b = true <-> a = b.
Proof. destruct a, b; cbn; split; intro H; congruence. Qed.

Lemma ty_eqb_neq a b : ty_eqb a b = false <-> a <> b.
Proof. destruct a, b; cbn; split; intro H; congruence. Qed.

Lemma find_func_from_In fs f i j fd :
  find_func_from fs f i = Some (j, fd) -> In fd fs /\ f_name fd = f.
Proof.
  revert i. induction fs as [|fd0 fs IH]; intros i H; cbn [find_func_from] in H; [discriminate|].
  destruct (neqb (f_name fd0) f) eqn:E.
  - injection H as <- <-. apply neqb_eq in E. split; [left; reflexivity | exact E].
  - apply IH in H. destruct H as [H1 H2]. split; [right; exact H1 | exact H2].
Qed.

Lemma find_func_from_none fs f i :
  find_func_from fs f i = None <-> ~ In f (map f_name fs).
Proof.
  revert i. induction fs as [|fd0 fs IH]; intros i; cbn [find_func_from map].
  - split; [intros _ [] | reflexivity].
  - destruct (neqb (f_name fd0) f) eqn:E.
    + apply neqb_eq in E. split; [discriminate | intros H; exfalso; apply H; left; exact E].
    + apply neqb_neq in E. rewrite IH. split.
      * intros H [H1|H1]; [contradiction | contradiction].
      * intros H H1. apply H. right. exact H1.
Qed.

Lemma find_func_from_nodup fs fd i :
  NoDup (map f_name fs) -> In fd fs -> exists j, find_func_from fs (f_name fd) i = Some (j, fd).
Proof.
  revert i. induction fs as [|fd0 fs IH]; intros i Hnd Hin; [destruct Hin|].
  cbn [find_func_from]. cbn [map] in Hnd. inversion Hnd as [|x l Hnotin Hnd']; subst.
  destruct Hin as [->|Hin].
  - rewrite neqb_refl. eexists; reflexivity.
  - destruct (neqb (f_name fd0) (f_name fd)) eqn:E.
    + apply neqb_eq in E. exfalso. apply Hnotin. rewrite E. apply in_map. exact Hin.
    + apply IH; assumption.
Qed.

Lemma first_dup_none seen l :
  first_dup seen l = None -> NoDup l /\ forall x, In x l -> ~ In x seen.
Proof.
  revert seen. induction l as [|x l IH]; intros seen H; cbn [first_dup] in H.
  - split; [constructor | intros x []].
  - destruct (mem x seen) eqn:E; [discriminate|].
    apply IH in H. destruct H as [Hnd Hns]. apply mem_not_In in E. split.
    + constructor; [|exact Hnd]. intros Hx. apply (Hns x Hx). left; reflexivity.
    + intros y [<-|Hy]; [exact E|]. intros Hys. apply (Hns y Hy). right; exact Hys.
Qed.

Lemma first_dup_nodup seen l :
  NoDup l -> (forall x, In x l -> ~ In x seen) -> first_dup seen l = None.
Proof.
  revert seen. induction l as [|x l IH]; intros seen Hnd Hs; cbn [first_dup]; [reflexivity|].
  inversion Hnd as [|y l' Hx Hl]; subst.
  rewrite (proj2 (mem_not_In x seen)) by (apply Hs; left; reflexivity).
  apply IH; [exact Hl|]. intros y Hy [<-|Hys]; [contradiction|]. apply (Hs y); [right; exact Hy | exact Hys].
Qed.

Lemma first_dup_nil l : first_dup [] l = None <-> NoDup l.
Proof.
  split; [apply first_dup_none|]. intros H. apply first_dup_nodup; [exact H | intros x _ []].
Qed.

Lemma is_func_In P f : is_func P f = true <-> In f (fnames P).
Proof. apply mem_In. Qed.

Lemma find_func_is_func P f : is_func P f = true <-> exists i fd, find_func P f = Some (i, fd).
Proof.
  unfold find_func. rewrite is_func_In. unfold fnames. split.
  - intros H. destruct (find_func_from (p_funcs P) f 0) as [[i fd]|] eqn:E.
    + eauto.
    + apply find_func_from_none in E. contradiction.
  - intros [i [fd H]]. destruct (in_dec (list_eq_dec Z.eq_dec) f (map f_name (p_funcs P))) as [Hi|Hn]; [exact Hi|].
    apply find_func_from_none with (i := 0) in Hn. congruence.
Qed.

(* [wf P] is [wf_with (wf_step P) P]; ResolverFlat has a second check of a step *)
Definition wf_with (ws : name -> step -> bool) (P : program) : bool :=
  match first_dup [] (fnames P) with Some _ => false | None => true end
  && forallb (fun fd => negb (is_empty (f_name fd))) (p_funcs P)
  && negb (is_func P n_ARGV) && negb (is_func P n_ENVIRON) && negb (is_func P n_FIELDS)
  && forallb (fun fd => forallb (ws (f_name fd)) (flat_events (f_body fd))) (p_funcs P)
  && forallb (ws []) (flat_events (p_main P)).

Definition wf_props (ws : name -> step -> bool) (P : program) : Prop :=
  NoDup (fnames P) /\
  (forall fd, In fd (p_funcs P) -> f_name fd <> []) /\
  (is_func P n_ARGV = false /\ is_func P n_ENVIRON = false /\ is_func P n_FIELDS = false) /\
  (forall fd, In fd (p_funcs P) -> forallb (ws (f_name fd)) (flat_events (f_body fd)) = true) /\
  forallb (ws []) (flat_events (p_main P)) = true.

Lemma wf_with_spec ws P : wf_with ws P = true <-> wf_props ws P.
Proof.
  unfold wf_with, wf_props.
  rewrite !andb_true_iff, !negb_true_iff, !forallb_forall, <- first_dup_nil.
  assert (Hd : (match first_dup [] (fnames P) with Some _ => false | None => true end) = true
               <-> first_dup [] (fnames P) = None)
    by (destruct (first_dup [] (fnames P)); split; congruence).
  assert (Hn : (forall fd, In fd (p_funcs P) -> negb (is_empty (f_name fd)) = true)
               <-> (forall fd, In fd (p_funcs P) -> f_name fd <> [])).
  { split; intros H fd Hfd; specialize (H fd Hfd); [apply is_empty_false, negb_true_iff, H | apply negb_true_iff, is_empty_false, H]. }
  rewrite Hd, Hn. tauto.
Qed.

Lemma wf_spec P : wf P = true <-> wf_props (wf_step P) P.
Proof. apply wf_with_spec. Qed.

Lemma wf_props_mono (ws ws' : name -> step -> bool) P :
  (forall cur es, forallb (ws cur) (flat_events es) = true -> forallb (ws' cur) (flat_events es) = true) ->
  wf_props ws P -> wf_props ws' P.
Proof.
  intros Hw [Hnd [Hne [Hb [Hf Hm]]]]. repeat split; try assumption; try apply Hb.
  - intros fd Hfd. apply Hw, Hf, Hfd.
  - apply Hw, Hm.
Qed.

Lemma arity_arg_ok P f fi n :
  func_info P f = Some fi -> fi_native fi = true \/ (zlen (fi_params fi) <? n) = false ->
  forall i, Z.of_nat i < n -> arg_ok P f i = true.
Proof.
  intros Hf Hn i Hi. unfold arg_ok. rewrite Hf. destruct Hn as [->|Hn]; [reflexivity|].
  apply orb_true_iff. right. destruct (nth_error (fi_params fi) i) eqn:E; [reflexivity|].
  apply nth_error_None in E. apply Z.ltb_ge in Hn. unfold zlen in Hn. lia.
Qed.

Lemma visit_head_cases P cur s f n :
  (visit_step P cur s (SCallHead f n) = ROk s /\ forall i, Z.of_nat i < n -> arg_ok P f i = true) \/
  (exists e, visit_step P cur s (SCallHead f n) = RErr e /\ is_type_error e = false /\ e <> ETooManyIter).
Proof.
  cbn [visit_step].
  destruct (match lookup_var (st_vars s) cur f with Some (_, _, vf) => negb (is_empty vf) | None => false end);
    [right; eexists; repeat split; discriminate|].
  destruct (func_info P f) as [fi|] eqn:Efi; [|right; eexists; repeat split; discriminate].
  destruct (fi_native fi) eqn:En.
  - destruct (find_native (p_natives P) f) as [nt|]; [|right; eexists; repeat split; discriminate].
    destruct (n_func nt); cbn [negb]; [|right; eexists; repeat split; discriminate].
    destruct (_ <? n); [right; eexists; repeat split; discriminate|].
    left. split; [reflexivity|]. apply (arity_arg_ok P f fi n Efi). left. exact En.
  - destruct (zlen (fi_params fi) <? n) eqn:El; [right; eexists; repeat split; discriminate|].
    left. split; [reflexivity|]. apply (arity_arg_ok P f fi n Efi). right. exact El.
Qed.

Lemma visit_arg_ok P cur s f i s' :
  visit_step P cur s (SArgExpr f i) = ROk s' \/ (exists v, visit_step P cur s (SArgVar f i v) = ROk s') ->
  arg_ok P f i = true.
Proof.
  unfold arg_ok. intros [H|[v H]]; cbn [visit_step] in H;
    (destruct (func_info P f) as [fi|]; [|discriminate]); (destruct (fi_native fi); [reflexivity|]);
    (destruct (nth_error (fi_params fi) i); [reflexivity | discriminate]).
Qed.

Lemma lookup_var_Some t fn v sc ty0 vf :
  lookup_var t fn v = Some (sc, ty0, vf) -> (sc = Special /\ ty0 = TScalar) \/ get t (vf, v) = Some ty0.
Proof.
  unfold lookup_var. destruct (if is_empty fn then None else get t (fn, v)) as [lt|] eqn:E1.
  - intros H. injection H as <- <- <-. right. destruct (is_empty fn); [discriminate | exact E1].
  - destruct (special v); [intros H; injection H as <- <- <-; left; auto|].
    destruct (get t ([], v)) eqn:E2; intros H; [injection H as <- <- <-; right; exact E2 | discriminate].
Qed.

Lemma lookup_var_None t fn v : lookup_var t fn v = None -> get t (gk v) = None.
Proof.
  unfold lookup_var. destruct (if is_empty fn then None else get t (fn, v)); [discriminate|].
  destruct (special v); [discriminate|]. norm. destruct (get t (gk v)); [discriminate | reflexivity].
Qed.

Lemma lookup_local t (cur v : name) ty0 :
  cur <> [] -> get t (cur, v) = Some ty0 -> lookup_var t cur v = Some (Local, ty0, cur).
Proof. intros Hc G. unfold lookup_var. apply is_empty_false in Hc. rewrite Hc, G. reflexivity. Qed.

Lemma lookup_global t (v : name) :
  special v = false ->
  lookup_var t [] v = match get t (gk v) with Some ty0 => Some (Global, ty0, []) | None => None end.
Proof. intros H. unfold lookup_var. cbn [is_empty]. rewrite H. reflexivity. Qed.

(* the test at a call head: the name of the callee is not a local variable *)
Lemma not_local t (cur v : name) :
  cur = [] \/ get t (cur, v) = None ->
  match lookup_var t cur v with Some (_, _, vf) => negb (is_empty vf) | None => false end = false.
Proof.
  intros H. unfold lookup_var.
  assert (E : (if is_empty cur then None else get t (cur, v)) = None).
  { destruct H as [-> | ->]; [reflexivity | destruct (is_empty cur); reflexivity]. }
  rewrite E. destruct (special v); [reflexivity|]. destruct (get t ([], v)); reflexivity.
Qed.

(* recordVar leaves the state alone, gives an entry without a type its type,
   adds a global, or fails with one of its two errors *)
Inductive rv_out (P : program) (s : state) (fn v : name) (typ : ty) : rres state -> Prop :=
| RV_same sc ity vf : lookup_var (st_vars s) fn v = Some (sc, ity, vf) -> typ = TUnknown \/ ity = typ ->
    rv_out P s fn v typ (ROk s)
| RV_set sc vf : lookup_var (st_vars s) fn v = Some (sc, TUnknown, vf) ->
    get (st_vars s) (vf, v) = Some TUnknown -> typ <> TUnknown ->
    rv_out P s fn v typ (ROk {| st_vars := put (st_vars s) (vf, v) typ; st_updates := st_updates s + 1 |})
| RV_new : lookup_var (st_vars s) fn v = None -> is_func P v = false ->
    rv_out P s fn v typ (ROk {| st_vars := put (st_vars s) (gk v) typ; st_updates := st_updates s + 1 |})
| RV_clash : lookup_var (st_vars s) fn v = None -> is_func P v = true -> rv_out P s fn v typ (RErr (EGlobalFunc v))
| RV_use sc ity vf : lookup_var (st_vars s) fn v = Some (sc, ity, vf) ->
    ity <> typ -> ity <> TUnknown -> typ <> TUnknown -> rv_out P s fn v typ (RErr (EUse ity v typ)).

Lemma record_var_out P s fn v typ : rv_out P s fn v typ (record_var P s fn v typ).
Proof.
  unfold record_var. destruct (lookup_var (st_vars s) fn v) as [[[sc ity] vf]|] eqn:El.
  - destruct (negb (ty_eqb ity typ) && negb (ty_eqb ity TUnknown) && negb (ty_eqb typ TUnknown)) eqn:C0.
    { apply andb_true_iff in C0. destruct C0 as [C0 C3]. apply andb_true_iff in C0. destruct C0 as [C1 C2].
      apply negb_true_iff, ty_eqb_neq in C1, C2, C3. eapply RV_use; eassumption. }
    destruct (ty_eqb ity TUnknown && negb (ty_eqb typ TUnknown)) eqn:C.
    + apply andb_true_iff in C. destruct C as [C1 C2]. apply ty_eqb_eq in C1. subst ity.
      apply negb_true_iff, ty_eqb_neq in C2.
      destruct (lookup_var_Some _ _ _ _ _ _ El) as [[_ Hx]|G]; [discriminate Hx|]. eapply RV_set; eassumption.
    + apply (RV_same _ _ _ _ _ sc ity vf El). destruct ity, typ; cbn in C0, C; auto; discriminate.
  - destruct (is_func P v) eqn:Ef; [apply RV_clash | apply RV_new]; assumption.
Qed.

Lemma record_quiet P s cur v typ sc ity vf :
  lookup_var (st_vars s) cur v = Some (sc, ity, vf) -> typ = TUnknown \/ typ = ity -> record_var P s cur v typ = ROk s.
Proof. intros E H. unfold record_var. rewrite E. destruct H as [-> | ->]; destruct ity; reflexivity. Qed.

Lemma record_set P s cur v typ sc vf :
  lookup_var (st_vars s) cur v = Some (sc, TUnknown, vf) -> typ <> TUnknown ->
  record_var P s cur v typ = ROk {| st_vars := put (st_vars s) (vf, v) typ; st_updates := st_updates s + 1 |}.
Proof. intros E H. unfold record_var. rewrite E. destruct typ; [congruence | reflexivity | reflexivity]. Qed.

Lemma record_new P s cur v typ :
  lookup_var (st_vars s) cur v = None -> is_func P v = false ->
  record_var P s cur v typ = ROk {| st_vars := put (st_vars s) (gk v) typ; st_updates := st_updates s + 1 |}.
Proof. intros E Hf. unfold record_var. rewrite E, Hf. reflexivity. Qed.

Lemma record_var_no_panic P s cur v typ : record_var P s cur v typ <> RPanic /\ record_var P s cur v typ <> RFuel.
Proof. destruct (record_var_out P s cur v typ); split; discriminate. Qed.

Lemma record_var_not_toomany P s c x t : record_var P s c x t <> RErr ETooManyIter.
Proof. destruct (record_var_out P s c x t); discriminate. Qed.

Lemma index_of_In f l i j : index_of f l i = Some j -> In f l.
Proof.
  revert i. induction l as [|x l IH]; intros i H; cbn [index_of] in H; [discriminate|].
  destruct (neqb x f) eqn:E; [apply neqb_eq in E; left; exact E | right; eapply IH; eassumption].
Qed.

Lemma index_of_ge x l : forall s j, index_of x l s = Some j -> s <= j.
Proof.
  induction l as [|y l IH]; intros s j H; cbn [index_of] in H; [discriminate|].
  destruct (neqb y x); [injection H as <-; lia | apply IH in H; lia].
Qed.

Lemma index_of_inj a b l : forall s i, index_of a l s = Some i -> index_of b l s = Some i -> a = b.
Proof.
  induction l as [|x r IH]; intros s i Ha Hb; cbn [index_of] in *; [discriminate|].
  destruct (neqb x a) eqn:Ea; destruct (neqb x b) eqn:Eb.
  - apply neqb_eq in Ea, Eb. congruence.
  - injection Ha as <-. apply index_of_ge in Hb. lia.
  - injection Hb as <-. apply index_of_ge in Ha. lia.
  - eapply IH; eassumption.
Qed.

Lemma func_info_find P f fi :
  func_info P f = Some fi -> fi_native fi = false ->
  exists i fd, find_func P f = Some (i, fd) /\ fi_params fi = f_params fd.
Proof.
  unfold func_info. intros H Hn. destruct (find_func P f) as [[i fd]|].
  - injection H as <-. eauto.
  - destruct (index_of f _ 0); [injection H as <-; discriminate Hn | discriminate H].
Qed.

Lemma scope_key_own P f fi p :
  func_info P f = Some fi -> fi_native fi = false -> In p (fi_params fi) ->
  scope_key P f p = (f, p) /\ In p (flat_map f_params (p_funcs P)).
Proof.
  intros H Hn Hp. destruct (func_info_find P f fi H Hn) as [i [fd [Ef Hpar]]]. rewrite Hpar in Hp. split.
  - unfold scope_key, params_of. rewrite Ef. apply mem_In in Hp. rewrite Hp.
    destruct f; reflexivity.
  - apply find_func_from_In in Ef. apply in_flat_map. exists fd. split; [apply Ef | exact Hp].
Qed.

Definition mentions (c : constr) (k : key) : Prop :=
  match c with CIs k1 _ | CNotArr k1 => k1 = k | CEq k1 k2 => k1 = k \/ k2 = k end.

(* a step leaves the state alone, ends the run with an error of its own, looks
   up a parameter that is not there, or is one recordVar, of a variable that one
   of the step's constraints is about *)
Inductive vs_out (P : program) (cur : name) (s : state) (st : step) : rres state -> Prop :=
| VS_same : vs_out P cur s st (ROk s)
| VS_err e : e <> ETooManyIter -> vs_out P cur s st (RErr e)
| VS_panic f i : (st = SArgExpr f i \/ exists v, st = SArgVar f i v) -> arg_ok P f i = false ->
    vs_out P cur s st RPanic
| VS_record c v t c0 :
    In c0 (constr_of_step P cur st) -> mentions c0 (scope_key P c v) ->
    In v (step_names st) \/ In v (flat_map f_params (p_funcs P)) ->
    vs_out P cur s st (record_var P s c v t).

Lemma visit_step_out P cur s st : vs_out P cur s st (visit_step P cur s st).
Proof.
  destruct st as [v t|f n|f i|f i v].
  - apply (VS_record _ _ _ _ cur v t (CIs (scope_key P cur v) t)); cbn; auto.
  - destruct (visit_head_cases P cur s f n) as [[Hv _]|[e [Hv [_ He]]]]; rewrite Hv;
      [apply VS_same | apply VS_err; exact He].
  - cbn [visit_step]. destruct (func_info P f) as [fi|] eqn:Efi.
    2:{ apply (VS_panic _ _ _ _ f i); [auto | unfold arg_ok; rewrite Efi; reflexivity]. }
    destruct (fi_native fi) eqn:En; [apply VS_same|].
    destruct (nth_error (fi_params fi) i) as [p|] eqn:Ep.
    2:{ apply (VS_panic _ _ _ _ f i); [auto | unfold arg_ok; rewrite Efi, En, Ep; reflexivity]. }
    destruct (get_or_unknown (st_vars s) (f, p)); (apply VS_same || (apply VS_err; discriminate)).
  - cbn [visit_step]. destruct (func_info P f) as [fi|] eqn:Efi.
    2:{ apply (VS_panic _ _ _ _ f i); [eauto | unfold arg_ok; rewrite Efi; reflexivity]. }
    destruct (fi_native fi) eqn:En.
    { apply (VS_record _ _ _ _ cur v TScalar (CIs (scope_key P cur v) TScalar)); cbn; auto.
      rewrite Efi, En. left; reflexivity. }
    destruct (nth_error (fi_params fi) i) as [p|] eqn:Ep.
    2:{ apply (VS_panic _ _ _ _ f i); [eauto | unfold arg_ok; rewrite Efi, En, Ep; reflexivity]. }
    assert (Hc : In (CEq (scope_key P cur v) (f, p)) (constr_of_step P cur (SArgVar f i v)))
      by (cbn; rewrite Efi, En, Ep; left; reflexivity).
    destruct (scope_key_own P f fi p Efi En (nth_error_In _ _ Ep)) as [Hk Hp].
    cbv zeta. destruct (_ && _); [eapply VS_record; [exact Hc | left; reflexivity | cbn; auto]|].
    destruct (_ && _); [eapply VS_record; [exact Hc | right; symmetry; exact Hk | right; exact Hp]|].
    destruct (_ && _ && _); [apply VS_err; discriminate|].
    eapply VS_record; [exact Hc | left; reflexivity | cbn; auto].
Qed.

Lemma visit_step_not_toomany P cur s st : visit_step P cur s st <> RErr ETooManyIter.
Proof.
  destruct (visit_step_out P cur s st); try discriminate; [congruence | apply record_var_not_toomany].
Qed.

Section Env.
Variable P : program.
Hypothesis Hnodup : NoDup (fnames P).
Hypothesis Hnonempty : forall fd, In fd (p_funcs P) -> f_name fd <> [].

Lemma find_func_In f i fd : find_func P f = Some (i, fd) -> In fd (p_funcs P) /\ f_name fd = f.
Proof. apply find_func_from_In. Qed.

Lemma find_func_of_In fd : In fd (p_funcs P) -> exists i, find_func P (f_name fd) = Some (i, fd).
Proof. intros H. apply find_func_from_nodup; assumption. Qed.

Lemma params_of_fd fd : In fd (p_funcs P) -> params_of P (f_name fd) = f_params fd.
Proof.
  intros Hfd. destruct (find_func_of_In fd Hfd) as [i Hi]. unfold params_of. rewrite Hi. reflexivity.
Qed.

Lemma find_func_nonempty f i fd : find_func P f = Some (i, fd) -> f <> [].
Proof. intros H. apply find_func_In in H. destruct H as [H1 <-]. apply Hnonempty. exact H1. Qed.

Lemma params_of_nil : params_of P [] = [].
Proof.
  unfold params_of. destruct (find_func P []) as [[i fd]|] eqn:E; [|reflexivity].
  apply find_func_nonempty in E. contradiction.
Qed.

Lemma func_info_awk f fi :
  func_info P f = Some fi -> fi_native fi = false ->
  f <> [] /\ fi_params fi = params_of P f /\ is_func P f = true.
Proof.
  intros H Hn. destruct (func_info_find P f fi H Hn) as [i [fd [Ef Hp]]].
  split; [eapply find_func_nonempty; exact Ef|]. split; [unfold params_of; rewrite Ef; exact Hp|].
  apply find_func_is_func. eauto.
Qed.

(* a constraint of a step is about the variable the step names or about a parameter of the callee *)
Lemma constr_of_step_mentions cur st c k :
  In c (constr_of_step P cur st) -> mentions c k ->
  match st with SUse v _ | SArgVar _ _ v => k = scope_key P cur v | _ => False end
  \/ exists f p : name, f <> [] /\ In p (params_of P f) /\ k = (f, p).
Proof.
  intros Hc Hm.
  assert (Hpar : forall f fi i p, func_info P f = Some fi -> fi_native fi = false ->
                   nth_error (fi_params fi) i = Some p ->
                   exists f' p' : name, f' <> [] /\ In p' (params_of P f') /\ (f, p) = (f', p')).
  { intros f fi i p Efi En Ep. destruct (func_info_awk f fi Efi En) as [Hf [Hpar _]].
    exists f, p. split; [exact Hf|]. split; [|reflexivity]. rewrite <- Hpar. eapply nth_error_In. exact Ep. }
  destruct st as [v t|f nargs|f i|f i v]; cbn [constr_of_step] in Hc.
  - destruct Hc as [<-|[]]. left. symmetry. exact Hm.
  - destruct Hc.
  - destruct (func_info P f) as [fi|] eqn:Efi; [|destruct Hc].
    destruct (fi_native fi) eqn:En; [destruct Hc|].
    destruct (nth_error (fi_params fi) i) as [p|] eqn:Ep; [|destruct Hc].
    destruct Hc as [<-|[]]. destruct Hm. right. exact (Hpar f fi i p Efi En Ep).
  - destruct (func_info P f) as [fi|] eqn:Efi; [|destruct Hc].
    destruct (fi_native fi) eqn:En.
    { destruct Hc as [<-|[]]. left. symmetry. exact Hm. }
    destruct (nth_error (fi_params fi) i) as [p|] eqn:Ep; [|destruct Hc].
    destruct Hc as [<-|[]]. destruct Hm as [<-|<-].
    + left. reflexivity.
    + right. exact (Hpar f fi i p Efi En Ep).
Qed.

Definition kspecial (k : key) : bool := is_empty (fst k) && special (snd k).

Lemma kspecial_gk v : kspecial (gk v) = special v.
Proof. reflexivity. Qed.

Lemma kspecial_true k : kspecial k = true -> exists v, k = gk v /\ special v = true.
Proof.
  unfold kspecial. destruct k as [fn v]. cbn [fst snd]. intros E.
  apply andb_true_iff in E. destruct E as [E1 E2]. apply is_empty_nil in E1. subst fn. eauto.
Qed.

Definition kty (t : vtable) (k : key) : ty := if kspecial k then TScalar else get_or_unknown t k.
Definition present (t : vtable) (k : key) : Prop := kspecial k = true \/ get t k <> None.

Lemma scope_key_snd cur v : snd (scope_key P cur v) = v.
Proof. unfold scope_key. destruct (_ && _); reflexivity. Qed.

Lemma scope_key_cases cur v :
  (cur <> [] /\ In v (params_of P cur) /\ scope_key P cur v = (cur, v)) \/
  ((cur = [] \/ ~ In v (params_of P cur)) /\ scope_key P cur v = (gk v)).
Proof.
  unfold scope_key. destruct (is_empty cur) eqn:E1; cbn [negb andb].
  - right. split; [left; apply is_empty_nil; exact E1 | reflexivity].
  - destruct (mem v (params_of P cur)) eqn:E2.
    + left. apply is_empty_false in E1. apply mem_In in E2. auto.
    + right. apply mem_not_In in E2. auto.
Qed.

Lemma scope_key_param (f p : name) : f <> [] -> In p (params_of P f) -> scope_key P f p = (f, p).
Proof.
  intros Hf Hp. destruct (scope_key_cases f p) as [[_ [_ H]]|[[H|H] _]]; [exact H | contradiction | contradiction].
Qed.

Definition inv (t : vtable) : Prop :=
  (forall fn v : name, fn <> [] -> (get t (fn, v) <> None <-> In v (params_of P fn))) /\
  (forall v : name, special v = true -> get t (gk v) = None).

Lemma lookup_spec t cur v :
  inv t ->
  let k := scope_key P cur v in
  lookup_var t cur v =
    if kspecial k then Some (Special, TScalar, [])
    else match get t k with
         | Some ty0 => Some (if is_empty (fst k) then Global else Local, ty0, fst k)
         | None => None
         end.
Proof.
  intros [I1 I2] k. unfold lookup_var, k.
  destruct (scope_key_cases cur v) as [[Hc [Hp ->]]|[Hc ->]].
  - unfold kspecial. cbn [fst snd]. apply is_empty_false in Hc. rewrite Hc. cbn [andb].
    apply is_empty_false in Hc. norm.
    destruct (get t (cur, v)) eqn:G; [reflexivity|].
    exfalso. apply (I1 cur v Hc) in Hp. contradiction.
  - unfold kspecial. cbn [fst snd is_empty andb].
    assert (Hl : (if is_empty cur then None else get t (cur, v)) = None).
    { destruct (is_empty cur) eqn:E; [reflexivity|]. apply is_empty_false in E.
      destruct Hc as [Hc|Hc]; [contradiction|].
      destruct (get t (cur, v)) eqn:G; [|reflexivity].
      exfalso. apply Hc. apply (I1 cur v E). norm. congruence. }
    rewrite Hl. norm. destruct (special v); [reflexivity|]. destruct (get t (gk v)); reflexivity.
Qed.

Lemma type_of_lookup_kty t cur v : inv t -> type_of_lookup t cur v = kty t (scope_key P cur v).
Proof.
  intros Hi. unfold type_of_lookup, kty, get_or_unknown. rewrite (lookup_spec t cur v Hi). cbv zeta.
  destruct (kspecial (scope_key P cur v)); [reflexivity|].
  destruct (get t (scope_key P cur v)); reflexivity.
Qed.

Lemma local_present t (f p : name) : inv t -> f <> [] -> In p (params_of P f) -> get t (f, p) <> None.
Proof. intros [I1 _] Hf Hp. apply I1; assumption. Qed.

Lemma absent_global t cur v : inv t -> get t (scope_key P cur v) = None -> scope_key P cur v = gk v.
Proof.
  intros Hi G. destruct (scope_key_cases cur v) as [[Hc [Hp E]]|[_ E]]; [|exact E].
  exfalso. rewrite E in G. apply (local_present _ cur v Hi Hc Hp). exact G.
Qed.

Lemma lookup_found t cur v sc ity vf :
  inv t -> lookup_var t cur v = Some (sc, ity, vf) ->
  let k := scope_key P cur v in
  present t k /\ kty t k = ity /\ (kspecial k = false -> (vf, v) = k).
Proof.
  intros Hi El. rewrite (lookup_spec t cur v Hi) in El. cbv zeta in *. unfold present, kty, get_or_unknown.
  pose proof (scope_key_snd cur v) as Hsnd. destruct (kspecial (scope_key P cur v)).
  - injection El as _ <- _. split; [left; reflexivity|]. split; [reflexivity | discriminate].
  - destruct (get t (scope_key P cur v)) as [ty0|] eqn:G; [|discriminate El]. injection El as _ <- <-.
    split; [right; discriminate|]. split; [reflexivity|]. intros _.
    destruct (scope_key P cur v); cbn [fst snd] in *; congruence.
Qed.

(* at a call head the test "the callee is a local variable", made on the table, is the static one *)
Lemma call_local_static t cur f :
  inv t ->
  match lookup_var t cur f with Some (_, _, vf) => negb (is_empty vf) | None => false end
  = negb (is_empty cur) && mem f (params_of P cur).
Proof.
  intros Hi. rewrite (lookup_spec t cur f Hi). cbv zeta. unfold scope_key.
  destruct (negb (is_empty cur) && mem f (params_of P cur)) eqn:El.
  - apply andb_true_iff in El. destruct El as [E1 E2]. apply negb_true_iff in E1.
    unfold kspecial. cbn [fst snd]. rewrite E1. cbn [andb].
    destruct (get t (cur, f)) eqn:G; [rewrite E1; reflexivity|].
    exfalso. apply mem_In in E2. apply is_empty_false in E1. exact (local_present t cur f Hi E1 E2 G).
  - destruct (kspecial _); [reflexivity|]. destruct (get t _); reflexivity.
Qed.

Lemma visit_head_wf cur s f n :
  inv (st_vars s) -> visit_step P cur s (SCallHead f n) = ROk s -> wf_step P cur (SCallHead f n) = true.
Proof.
  intros Hi Hv. cbn [visit_step wf_step] in *. rewrite (call_local_static _ cur f Hi) in Hv.
  destruct (negb (is_empty cur) && mem f (params_of P cur)); [discriminate|]. cbn [negb andb].
  destruct (func_info P f) as [fi|]; [|discriminate].
  destruct (fi_native fi).
  - destruct (find_native (p_natives P) f) as [nt|]; [|discriminate].
    destruct (n_func nt); cbn [negb andb] in *; [|discriminate].
    destruct (_ <? n); [discriminate | reflexivity].
  - destruct (_ <? n); [discriminate | reflexivity].
Qed.

Lemma kty_local t (f p : name) : f <> [] -> kty t (f, p) = get_or_unknown t (f, p).
Proof.
  intros Hf. unfold kty, kspecial. cbn [fst]. apply is_empty_false in Hf. rewrite Hf. reflexivity.
Qed.

Lemma inv_put_existing t k v : inv t -> get t k <> None -> inv (put t k v).
Proof.
  intros [I1 I2] Hk. split.
  - intros fn x Hfn. rewrite get_put. destruct (key_eqb (fn, x) k) eqn:E.
    + apply key_eqb_eq in E. subst k. split; [intros _; apply (I1 fn x Hfn); exact Hk | intros _; discriminate].
    + apply I1. exact Hfn.
  - intros x Hx. rewrite get_put. destruct (key_eqb (gk x) k) eqn:E.
    + apply key_eqb_eq in E. subst k. exfalso. apply Hk. apply I2. exact Hx.
    + apply I2. exact Hx.
Qed.

Lemma inv_put_global t v ty0 : inv t -> special v = false -> inv (put t (gk v) ty0).
Proof.
  intros [I1 I2] Hv. split.
  - intros fn x Hfn. rewrite get_put_other; [apply I1; exact Hfn|]. intros E. injection E as E _. contradiction.
  - intros x Hx. rewrite get_put_other; [apply I2; exact Hx|]. intros E. injection E as ->. congruence.
Qed.

Definition forced (t : vtable) : Prop :=
  forall rho, solution P rho -> forall k ty0, get t k = Some ty0 -> ty0 <> TUnknown -> rho k = isarr ty0.

Lemma sol_special rho (v : name) : solution P rho -> special v = true -> rho (gk v) = false.
Proof.
  intros Hs Hv. apply mem_In in Hv.
  specialize (Hs (CIs (gk v) TScalar)). cbn [holds] in Hs. apply Hs.
  unfold constraints, base_constraints. apply in_or_app. left. apply in_or_app. right.
  apply in_map_iff. exists v. split; [reflexivity | exact Hv].
Qed.

Lemma forced_kty t rho k : inv t -> forced t -> solution P rho -> kty t k <> TUnknown -> rho k = isarr (kty t k).
Proof.
  intros Hi Hf Hs Hk. unfold kty in *. destruct (kspecial k) eqn:E.
  - destruct (kspecial_true k E) as [v [-> Hv]]. cbn [isarr]. apply sol_special; assumption.
  - unfold get_or_unknown in *. destruct (get t k) eqn:G; [|congruence].
    apply (Hf rho Hs k t0 G Hk).
Qed.

Lemma forced_put t k ty0 :
  forced t -> (forall rho, solution P rho -> ty0 <> TUnknown -> rho k = isarr ty0) -> forced (put t k ty0).
Proof.
  intros Hf Hj rho Hs k' t' G Ht'. rewrite get_put in G. destruct (key_eqb k' k) eqn:E.
  - apply key_eqb_eq in E. subst k'. injection G as <-. apply Hj; assumption.
  - apply (Hf rho Hs k' t' G Ht').
Qed.

Definition state_ok (s : state) : Prop := inv (st_vars s) /\ forced (st_vars s).

(* what a call of recordVar that changed nothing tells about the table *)
Definition rec_holds (t : vtable) (k : key) (typ : ty) : Prop :=
  present t k /\ (typ = TUnknown \/ kty t k = typ).

Lemma record_var_ok s cur v typ s' :
  state_ok s ->
  (forall rho, solution P rho -> typ <> TUnknown -> rho (scope_key P cur v) = isarr typ) ->
  record_var P s cur v typ = ROk s' ->
  state_ok s' /\ st_updates s <= st_updates s' /\
  (st_updates s' = st_updates s -> s' = s /\ rec_holds (st_vars s) (scope_key P cur v) typ).
Proof.
  intros [Hi Hf] Hj H. pose proof (record_var_out P s cur v typ) as O. rewrite H in O.
  set (k := scope_key P cur v) in *.
  inversion O as [sc ity vf El Ht|sc vf El G Ht|El Ef| |]; subst; cbn [st_vars st_updates].
  - destruct (lookup_found _ _ _ _ _ _ Hi El) as [Hp [Hk _]]. fold k in Hp, Hk.
    split; [split; assumption|]. split; [lia|]. intros _. split; [reflexivity|]. split; [exact Hp|].
    destruct Ht as [Ht|Ht]; [left; exact Ht | right; congruence].
  - destruct (lookup_found _ _ _ _ _ _ Hi El) as [_ [Hk Hkey]]. fold k in Hk, Hkey.
    (* an entry without a type is not a special variable's *)
    assert (Ek : kspecial k = false) by (unfold kty in Hk; destruct (kspecial k); [discriminate Hk | reflexivity]).
    rewrite (Hkey Ek) in *.
    split; [|split; [lia | intros Hu; lia]].
    split; [apply inv_put_existing; [exact Hi | congruence] | apply forced_put; [exact Hf | exact Hj]].
  - rewrite (lookup_spec _ cur v Hi) in El. cbv zeta in El. fold k in El.
    destruct (kspecial k) eqn:Ek; [discriminate El|]. destruct (get (st_vars s) k) eqn:G; [discriminate El|].
    pose proof (absent_global _ cur v Hi G : k = gk v) as Hkg. rewrite Hkg, kspecial_gk in Ek.
    split; [|split; [lia | intros Hu; lia]].
    norm. split; [apply inv_put_global; assumption|]. apply forced_put; [exact Hf|]. rewrite <- Hkg. exact Hj.
Qed.

Lemma record_var_err s cur v typ e :
  state_ok s ->
  (forall rho, solution P rho -> typ <> TUnknown -> rho (scope_key P cur v) = isarr typ) ->
  record_var P s cur v typ = RErr e -> is_type_error e = true -> ~ sat P.
Proof.
  intros [Hi Hf] Hj H He [rho Hs]. pose proof (record_var_out P s cur v typ) as O. rewrite H in O.
  inversion O as [| | |El Hc|sc ity vf El N1 N2 N3]; subst; [discriminate He|].
  destruct (lookup_found _ _ _ _ _ _ Hi El) as [_ [Hk _]].
  assert (H1 : rho (scope_key P cur v) = isarr ity)
    by (rewrite <- Hk; apply forced_kty; try assumption; rewrite Hk; exact N2).
  pose proof (Hj rho Hs N3) as H2. destruct ity, typ; cbn in H1, H2; congruence.
Qed.

Definition step_in (cur : name) (st : step) : Prop :=
  forall c, In c (constr_of_step P cur st) -> In c (constraints P).

Definition holds3 (t : vtable) (c : constr) : Prop :=
  match c with
  | CIs k ty0 => ty0 = TUnknown \/ kty t k = ty0
  | CEq k1 k2 => kty t k1 = kty t k2
  | CNotArr k => kty t k <> TArray
  end.

(* what a step that changed nothing tells about the table *)
Definition step_holds (t : vtable) (cur : name) (st : step) : Prop :=
  (forall c, In c (constr_of_step P cur st) -> holds3 t c) /\
  match st with
  | SUse v _ | SArgVar _ _ v => present t (scope_key P cur v)
  | _ => True
  end.

Lemma just_of_CIs cur st k typ :
  step_in cur st -> In (CIs k typ) (constr_of_step P cur st) ->
  forall rho, solution P rho -> typ <> TUnknown -> rho k = isarr typ.
Proof.
  intros Hin Hc rho Hs Ht. specialize (Hs _ (Hin _ Hc)). cbn [holds] in Hs.
  destruct typ; [congruence | exact Hs | exact Hs].
Qed.

(* A step from a good state changes nothing and its constraints hold of the
   table as it is; or it ends the run, by a type error only if there is no
   solution; or it is one recordVar, of a type every solution gives the
   variable, and such that the step's constraints hold once the table has it. *)
Lemma visit_step_norm cur s st :
  state_ok s -> step_in cur st ->
  (visit_step P cur s st = ROk s /\ step_holds (st_vars s) cur st)
  \/ (exists e, visit_step P cur s st = RErr e /\ (is_type_error e = true -> ~ sat P))
  \/ visit_step P cur s st = RPanic
  \/ (exists c v t, visit_step P cur s st = record_var P s c v t
        /\ (forall rho, solution P rho -> t <> TUnknown -> rho (scope_key P c v) = isarr t)
        /\ (rec_holds (st_vars s) (scope_key P c v) t -> step_holds (st_vars s) cur st)).
Proof.
  intros Hok Hin. destruct st as [v t|f nargs|f i|f i v].
  - right; right; right. exists cur, v, t. split; [reflexivity|]. split.
    + eapply just_of_CIs; [exact Hin | left; reflexivity].
    + intros [Hp Ht]. split; [|exact Hp]. intros c [<-|[]]. exact Ht.
  - destruct (visit_head_cases P cur s f nargs) as [[Hv _]|[e [Hv [He _]]]].
    + left. split; [exact Hv|]. split; [intros c [] | exact I].
    + right; left. exists e. split; [exact Hv | congruence].
  - cbn [visit_step]. destruct (func_info P f) as [fi|] eqn:Efi; [|auto].
    destruct (fi_native fi) eqn:En.
    { left. split; [reflexivity|]. split; [|exact I].
      intros c Hc. cbn [constr_of_step] in Hc. rewrite Efi, En in Hc. destruct Hc. }
    destruct (nth_error (fi_params fi) i) as [p|] eqn:Ep; [|auto].
    destruct (func_info_awk f fi Efi En) as [Hf _].
    assert (Hc : constr_of_step P cur (SArgExpr f i) = [CNotArr (f, p)])
      by (cbn [constr_of_step]; rewrite Efi, En, Ep; reflexivity).
    destruct (get_or_unknown (st_vars s) (f, p)) eqn:Eg.
    1,2: left; (split; [reflexivity|]); (split; [|exact I]); intros c Hc'; rewrite Hc in Hc';
         destruct Hc' as [<-|[]]; cbn [holds3]; rewrite (kty_local _ f p Hf), Eg; discriminate.
    right; left. eexists. split; [reflexivity|]. intros _ [rho Hs]. destruct Hok as [Hi Hfo].
    assert (H1 : rho (f, p) = isarr (kty (st_vars s) (f, p)))
      by (apply forced_kty; try assumption; rewrite (kty_local _ f p Hf), Eg; discriminate).
    rewrite (kty_local _ f p Hf), Eg in H1. specialize (Hs (CNotArr (f, p))). cbn [holds] in Hs.
    rewrite Hs in H1; [discriminate|]. apply Hin. rewrite Hc. left; reflexivity.
  - cbn [visit_step]. destruct (func_info P f) as [fi|] eqn:Efi; [|auto].
    destruct (fi_native fi) eqn:En.
    { assert (Hc : constr_of_step P cur (SArgVar f i v) = [CIs (scope_key P cur v) TScalar])
        by (cbn [constr_of_step]; rewrite Efi, En; reflexivity).
      right; right; right. exists cur, v, TScalar. split; [reflexivity|]. split.
      - eapply just_of_CIs; [exact Hin | rewrite Hc; left; reflexivity].
      - intros [Hp Ht]. split; [|exact Hp]. intros c Hc'. rewrite Hc in Hc'. destruct Hc' as [<-|[]]. exact Ht. }
    destruct (nth_error (fi_params fi) i) as [p|] eqn:Ep; [|auto].
    destruct (func_info_awk f fi Efi En) as [Hf [Hpar _]].
    assert (Hpin : In p (params_of P f)) by (rewrite <- Hpar; eapply nth_error_In; eassumption).
    assert (Hc : constr_of_step P cur (SArgVar f i v) = [CEq (scope_key P cur v) (f, p)])
      by (cbn [constr_of_step]; rewrite Efi, En, Ep; reflexivity).
    assert (Heq : forall rho, solution P rho -> rho (scope_key P cur v) = rho (f, p)).
    { intros rho Hs. apply (Hs (CEq (scope_key P cur v) (f, p))). apply Hin. rewrite Hc. left; reflexivity. }
    destruct Hok as [Hi Hfo].
    rewrite (type_of_lookup_kty _ cur v Hi). cbv zeta.
    set (k := scope_key P cur v) in *.
    set (pty := get_or_unknown (st_vars s) (f, p)) in *.
    assert (Hpty : kty (st_vars s) (f, p) = pty) by (apply kty_local; exact Hf).
    set (vty := kty (st_vars s) k) in *.
    destruct (ty_eqb vty TUnknown && negb (ty_eqb pty TUnknown)) eqn:C1.
    { (* the variable takes the parameter's type *)
      apply andb_true_iff in C1. destruct C1 as [C1 C2]. apply ty_eqb_eq in C1. apply negb_true_iff, ty_eqb_neq in C2.
      right; right; right. exists cur, v, pty. split; [reflexivity|]. fold k. split.
      - intros rho Hs _. rewrite (Heq rho Hs), <- Hpty. apply forced_kty; try assumption. rewrite Hpty. exact C2.
      - intros [_ [Ht|Ht]]; [contradiction|]. fold vty in Ht. congruence. }
    destruct (negb (ty_eqb vty TUnknown) && ty_eqb pty TUnknown) eqn:C2.
    { (* the parameter takes the variable's type *)
      apply andb_true_iff in C2. destruct C2 as [C2 C3]. apply ty_eqb_eq in C3. apply negb_true_iff, ty_eqb_neq in C2.
      right; right; right. exists f, p, vty. split; [reflexivity|]. rewrite (scope_key_param f p Hf Hpin). split.
      - intros rho Hs _. norm. rewrite <- (Heq rho Hs). apply forced_kty; assumption.
      - intros [_ [Ht|Ht]]; [contradiction|]. norm. congruence. }
    destruct (negb (ty_eqb vty pty) && negb (ty_eqb vty TUnknown) && negb (ty_eqb pty TUnknown)) eqn:C3.
    { right; left. eexists. split; [reflexivity|]. intros _ [rho Hs].
      apply andb_true_iff in C3. destruct C3 as [C3 C5]. apply andb_true_iff in C3. destruct C3 as [C3 C4].
      apply negb_true_iff in C3, C4, C5. apply ty_eqb_neq in C3, C4, C5.
      assert (H1 : rho k = isarr vty) by (apply forced_kty; assumption).
      assert (H2 : rho (f, p) = isarr pty) by (rewrite <- Hpty; apply forced_kty; try assumption; rewrite Hpty; exact C5).
      rewrite (Heq rho Hs) in H1. destruct vty, pty; cbn in H1, H2; congruence. }
    right; right; right. exists cur, v, TUnknown. split; [reflexivity|]. split; [intros rho _ Hne; congruence|].
    intros [Hp _]. split; [|exact Hp]. intros c Hc'. rewrite Hc in Hc'. destruct Hc' as [<-|[]].
    cbn [holds3]. fold k. fold vty. rewrite Hpty.
    destruct vty, pty; cbn in C1, C2, C3; try discriminate; reflexivity.
Qed.

End Env.

(* Steps make a body, bodies a pass, passes the loop; each storey hands the
   state on with [rbind2] (the four-way matches of the model are [rbind2]
   unfolded).  What one wants to know about a run has, whatever the property,
   the shape [good]: an invariant [I] of the state, a preorder [R] saying how a
   run may move it, the errors [E] it may end in, and whether a panic or the end
   of the fuel may occur; it goes up the storeys by [good_bind]. *)

Lemma rbind2_assoc {A B C} (r : rres A) (f : A -> rres B) (g : B -> rres C) :
  rbind2 (rbind2 r f) g = rbind2 r (fun a => rbind2 (f a) g).
Proof. destruct r; reflexivity. Qed.

Lemma rbind2_ext {A B} (r : rres A) (f f' : A -> rres B) :
  (forall a, f a = f' a) -> rbind2 r f = rbind2 r f'.
Proof. intros H. destruct r; [apply H | reflexivity | reflexivity | reflexivity]. Qed.

Lemma run_steps_cons P cur st r s s' res :
  visit_step P cur s st = ROk s' -> run_steps P cur r s' = res -> run_steps P cur (st :: r) s = res.
Proof. intros E H. cbn [run_steps]. rewrite E. exact H. Qed.

Lemma run_steps_app P cur a b s :
  run_steps P cur (a ++ b) s = rbind2 (run_steps P cur a s) (run_steps P cur b).
Proof.
  revert s. induction a as [|st a IH]; intros s; cbn [app run_steps]; [reflexivity|].
  destruct (visit_step P cur s st); try reflexivity. apply IH.
Qed.

Lemma pass_loop_eq P order k s u :
  pass_loop P order k s u =
  if st_updates s =? u then ROk s
  else rbind2 (walk_ordered P order s) (fun s' =>
         match k with O => RErr ETooManyIter | S k' => pass_loop P order k' s' (st_updates s) end).
Proof. destruct k; reflexivity. Qed.

Lemma pass_loop_dyn_eq P order fuel i s u :
  pass_loop_dyn P order fuel i s u =
  if st_updates s =? u then ROk s
  else rbind2 (walk_ordered P order s) (fun s' =>
         if 2 * num_vars s' <=? i then RErr ETooManyIter
         else match fuel with O => RFuel | S fuel' => pass_loop_dyn P order fuel' (i + 1) s' (st_updates s) end).
Proof. destruct fuel; reflexivity. Qed.

(* the table before the first pass, the passes, and the end of [resolve_order]
   and [resolve_order_impl], which differ in the loop only *)
Definition start_state (P : program) : state := {| st_vars := init_vars P; st_updates := 0 |}.

Definition start (P : program) : rres state :=
  rbind2 (record_var P (start_state P) [] n_ARGV TArray) (fun s1 =>
  rbind2 (record_var P s1 [] n_ENVIRON TArray) (fun s2 => record_var P s2 [] n_FIELDS TArray)).

Definition passes (P : program) (order : list name) (loop : state -> Z -> rres state) : rres state :=
  rbind2 (start P) (fun s3 => rbind2 (walk_ordered P order s3) (fun s4 => loop s4 (st_updates s3))).

Definition finish (P : program) (r : rres state) : rres final :=
  match first_dup [] (fnames P) with
  | Some f => RErr (EAlreadyDefined f)
  | None => rbind2 r (fun s => ROk (finalize P s))
  end.

Lemma finish_passes P order loop :
  finish P (passes P order loop) =
  match first_dup [] (fnames P) with
  | Some f => RErr (EAlreadyDefined f)
  | None =>
      rbind2 (record_var P (start_state P) [] n_ARGV TArray) (fun s1 =>
      rbind2 (record_var P s1 [] n_ENVIRON TArray) (fun s2 =>
      rbind2 (record_var P s2 [] n_FIELDS TArray) (fun s3 =>
      rbind2 (walk_ordered P order s3) (fun s4 =>
      rbind2 (loop s4 (st_updates s3)) (fun s5 => ROk (finalize P s5))))))
  end.
Proof.
  unfold finish, passes, start. destruct (first_dup [] (fnames P)); [reflexivity|].
  destruct (record_var P (start_state P) [] n_ARGV TArray) as [s1| | |]; try reflexivity. cbn [rbind2].
  destruct (record_var P s1 [] n_ENVIRON TArray) as [s2| | |]; try reflexivity. cbn [rbind2].
  destruct (record_var P s2 [] n_FIELDS TArray) as [s3| | |]; try reflexivity. cbn [rbind2].
  apply rbind2_assoc.
Qed.

Lemma resolve_order_eq cut order P :
  resolve_order cut order P = finish P (passes P order (pass_loop P order cut)).
Proof. symmetry. apply finish_passes. Qed.

Lemma resolve_order_impl_eq order P :
  resolve_order_impl order P = finish P (passes P order (pass_loop_dyn P order (pass_fuel P) 0)).
Proof. symmetry. apply finish_passes. Qed.

Lemma passes_ROk P order loop s5 :
  passes P order loop = ROk s5 ->
  exists s3 s4, start P = ROk s3 /\ walk_ordered P order s3 = ROk s4 /\ loop s4 (st_updates s3) = ROk s5.
Proof.
  unfold passes. intros H.
  destruct (start P) as [s3| | |]; cbn [rbind2] in H; try discriminate H.
  destruct (walk_ordered P order s3) as [s4| | |] eqn:E4; cbn [rbind2] in H; try discriminate H.
  exists s3, s4. auto.
Qed.

Lemma passes_same P order (loop loop' : state -> Z -> rres state) :
  (forall s u, loop s u <> RErr ETooManyIter -> loop s u <> RFuel -> loop' s u = loop s u) ->
  passes P order loop <> RErr ETooManyIter -> passes P order loop <> RFuel ->
  passes P order loop' = passes P order loop.
Proof.
  unfold passes. intros Hl.
  destruct (start P) as [s3| | |]; cbn [rbind2]; trivial.
  destruct (walk_ordered P order s3) as [s4| | |]; cbn [rbind2]; trivial.
  apply Hl.
Qed.

Lemma finish_ROk P r F :
  finish P r = ROk F -> NoDup (fnames P) /\ exists s, r = ROk s /\ F = finalize P s.
Proof.
  unfold finish. destruct (first_dup [] (fnames P)) eqn:Ed; [discriminate|]. intros H.
  split; [apply first_dup_nil; exact Ed|].
  destruct r as [s| | |]; try discriminate H. injection H as <-. eauto.
Qed.

Lemma resolve_order_walk cut order order' P :
  (forall s, walk_funcs P order s = walk_funcs P order' s) ->
  resolve_order cut order P = resolve_order cut order' P.
Proof.
  intros Hw.
  assert (Hwo : forall s, walk_ordered P order s = walk_ordered P order' s).
  { intros s. unfold walk_ordered. rewrite Hw. reflexivity. }
  assert (Hpl : forall k s u, pass_loop P order k s u = pass_loop P order' k s u).
  { induction k as [|k IH]; intros s u; rewrite !pass_loop_eq, Hwo; [reflexivity|].
    destruct (st_updates s =? u); [reflexivity|]. apply rbind2_ext. intros s'. apply IH. }
  rewrite !resolve_order_eq. unfold passes. f_equal. apply rbind2_ext. intros s3.
  rewrite Hwo. apply rbind2_ext. intros s4. apply Hpl.
Qed.

Section Tower.
Variable P : program.
Variable I : state -> Prop.
Variable R : state -> state -> Prop.
Variable E : rerr -> Prop.
Variables pan fu : Prop.
Hypothesis R_refl : forall s, R s s.
Hypothesis R_trans : forall a b c, R a b -> R b c -> R a c.

Definition good (s : state) (r : rres state) : Prop :=
  match r with ROk s' => I s' /\ R s s' | RErr e => E e | RPanic => pan | RFuel => fu end.

Lemma good_ok s : I s -> good s (ROk s).
Proof. intros H. split; [exact H | apply R_refl]. Qed.

Lemma good_bind s r K :
  good s r -> (forall s1, I s1 -> R s s1 -> good s1 (K s1)) -> good s (rbind2 r K).
Proof.
  destruct r as [s1|e| |]; cbn [good rbind2]; trivial.
  intros [Hi Hr] HK. specialize (HK s1 Hi Hr). destruct (K s1); cbn [good] in *; trivial.
  split; [apply HK | eapply R_trans; [exact Hr | apply HK]].
Qed.

Lemma good_bind' s r K : good s r -> (forall s1, I s1 -> good s1 (K s1)) -> good s (rbind2 r K).
Proof. intros Hr HK. apply good_bind; [exact Hr | intros s1 H1 _; apply HK; exact H1]. Qed.

(* where [R] has no cycles, a run that comes back to its first state has stayed there *)
Hypothesis R_antisym : forall a b, R a b -> R b a -> a = b.

Lemma good_bind_fix s r K :
  good s r -> (forall s1, I s1 -> good s1 (K s1)) -> rbind2 r K = ROk s -> r = ROk s /\ K s = ROk s.
Proof.
  destruct r as [s1|e| |]; cbn [good rbind2]; try discriminate.
  intros [Hi Hr] HK H. specialize (HK s1 Hi). rewrite H in HK. destruct HK as [_ Hr'].
  rewrite (R_antisym _ _ Hr Hr') in *. split; [reflexivity | exact H].
Qed.

Variable S : name -> step -> Prop.
Hypothesis Hstep : forall cur st s, S cur st -> I s -> good s (visit_step P cur s st).

Lemma run_steps_good cur l s : Forall (S cur) l -> I s -> good s (run_steps P cur l s).
Proof.
  intros Hl. revert s. induction Hl as [|st l Hst Hl IH]; intros s Hs; [apply good_ok; exact Hs|].
  apply (good_bind' s (visit_step P cur s st) (run_steps P cur l)); [apply Hstep; assumption | exact IH].
Qed.

Lemma run_steps_fix cur l s :
  Forall (S cur) l -> I s -> run_steps P cur l s = ROk s -> Forall (fun st => visit_step P cur s st = ROk s) l.
Proof.
  intros Hl Hs. induction Hl as [|st l Hst Hl IH]; intros H; constructor;
    destruct (good_bind_fix s (visit_step P cur s st) (run_steps P cur l)) as [H1 H2];
    auto using run_steps_good.
Qed.

Hypothesis Hbody : forall fd s,
  In fd (p_funcs P) -> I s -> good s (run_steps P (f_name fd) (flat_events (f_body fd)) s).
Hypothesis Hmain : forall s, I s -> good s (run_steps P [] (flat_events (p_main P)) s).

Lemma find_func_good fn i fd s :
  find_func P fn = Some (i, fd) -> I s -> good s (run_steps P fn (flat_events (f_body fd)) s).
Proof. intros H. apply find_func_from_In in H. destruct H as [Hfd <-]. apply Hbody. exact Hfd. Qed.

Lemma walk_funcs_good order s : I s -> good s (walk_funcs P order s).
Proof.
  revert s. induction order as [|fn order IH]; intros s Hs; cbn [walk_funcs]; [apply good_ok; exact Hs|].
  destruct (is_empty fn); [apply IH; exact Hs|].
  destruct (find_func P fn) as [[i fd]|] eqn:Ef; [|apply IH; exact Hs].
  apply (good_bind' s (run_steps P fn (flat_events (f_body fd)) s) (walk_funcs P order));
    [eapply find_func_good; eassumption | exact IH].
Qed.

Lemma walk_funcs_fix order s :
  I s -> walk_funcs P order s = ROk s ->
  forall fn i fd, In fn order -> is_empty fn = false -> find_func P fn = Some (i, fd) ->
  run_steps P fn (flat_events (f_body fd)) s = ROk s.
Proof.
  intros Hs. induction order as [|fn0 order IH]; intros H fn i fd Hin Hne Hf; [destruct Hin|].
  cbn [walk_funcs] in H. destruct (is_empty fn0) eqn:Ee.
  { destruct Hin as [->|Hin]; [congruence | eapply IH; eassumption]. }
  destruct (find_func P fn0) as [[i0 fd0]|] eqn:Ef.
  - destruct (good_bind_fix s (run_steps P fn0 (flat_events (f_body fd0)) s) (walk_funcs P order)) as [H1 H2];
      [eapply find_func_good; eassumption | apply walk_funcs_good | exact H |].
    destruct Hin as [->|Hin]; [congruence | eapply IH; eassumption].
  - destruct Hin as [->|Hin]; [congruence | eapply IH; eassumption].
Qed.

Lemma walk_ordered_good order s : I s -> good s (walk_ordered P order s).
Proof.
  intros Hs. apply (good_bind' s (walk_funcs P order s) (run_steps P [] (flat_events (p_main P))));
    [apply walk_funcs_good; exact Hs | exact Hmain].
Qed.

Lemma walk_ordered_fix order s :
  I s -> walk_ordered P order s = ROk s ->
  walk_funcs P order s = ROk s /\ run_steps P [] (flat_events (p_main P)) s = ROk s.
Proof.
  intros Hs. apply (good_bind_fix s (walk_funcs P order s) (run_steps P [] (flat_events (p_main P))));
    [apply walk_funcs_good; exact Hs | exact Hmain].
Qed.

Lemma pass_loop_good order k s u : E ETooManyIter -> I s -> good s (pass_loop P order k s u).
Proof.
  intros He. revert s u. induction k as [|k IH]; intros s u Hs; rewrite pass_loop_eq;
    (destruct (st_updates s =? u); [apply good_ok; exact Hs|]);
    (apply good_bind'; [apply walk_ordered_good; exact Hs | intros s1 H1]).
  - exact He.
  - apply IH. exact H1.
Qed.

Hypothesis Hstart : I (start_state P).
Hypothesis Hbuiltin : forall v s,
  In v [n_ARGV; n_ENVIRON; n_FIELDS] -> I s -> good s (record_var P s [] v TArray).

Lemma start_good : good (start_state P) (start P).
Proof.
  unfold start. apply good_bind'; [apply Hbuiltin; [cbn; auto | exact Hstart]|]. intros s1 H1.
  apply good_bind'; [apply Hbuiltin; [cbn; auto | exact H1]|]. intros s2 H2.
  apply Hbuiltin; [cbn; auto | exact H2].
Qed.

Lemma passes_good order loop :
  (forall s3 s4, I s3 -> R (start_state P) s3 -> I s4 -> R s3 s4 -> good s4 (loop s4 (st_updates s3))) ->
  good (start_state P) (passes P order loop).
Proof.
  intros Hloop. unfold passes. apply good_bind; [exact start_good|]. intros s3 H3 R3.
  pose proof (walk_ordered_good order s3 H3) as H. destruct (walk_ordered P order s3) as [s4| | |]; try exact H.
  cbn [rbind2]. destruct H as [H4 R4]. specialize (Hloop s3 s4 H3 R3 H4 R4).
  destruct (loop s4 (st_updates s3)); cbn [good] in *; trivial.
  split; [apply Hloop | eapply R_trans; [exact R4 | apply Hloop]].
Qed.

End Tower.

(* an invariant of recordVar is an invariant of an accepted run *)
Section Kept.
Variable P : program.
Variable I : state -> Prop.
Hypothesis Hrec : forall s c v t s', I s -> record_var P s c v t = ROk s' -> I s'.

Notation kept := (good I (fun _ _ => True) (fun _ => True) True True).

Lemma record_var_kept s c v t : I s -> kept s (record_var P s c v t).
Proof.
  intros Hs. destruct (record_var P s c v t) as [s'| | |] eqn:E; cbn [good]; trivial.
  split; [exact (Hrec s c v t s' Hs E) | exact Logic.I].
Qed.

Lemma visit_step_kept cur st s : I s -> kept s (visit_step P cur s st).
Proof.
  intros Hs. destruct (visit_step_out P cur s st); cbn [good]; auto using record_var_kept.
Qed.

Lemma passes_kept order cut s5 :
  I (start_state P) -> passes P order (pass_loop P order cut) = ROk s5 -> I s5.
Proof.
  intros H0 E.
  assert (Hsteps : forall cur l s, I s -> kept s (run_steps P cur l s)).
  { intros cur l s. apply (run_steps_good P I _ _ True True) with (S := fun _ _ => True); auto.
    - intros c st s1 _. apply visit_step_kept.
    - apply Forall_forall. auto. }
  assert (G : kept (start_state P) (passes P order (pass_loop P order cut))).
  { apply passes_good; auto using record_var_kept. intros s3 s4 _ _ H4 _. apply pass_loop_good; auto. }
  rewrite E in G. apply G.
Qed.

End Kept.
