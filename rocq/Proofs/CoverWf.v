(* C18: every tracked block comes from two positions p1 < p2 of the program
   (start of the first statement of the block, end position of its last statement), and when
   both lie in the same program file the reported block lies inside that file, start before end. *)
From Verif Require Import Lib.Base Model.Cover Proofs.CoverBase Proofs.CoverStruct.

Lemma pos_le_refl a : pos_le a a.
Proof. unfold pos_le. lia. Qed.
Lemma pos_le_trans a b c : pos_le a b -> pos_le b c -> pos_le a c.
Proof. unfold pos_le. lia. Qed.
Lemma pos_le_lt_trans a b c : pos_le a b -> pos_lt b c -> pos_lt a c.
Proof. unfold pos_le, pos_lt. lia. Qed.

Section Wf.
Context {E : Type}.
Variable files : ftable.
Variable mode : cmode.

Notation ann_stmts := (@ann_stmts E files mode).
Notation sp := (@start_of E).

(* hypothesis on the parser's positions ("token positions are true positions", C03): a
   statement starts before its end position (BodyStart for if/for/while), and the statements
   of a list start in source order *)
Section PosOkL.
Variable g : cstmt E -> Prop.
Fixpoint pos_ok_list (l : list (cstmt E)) : Prop :=
  match l with
  | [] => True
  | s :: t => g s /\ pos_lt (sp s) (end_pos s)
              /\ match t with [] => True | s2 :: _ => pos_le (sp s) (sp s2) end
              /\ pos_ok_list t
  end.
End PosOkL.
Fixpoint pos_ok (s : cstmt E) : Prop :=
  match s with
  | SIf _ _ _ _ body els => pos_ok_list pos_ok body /\ pos_ok_list pos_ok els
  | SFor _ _ _ _ _ _ body | SForIn _ _ _ _ body | SWhile _ _ _ _ body
  | SDoWhile _ _ _ body | SBlock _ _ body => pos_ok_list pos_ok body
  | _ => True
  end.

Definition pos_ok_stmts (l : list (cstmt E)) : Prop := pos_ok_list pos_ok l.

Lemma pos_ok_bodies (s : cstmt E) : pos_ok s -> Forall pos_ok_stmts (bodies s).
Proof. destruct s; cbn [pos_ok bodies]; intros H; repeat constructor; try exact H; apply H. Qed.

(* a block built from the raw positions p1 (start of first statement) and p2 (end position of
   the last statement) *)
Definition raw_block (p1 p2 : pos) (b : block) : Prop :=
  b_path b = fst (file_line files (pline p1))
  /\ b_start b = mkpos (snd (file_line files (pline p1))) (pcol p1)
  /\ b_end b = mkpos (snd (file_line files (pline p2))) (pcol p2).
Definition BW (b : block) : Prop := exists p1 p2, pos_lt p1 p2 /\ 1 <= b_num b /\ raw_block p1 p2 b.

(* annotating a statement with good positions keeps its positions; well-formed blocks stay, new
   ones are well formed *)
Definition wf_step : step_rel := fun s bl s' bl' =>
  pos_ok s -> sp s' = sp s /\ end_pos s' = end_pos s /\ (Forall BW bl -> Forall BW bl').
Definition wf_stmt : cstmt E -> Prop := stmt_sat files mode wf_step.

Lemma blk_BW (first last : cstmt E) num b :
  blk_of files first last num b -> pos_lt (sp first) (end_pos last) -> 0 < num -> BW b.
Proof.
  intros (Hn & B2 & B3 & B4) Hlt Hnum. exists (sp first), (end_pos last).
  split; [exact Hlt|]. split; [lia|]. split; [exact B2|]. split; assumption.
Qed.

(* the open chunk [pend] would make a well-formed block, and the next statement starts after its
   first one *)
Definition chunk_inv (pend ss : list (cstmt E)) : Prop :=
  match pend with
  | [] => True
  | p :: ps => pos_lt (sp p) (end_pos (last_ne p ps))
               /\ match ss with [] => True | s :: _ => pos_le (sp p) (sp s) end
  end.

Lemma last_ne_app {A} (x : A) l y : last_ne x (l ++ [y]) = y.
Proof. revert x. induction l as [|z l IH]; intros x; cbn; [reflexivity|apply IH]. Qed.

(* the chunk extended by [s'], which has the positions of the next statement [s] *)
Lemma chunk_snoc pend s s' t :
  chunk_inv pend (s :: t) -> pos_ok_stmts (s :: t) -> sp s' = sp s -> end_pos s' = end_pos s ->
  pos_lt (sp (first_of pend s')) (end_pos s') /\ chunk_inv (pend ++ [s']) t.
Proof.
  intros HC (_ & S1 & S2 & _) P1 P2.
  assert (Hle : pos_le (sp (first_of pend s')) (sp s)).
  { destruct pend as [|p ps]; cbn [first_of]; [rewrite P1; apply pos_le_refl|apply HC]. }
  assert (Hlt : pos_lt (sp (first_of pend s')) (end_pos s')).
  { rewrite P2. eapply pos_le_lt_trans; eassumption. }
  split; [exact Hlt|].
  destruct pend as [|p ps]; cbn [app chunk_inv first_of] in *; [cbn [last_ne]|rewrite last_ne_app].
  all: split; [exact Hlt|]; destruct t as [|s2 t2]; [exact I|eapply pos_le_trans; eassumption].
Qed.

Lemma AL_wf ss bl pend out bl' : AL files mode wf_step ss bl pend out bl' ->
  pos_ok_stmts ss -> Forall BW bl -> chunk_inv pend ss -> Forall BW bl'.
Proof.
  induction 1 as [bl | bl p ps b Hb | s t bl pend s' bl1 out bl' Hf HAL IH
                 | s t bl pend s' bl1 b out bl' Hf Hb HAL IH]; intros HS HB HC.
  - exact HB.
  - apply Forall_app. split; [exact HB|]. constructor; [|constructor].
    apply (blk_BW _ _ _ _ Hb); [apply HC|apply zlen_pos_cons].
  - destruct (Hf (proj1 HS)) as (P1 & P2 & HB1).
    destruct (chunk_snoc pend s s' t HC HS P1 P2) as [_ HC'].
    apply IH; [apply HS|exact (HB1 HB)|exact HC'].
  - destruct (Hf (proj1 HS)) as (P1 & P2 & HB1).
    destruct (chunk_snoc pend s s' t HC HS P1 P2) as [Hlt _].
    apply IH; [apply HS| |exact I].
    apply Forall_app. split; [exact (HB1 HB)|]. constructor; [|constructor].
    apply (blk_BW _ _ _ _ Hb Hlt). destruct pend; apply zlen_pos_cons.
Qed.

(* the entries of [thread_lists] and [thread_prog] play no role here *)
Definition BW_kept (bl bl' : list block) (_ : list unit) : Prop := Forall BW bl -> Forall BW bl'.

Lemma BW_kept_nil bl : BW_kept bl bl [].
Proof. intros H. exact H. Qed.
Lemma BW_kept_app bl bl1 bl2 a b : BW_kept bl bl1 a -> BW_kept bl1 bl2 b -> BW_kept bl bl2 (a ++ b).
Proof. intros H1 H2 H. exact (H2 (H1 H)). Qed.

Lemma ann_stmts_wf l bl : Forall wf_stmt l /\ pos_ok_stmts l -> BW_kept bl (snd (ann_stmts l bl)) [].
Proof.
  intros [HF Hp] HB. unfold Cover.ann_stmts.
  exact (AL_wf _ _ _ _ _ (ann_loop_AL files mode _ l HF bl []) Hp HB I).
Qed.

Lemma wf_all (s : cstmt E) : wf_stmt s.
Proof.
  induction s as [s IH] using cstmt_bodies_ind. apply stmt_sat_intro. intros bl Hp.
  destruct (with_bodies_outer s (fst (ann_lists files mode (bodies s) bl))) as (H1 & H2 & _).
  split; [exact H1|]. split; [exact H2|].
  apply (thread_lists files mode BW_kept (fun _ => []) _ BW_kept_nil BW_kept_app ann_stmts_wf).
  apply Forall_and; [exact IH|apply pos_ok_bodies; exact Hp].
Qed.

Lemma ann_stmts_wf_top l bl : pos_ok_stmts l -> BW_kept bl (snd (ann_stmts l bl)) [].
Proof.
  intros Hp. apply ann_stmts_wf. split; [|exact Hp].
  apply Forall_forall. intros s _. apply wf_all.
Qed.

Definition pos_ok_body (b : option (list (cstmt E))) : Prop :=
  match b with None => True | Some l => pos_ok_stmts l end.

Definition pos_ok_prog (P : program E) : Prop :=
  Forall pos_ok_stmts (p_begin P) /\ Forall (fun a => pos_ok_body (a_body a)) (p_actions P)
  /\ Forall pos_ok_stmts (p_end P) /\ Forall pos_ok_stmts (p_funcs P).

Theorem blocks_raw (P : program E) : pos_ok_prog P -> Forall BW (snd (annotate files mode P)).
Proof.
  intros Hp.
  exact (thread_prog files mode BW_kept (fun _ => []) pos_ok_stmts BW_kept_nil BW_kept_app ann_stmts_wf_top
           P Hp (Forall_nil _)).
Qed.

(* which file a global line belongs to: its index in the table and its first global line *)
Fixpoint slot_from (fs : ftable) (start line : Z) : option (nat * Z) :=
  match fs with
  | [] => None
  | (_, n) :: rest =>
      if (start <=? line) && (line <? start + n) then Some (O, start)
      else match slot_from rest (start + n) line with
           | Some (k, s) => Some (S k, s)
           | None => None
           end
  end.
Definition slot (fs : ftable) (line : Z) : option (nat * Z) := slot_from fs 1 line.

Lemma slot_from_spec fs : forall start line k s, slot_from fs start line = Some (k, s) ->
  exists path n, nth_error fs k = Some (path, n) /\ s <= line < s + n
                 /\ file_line_from fs start line = (path, line - s + 1).
Proof.
  induction fs as [|[path n] rest IH]; intros start line k s; cbn [slot_from file_line_from]; [discriminate|].
  destruct ((start <=? line) && (line <? start + n)) eqn:Hin.
  - intros H. inversion H; subst. exists path, n. split; [reflexivity|]. split; [lia|reflexivity].
  - destruct (slot_from rest (start + n) line) as [[k' s']|] eqn:Hs; [|discriminate].
    intros H. inversion H; subst. destruct (IH _ _ _ _ Hs) as (p' & n' & H1 & H2 & H3).
    exists p', n'. split; [exact H1|]. split; assumption.
Qed.

(* the reported block lies in file k, inside its line range, start before end *)
Theorem block_in_file (b : block) p1 p2 k s :
  raw_block p1 p2 b -> pos_lt p1 p2 ->
  slot files (pline p1) = Some (k, s) -> slot files (pline p2) = Some (k, s) ->
  exists path n, nth_error files k = Some (path, n) /\ b_path b = path
    /\ 1 <= pline (b_start b) <= n /\ 1 <= pline (b_end b) <= n
    /\ pos_lt (b_start b) (b_end b)
    /\ pcol (b_start b) = pcol p1 /\ pcol (b_end b) = pcol p2.
Proof.
  intros (R1 & R2 & R3) Hlt S1 S2. unfold slot in *.
  destruct (slot_from_spec _ _ _ _ _ S1) as (path & n & N1 & L1 & F1).
  destruct (slot_from_spec _ _ _ _ _ S2) as (path2 & n2 & N2 & L2 & F2).
  rewrite N1 in N2. inversion N2; subst path2 n2.
  unfold file_line in *. rewrite F1 in R1, R2. rewrite F2 in R3. cbn [fst snd] in *.
  exists path, n. split; [exact N1|]. split; [exact R1|].
  rewrite R2, R3. cbn [pline pcol]. unfold pos_lt in *. cbn [pline pcol].
  repeat split; lia.
Qed.

End Wf.

(* a statement list left open across two program files: the block is reported in the first
   file with an end line that is relative to the second one *)
Definition straddle_files : ftable := [([97], 1); ([98], 1)].
Definition straddle_prog : program unit :=
  mkprogram [[SSimple KPrint tt (mkpos 1 9) (mkpos 1 16); SSimple KPrint tt (mkpos 2 1) (mkpos 2 9)]] [] [] [].
Lemma straddle_refuted :
  pos_ok_prog straddle_prog /\
  exists b, snd (annotate straddle_files MSet straddle_prog) = [b] /\ ~ pos_lt (b_start b) (b_end b).
Proof.
  split.
  - unfold pos_ok_prog, straddle_prog, pos_ok_stmts. cbn [p_begin p_actions p_end p_funcs].
    split; [|split; [constructor|split; constructor]]. constructor; [|constructor].
    cbn. unfold pos_lt, pos_le. cbn [pline pcol]. repeat (split; [first [exact I | lia]|]). exact I.
  - eexists. split; [vm_compute; reflexivity|]. unfold pos_lt. cbn. lia.
Qed.
