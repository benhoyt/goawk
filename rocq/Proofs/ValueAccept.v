(* C05: texts in the AWK numeric grammar are syntactically accepted by the model of
   strconv.ParseFloat (hex needs its exponent), hence: a grammatical input text is a
   number for parseFloat (out of range included: +-inf), and conversely; and the text the
   scanner hands to strconv is never a syntax error. *)
From Verif Require Import Lib.Base Lib.Dyadic Lib.Utf8 Model.Value Proofs.ValueScan Proofs.ValueGrammar.

Lemma forallb_no (p : Z -> bool) (x : Z) l :
  (forall c, p c = true -> c <> x) -> forallb p l = true -> contains x l = false.
Proof.
  intros Hp. induction l as [|c t IH]; cbn [forallb contains]; [reflexivity|].
  intro H. apply andb_true_iff in H as [Hc Ht]. rewrite (IH Ht), orb_false_r. apply Z.eqb_neq. apply Hp. exact Hc.
Qed.

Lemma digit_ne c (x : Z) : (x < 48 \/ 57 < x) -> is_digit c = true -> c <> x.
Proof. unfold is_digit. intros Hx H. lia. Qed.
Lemma hex_digit_ne c (x : Z) : (x < 48 \/ 57 < x < 65 \/ 70 < x < 97 \/ 102 < x) -> is_hex_digit c = true -> c <> x.
Proof. unfold is_hex_digit, is_digit. intros Hx H. lia. Qed.

Lemma rf_exp_digits_all ed e und :
  forallb is_digit ed = true -> exists e', rf_exp_digits ed e und = (e', und, []).
Proof.
  intro H. destruct (rf_exp_digits_span ed e und) as [e' He].
  - apply (forallb_no is_digit 95 ed); [intro c; apply digit_ne; lia|exact H].
  - exists e'. rewrite He. rewrite <- (app_nil_r ed) at 1. rewrite (span_stop is_digit ed [] H I). reflexivity.
Qed.

(* readFloat accepts what lexes completely *)
Lemma read_float_of_lex s sg u d1 dot d2 r3 :
  contains 95 s = false -> s <> [] -> opt_sign s = (sg, u) ->
  lex_mant (mant_digit (hex_of u)) (body_of u) = (d1, dot, d2, r3) ->
  is_nil d1 && is_nil d2 = false ->
  ((r3 = [] /\ hex_of u = false) \/
   exp_shape (hex_of u) r3) ->
  exists d, read_float s = Some (d, []).
Proof.
  intros Hus Hne Hos Hl Hnil Hr3.
  destruct s as [|c0 t0]; [congruence|].
  unfold read_float. rewrite opt_sign_snd, Hos. cbn [snd].
  assert (Huu : contains 95 u = false).
  { destruct (opt_sign_inv _ _ _ Hos) as [E _]. rewrite E in Hus. exact (contains_app_r _ _ _ Hus). }
  rewrite hex_split.
  assert (Hub : contains 95 (body_of u) = false).
  { unfold body_of. destruct (hex_of u); [apply contains_zdrop|]; exact Huu. }
  destruct (rf_loop_lex _ _ _ _ _ _ Hub Hl) as [nd [dp [digs Hloop]]].
  rewrite Hloop, Hnil. cbn [negb].
  destruct Hr3 as [[-> Hh] | [c [es [ed [-> [Hc [Hose [Hed Hedd]]]]]]]].
  - rewrite Hh. cbn [andb]. eexists. reflexivity.
  - rewrite Hc.
    destruct (opt_sign_inv _ _ _ Hose) as [_ Hes].
    destruct ed as [|e1 ed']; [congruence|].
    assert (He1 : is_digit e1 = true) by (cbn [forallb] in Hedd; apply andb_true_iff in Hedd as [H _]; exact H).
    destruct (rf_exp_digits_all (e1 :: ed') 0 false Hedd) as [e' He'].
    destruct Hes as [-> | [-> | ->]]; cbn [app].
    + assert ((e1 =? 43) || (e1 =? 45) = false) as -> by (unfold is_digit in He1; lia).
      rewrite He1, He'. cbn [andb]. eexists. reflexivity.
    + cbn [Z.eqb Pos.eqb orb]. rewrite He1, He'. cbn [andb]. eexists. reflexivity.
    + cbn [Z.eqb Pos.eqb orb]. rewrite He1, He'. cbn [andb]. eexists. reflexivity.
Qed.

Lemma sign_str_no sg (x : Z) : x <> 43 -> x <> 45 -> sign_str sg -> contains x sg = false.
Proof.
  intros H1 H2 [-> | [-> | ->]]; cbn [contains]; [reflexivity| |]; rewrite orb_false_r; apply Z.eqb_neq; lia.
Qed.

Lemma mantissa_no p (x : Z) m :
  (forall c, p c = true -> c <> x) -> x <> 46 -> mantissa p m -> contains x m = false.
Proof.
  intros Hp H46 [d1 [dot [d2 [-> [H1 [H2 [Hd _]]]]]]].
  rewrite !contains_app, (forallb_no p x d1 Hp H1), (forallb_no p x d2 Hp H2).
  destruct Hd as [-> | [-> _]]; cbn [contains orb]; [|reflexivity].
  rewrite !orb_false_r. apply Z.eqb_neq. lia.
Qed.

Lemma exponent_no lo up (x : Z) e :
  x <> lo -> x <> up -> x <> 43 -> x <> 45 -> (x < 48 \/ 57 < x) -> exponent lo up e -> contains x e = false.
Proof.
  intros Hlo Hup H43 H45 Hx [c [es [ed [-> [Hc [Hes [_ Hd]]]]]]].
  cbn [contains]. rewrite contains_app, (sign_str_no es x H43 H45 Hes).
  rewrite (forallb_no is_digit x ed (fun c => digit_ne c x Hx) Hd).
  rewrite !orb_false_r. apply Z.eqb_neq. destruct Hc as [-> | ->]; lia.
Qed.

Lemma special_numeral_none sg h r :
  sign_str sg -> (is_digit h = true \/ h = 46) -> special (sg ++ h :: r) = None.
Proof.
  intros Hsg Hh.
  assert (Hcpl : common_prefix_len_ic (h :: r) str_infinity = 0).
  { unfold str_infinity. cbn [common_prefix_len_ic]. rewrite ic_eq by lia.
    assert ((h =? 105) || (h =? 105 - 32) = false) as -> by (unfold is_digit in Hh; lia). reflexivity. }
  destruct Hsg as [-> | [-> | ->]]; cbn [app special is_sign Z.eqb Pos.eqb orb].
  - assert (is_sign h = false) as -> by (unfold is_sign, is_digit in *; lia).
    assert ((h =? 105) || (h =? 73) = false) as -> by (unfold is_digit in Hh; lia).
    assert ((h =? 110) || (h =? 78) = false) as -> by (unfold is_digit in Hh; lia). reflexivity.
  - unfold special_inf. rewrite Hcpl. reflexivity.
  - unfold special_inf. rewrite Hcpl. reflexivity.
Qed.

Lemma lex_complete p lo up m x :
  p 46 = false -> p lo = false -> p up = false -> lo <> 46 -> up <> 46 ->
  mantissa p m -> (x = [] \/ exponent lo up x) ->
  exists d1 dot d2, lex_mant p (m ++ x) = (d1, dot, d2, x) /\ is_nil d1 && is_nil d2 = false /\ m = d1 ++ dot ++ d2.
Proof.
  intros H1 H2 H3 H4 H5 (a & dt & b & -> & Ha & Hb & Hdt & Hne) Hx.
  exists a, dt, b. split; [|split; [|reflexivity]].
  - rewrite <- !app_assoc. apply lex_mant_intro; try assumption.
    + destruct Hx as [-> | (c & es & ed & -> & [-> | ->] & _)]; cbn [stops]; auto.
    + intros _. destruct Hx as [-> | (c & es & ed & -> & [-> | ->] & _)]; cbn [stops]; auto; apply Z.eqb_neq; assumption.
  - destruct a; [|reflexivity]. destruct b; [destruct Hne; congruence|reflexivity].
Qed.

(* grammatical texts are accepted by strconv's syntax *)
Lemma dec_hex_of_false m x : mantissa is_digit m -> (x = [] \/ exponent 101 69 x) -> hex_of (m ++ x) = false.
Proof.
  intros Hm Hx. destruct (hex_of (m ++ x)) eqn:E; [exfalso|reflexivity].
  destruct (hex_of_true_inv _ E) as [b [c [r [Eu Hb]]]].
  assert (H : m ++ x ++ [] = 48 :: b :: c :: r) by (rewrite app_nil_r; exact Eu).
  pose proof (dec_hex_prefix_inv m x [] b (c :: r) Hm Hx Hb H) as H1. rewrite H1 in Eu. discriminate.
Qed.

Lemma accepted_desc t : special t = None -> (exists d, read_float t = Some (d, [])) -> exists d, go_parse_desc t = Some d.
Proof. intros Hs [d Hd]. unfold go_parse_desc. rewrite Hs, Hd. exists d. reflexivity. Qed.

(* the two forms of numeral are accepted for one reason: a sign, "0x" or nothing, then a mantissa
   and an exponent over the digit class and the letters of the radix - the exponent being
   obligatory in hexadecimal - lex completely *)
Lemma numeral_accepted hex p sg pre m x :
  (forall c, mant_digit hex c = p c) -> sign_str sg -> mantissa p m ->
  (x = [] /\ hex = false \/ exponent (if hex then 112 else 101) (if hex then 80 else 69) x) ->
  contains 95 pre = false -> (exists h r, pre ++ m ++ x = h :: r /\ (is_digit h = true \/ h = 46)) ->
  hex_of (pre ++ m ++ x) = hex -> body_of (pre ++ m ++ x) = m ++ x ->
  let t := sg ++ pre ++ m ++ x in
  contains 95 t = false /\ opt_sign t = (sg, pre ++ m ++ x) /\ exists d, go_parse_desc t = Some d.
Proof.
  intros Hp Hsg Hm Hx Hpre (h & r & Eu & Hh) Hhex Hbody t. subst t.
  assert (Hp95 : forall c, p c = true -> c <> 95).
  { intros c Hc. rewrite <- Hp in Hc. exact (proj1 (mant_digit_not_special hex c Hc)). }
  assert (Hhs : is_sign h = false) by (destruct Hh as [Hh | ->]; [apply digit_not_sign; exact Hh|reflexivity]).
  assert (Hx' : x = [] \/ exponent (if hex then 112 else 101) (if hex then 80 else 69) x) by (destruct Hx as [[-> _]|Hx]; auto).
  assert (H95 : contains 95 (sg ++ pre ++ m ++ x) = false).
  { rewrite !contains_app, Hpre, (sign_str_no sg 95), (mantissa_no p 95 m Hp95) by (try lia; assumption).
    destruct Hx' as [-> | Hx']; [reflexivity|]. eapply exponent_no; [| | | | |exact Hx']; destruct hex; lia. }
  assert (Hos : opt_sign (sg ++ pre ++ m ++ x) = (sg, pre ++ m ++ x)) by (rewrite Eu; apply opt_sign_build; assumption).
  split; [exact H95|]. split; [exact Hos|].
  apply accepted_desc; [rewrite Eu; apply special_numeral_none; assumption|].
  destruct (lex_complete p (if hex then 112 else 101) (if hex then 80 else 69) m x) as (d1 & dot & d2 & Hl & Hn & _);
    try assumption; try (rewrite <- Hp; destruct hex; reflexivity); try (destruct hex; lia).
  apply (read_float_of_lex _ sg (pre ++ m ++ x) d1 dot d2 x H95).
  - rewrite Eu. destruct sg; discriminate.
  - exact Hos.
  - rewrite Hhex, Hbody, (lex_mant_ext _ _ _ Hp). exact Hl.
  - exact Hn.
  - rewrite Hhex. destruct Hx as [[-> ->] | Hx]; [left; split; reflexivity|right].
    exact (proj2 (exp_shape_exponent hex x) Hx).
Qed.

Lemma awk_decimal_accepted sg m x :
  sign_str sg -> mantissa is_digit m -> (x = [] \/ exponent 101 69 x) ->
  let t := sg ++ m ++ x in
  contains 95 t = false /\ opt_sign t = (sg, m ++ x) /\ exists d, go_parse_desc t = Some d.
Proof.
  intros Hsg Hm Hx. pose proof (dec_hex_of_false m x Hm Hx) as Hhex.
  apply (numeral_accepted false is_digit sg [] m x mant_digit_dec Hsg Hm); try reflexivity.
  - destruct Hx as [-> | Hx]; auto.
  - exact (mantissa_head is_digit m x Hm).
  - exact Hhex.
  - unfold body_of. cbn [app]. rewrite Hhex. reflexivity.
Qed.

Lemma awk_hex_exp_accepted sg b m x :
  sign_str sg -> (b = 120 \/ b = 88) -> mantissa is_hex_digit m -> exponent 112 80 x ->
  let t := sg ++ [48; b] ++ m ++ x in
  contains 95 t = false /\ exists d, go_parse_desc t = Some d.
Proof.
  intros Hsg Hb Hm Hx.
  destruct (mantissa_head is_hex_digit m x Hm) as (h & r & Eu & _).
  assert (Hhex : hex_of (48 :: b :: m ++ x) = true) by (rewrite Eu; exact (hex_of_intro b h r Hb)).
  destruct (numeral_accepted true is_hex_digit sg [48; b] m x mant_digit_hex Hsg Hm (or_intror Hx)) as (H95 & _ & Hd);
    [destruct Hb as [-> | ->]; reflexivity|exists 48, (b :: m ++ x); auto|exact Hhex| |exact (conj H95 Hd)].
  unfold body_of. cbn [app]. rewrite Hhex, Eu. reflexivity.
Qed.

Lemma exponent_p0 : exponent 112 80 str_p0.
Proof.
  exists 112, [], [48]. split; [reflexivity|]. split; [left; reflexivity|]. split; [left; reflexivity|].
  split; [discriminate|reflexivity].
Qed.

(* a hexadecimal numeral has a p or P exactly when it has an exponent, and is accepted once
   "p0" is appended in the other case: the one patch rule of parseFloat and of the scanner *)
Lemma awk_hex_accepted sg b m x :
  sign_str sg -> (b = 120 \/ b = 88) -> mantissa is_hex_digit m -> (x = [] \/ exponent 112 80 x) ->
  let t := sg ++ [48; b] ++ m ++ x in
  negb (contains 112 t) && negb (contains 80 t) = is_nil x /\
  contains 95 (scan_text t (is_nil x)) = false /\
  exists d, go_parse_desc (scan_text t (is_nil x)) = Some d.
Proof.
  intros Hsg Hb Hm Hx t. subst t.
  assert (Hpre : contains 112 (sg ++ [48; b] ++ m) = false /\ contains 80 (sg ++ [48; b] ++ m) = false).
  { rewrite !contains_app. rewrite (sign_str_no sg 112), (sign_str_no sg 80) by (try lia; exact Hsg).
    rewrite (mantissa_no is_hex_digit 112 m), (mantissa_no is_hex_digit 80 m)
      by (try lia; try exact Hm; intros c; apply hex_digit_ne; lia).
    destruct Hb as [-> | ->]; split; reflexivity. }
  destruct Hpre as [P1 P2]. destruct Hx as [-> | Hx].
  - rewrite app_nil_r, P1, P2. cbn [is_nil negb andb scan_text]. split; [reflexivity|].
    replace ((sg ++ [48; b] ++ m) ++ str_p0) with (sg ++ [48; b] ++ m ++ str_p0) by (norm_app; reflexivity).
    exact (awk_hex_exp_accepted sg b m str_p0 Hsg Hb Hm exponent_p0).
  - pose proof (awk_hex_exp_accepted sg b m x Hsg Hb Hm Hx) as Hacc. cbv zeta in Hacc.
    destruct Hx as (c & es & ed & -> & Hc & _). cbn [is_nil scan_text]. split; [|exact Hacc].
    replace (sg ++ [48; b] ++ m ++ c :: es ++ ed) with ((sg ++ [48; b] ++ m) ++ c :: es ++ ed) by (norm_app; reflexivity).
    rewrite !(contains_app _ (sg ++ [48; b] ++ m)), P1, P2. cbn [contains orb].
    destruct Hc as [-> | ->]; cbn [Z.eqb Pos.eqb orb negb andb]; [reflexivity|apply andb_false_r].
Qed.

Lemma scan_t_text_accepted start t start' c patch :
  scan_t start t = PSNum start' c patch -> exists d, go_parse_desc (scan_text c patch) = Some d.
Proof.
  intro H.
  destruct (scan_t_num_inv _ _ _ _ _ H) as (_ & _ & sg & m & x & Hsg & [(-> & Hm & Hx & ->)|(b & -> & Hb & Hm & Hx & ->)]).
  - exact (proj2 (proj2 (awk_decimal_accepted sg m x Hsg Hm Hx))).
  - exact (proj2 (proj2 (awk_hex_accepted sg b m x Hsg Hb Hm Hx))).
Qed.

(* the text the scanner hands to strconv is never a syntax error *)
Theorem scan_text_accepted s start c patch :
  scan_prefix s = PSNum start c patch ->
  exists d, go_parse_desc (scan_text c patch) = Some d /\ parse_float_prefix s = Ok (fst (desc_value d)).
Proof.
  intro H. pose proof H as H'. rewrite scan_prefix_eq in H'.
  destruct (scan_t_text_accepted _ _ _ _ _ H') as [d Hd]. exists d. split; [exact Hd|].
  unfold parse_float_prefix. rewrite H. unfold go_parse_float. rewrite Hd.
  destruct (desc_value d) as [v r]. reflexivity.
Qed.

Lemma awk_numeral_head t : awk_numeral t ->
  exists sg h r, sign_str sg /\ t = sg ++ h :: r /\ (is_hex_digit h = true \/ h = 46).
Proof.
  intros [[sg [m [x [-> [Hsg [Hm _]]]]]] | [sg [b [m [x [-> [Hsg _]]]]]]].
  - destruct (mantissa_head is_digit m x Hm) as [h [r [E Hh]]]. exists sg, h, r. rewrite E.
    split; [exact Hsg|]. split; [reflexivity|]. destruct Hh as [Hh|Hh]; [left|right; exact Hh].
    unfold is_hex_digit. rewrite Hh. reflexivity.
  - exists sg, 48, (b :: m ++ x). split; [exact Hsg|]. split; [reflexivity|left; reflexivity].
Qed.

Lemma has_nan_prefix_head h r : (is_hex_digit h = true \/ h = 46) -> has_nan_prefix (h :: r) = false.
Proof.
  intro Hh. destruct r as [|b [|c r']]; try reflexivity. cbn [has_nan_prefix].
  assert ((h =? 110) || (h =? 78) = false) as -> by (unfold is_hex_digit, is_digit in Hh; lia). reflexivity.
Qed.

(* a grammatical input text (ASCII blanks around it) is a number for parseFloat *)
Theorem numeric_text_accepted s :
  awk_numeral (ascii_trim s) -> exists x, parse_float s = PFOk x.
Proof.
  intros Hnum.
  destruct (awk_numeral_head _ Hnum) as [sg0 [h [r [Hsg0 [Et Hh]]]]].
  assert (Hhs : is_sign h = false) by (unfold is_sign, is_hex_digit, is_digit in *; lia).
  assert (Hos : opt_sign (ascii_trim s) = (sg0, h :: r)) by (rewrite Et; apply opt_sign_build; assumption).
  assert (Hne : ascii_trim s <> []) by (rewrite Et; destruct sg0; discriminate).
  pose proof (parse_float_text_eq s sg0 (h :: r)) as Htext. cbv zeta in Htext.
  specialize (Htext Hne Hos). rewrite (has_nan_prefix_head h r Hh), andb_false_r in Htext.
  (* the text handed to strconv is accepted and underscore-free *)
  assert (Hacc : exists text d, parse_float_text s = Some text /\ go_parse_desc text = Some d /\ contains 95 text = false).
  { destruct Hnum as [[sg [m [x [E [Hsg [Hm Hx]]]]]] | [sg [b [m [x [E [Hsg [Hb [Hm Hx]]]]]]]]].
    - (* decimal: never patched *)
      destruct (awk_decimal_accepted sg m x Hsg Hm Hx) as (H95 & Hos' & d & Hd). cbv zeta in *.
      rewrite <- E in H95, Hos', Hd. rewrite Hos in Hos'. injection Hos' as <- Hu.
      rewrite Hu, (dec_hex_of_false m x Hm Hx) in Htext. cbn [andb] in Htext.
      exists (ascii_trim s), d. auto.
    - (* hexadecimal: patched exactly when there is no exponent *)
      assert (Hos' : opt_sign (ascii_trim s) = (sg, 48 :: b :: m ++ x))
        by (rewrite E; cbn [app]; apply opt_sign_build; [exact Hsg|reflexivity]).
      rewrite Hos in Hos'. injection Hos' as <- -> ->.
      destruct (mantissa_head is_hex_digit m x Hm) as [h' [r' [Em _]]].
      assert (Hhex : hex_of (48 :: b :: m ++ x) = true) by (rewrite Em; exact (hex_of_intro b h' r' Hb)).
      destruct (awk_hex_accepted sg0 b m x Hsg Hb Hm Hx) as (Hp & H95 & d & Hd). cbv zeta in *.
      rewrite <- E in Hp, H95, Hd. rewrite Hhex, Hp in Htext. cbn [andb] in Htext.
      exists (scan_text (ascii_trim s) (is_nil x)), d. auto. }
  destruct Hacc as [text [d [Ht [Hd H95]]]].
  unfold parse_float, go_parse_float. rewrite Ht, Hd, H95.
  destruct (desc_value d) as [v rng]. eexists; reflexivity.
Qed.

(* [sign] inf | infinity | nan, any case (the sign before nan is goawk's own extension) *)
Definition special_word (w : bytes) : Prop :=
  (zlen w = 3 /\ has_inf_prefix w = true) \/ (zlen w = 3 /\ has_nan_prefix w = true) \/
  (zlen w = 8 /\ common_prefix_len_ic w str_infinity = 8).
Definition awk_special (t : bytes) : Prop :=
  exists sg w, sign_str sg /\ t = sg ++ w /\ special_word w.

Lemma special_inf_word neg nsign w d n :
  special_inf neg nsign w = Some (d, n) -> n = nsign + zlen w -> special_word w.
Proof.
  unfold special_inf. set (k := common_prefix_len_ic w str_infinity).
  destruct ((3 <? k) && (k <? 8)) eqn:E.
  - cbn [Z.eqb Pos.eqb orb]. intros H Hn. injection H as _ <-.
    left. split; [lia|]. assert (H3 : 3 <= k) by lia. destruct (cpl_inf3 w H3) as [a [b [c [r [-> Hi]]]]]. exact Hi.
  - destruct ((k =? 3) || (k =? 8)) eqn:E2; [|discriminate]. intros H Hn. injection H as _ <-.
    apply orb_true_iff in E2 as [E2|E2]; apply Z.eqb_eq in E2.
    + left. split; [lia|]. assert (H3 : 3 <= k) by lia. destruct (cpl_inf3 w H3) as [a [b [c [r [-> Hi]]]]]. exact Hi.
    + right; right. split; [lia|exact E2].
Qed.

Lemma special_whole_word t d : special t = Some (d, zlen t) -> awk_special t.
Proof.
  destruct t as [|c t']; [discriminate|]. cbn [special].
  destruct (is_sign c) eqn:Es.
  - intro H. exists [c], t'. split.
    + exact (is_sign_str c Es).
    + split; [reflexivity|]. apply (special_inf_word _ _ _ _ _ H). rewrite zlen_cons. reflexivity.
  - destruct ((c =? 105) || (c =? 73)).
    + intro H. exists [], (c :: t'). split; [left; reflexivity|]. split; [reflexivity|].
      apply (special_inf_word _ _ _ _ _ H). lia.
    + destruct ((c =? 110) || (c =? 78)); [|discriminate].
      destruct (common_prefix_len_ic (c :: t') str_nan =? 3) eqn:E3; [|discriminate].
      intro H. apply Z.eqb_eq in E3.
      assert (Hn := f_equal (fun o : option (desc * Z) => match o with Some (_, n) => n | None => 0 end) H).
      cbv beta iota in Hn.
      exists [], (c :: t'). split; [left; reflexivity|]. split; [reflexivity|].
      right; left. split; [lia|]. destruct (cpl_nan3 _ E3) as [a [b [e [r [-> Hnan]]]]]. exact Hnan.
Qed.

(* a text that lexes completely is consumed whole by the scanner, hence a numeral *)
Lemma accepted_shape_numeral t sg u d1 dot d2 r3 :
  opt_sign t = (sg, u) ->
  lex_mant (mant_digit (hex_of u)) (body_of u) = (d1, dot, d2, r3) ->
  is_nil d1 && is_nil d2 = false ->
  (r3 = [] \/ exp_shape (hex_of u) r3) ->
  awk_numeral t.
Proof.
  intros Hos Hl Hn Hr3.
  pose proof (scan_t_full 0 t [] sg u d1 dot d2 r3 Hos Hl Hn Hr3 I) as H. rewrite app_nil_r in H.
  exact (proj2 (proj2 (scan_t_num_grammar _ _ _ _ _ H))).
Qed.

(* conversely, what parseFloat accepts is, between ASCII blanks, in the grammar *)
Theorem accepted_is_numeric s x :
  parse_float s = PFOk x ->
  awk_numeral (ascii_trim s) \/ awk_special (ascii_trim s).
Proof.
  intros Hpf.
  destruct (parse_float_ok_inv s x Hpf) as
    [(c & a & b & e & Et & Hsc & Hn & _)|[(d & Hsp & _)|(sg & u & d1 & dot & d2 & r3 & rng & Hos & Hl & Hnil & Hr3 & _)]].
  - right. exists [c], [a; b; e]. split; [exact (is_sign_str c Hsc)|].
    split; [exact Et|]. right; left. split; [reflexivity|exact Hn].
  - right. exact (special_whole_word _ _ Hsp).
  - left. exact (accepted_shape_numeral _ sg u d1 dot d2 r3 Hos Hl Hnil Hr3).
Qed.

(* a value out of range is a number all the same (strconv's ErrRange is accepted): "1e400" is +inf *)
Example parse_float_1e400 : parse_float [49; 101; 52; 48; 48] = PFOk (FInf false).
Proof. vm_compute. reflexivity. Qed.

(* text with a non-ASCII blank at an edge is not numeric for either routine *)
Lemma nbsp12_is_a_string :
  parse_float [194; 160; 49; 50] = PFErrSyntax /\ parse_float_prefix [194; 160; 49; 50] = Ok (FFin 0 0) /\
  ~ (awk_numeral (ascii_trim [194; 160; 49; 50]) \/ awk_special (ascii_trim [194; 160; 49; 50])).
Proof.
  split; [vm_compute; reflexivity|]. split; [vm_compute; reflexivity|].
  change (ascii_trim [194; 160; 49; 50]) with [194; 160; 49; 50].
  intros [H | [sg [w [Hsg [Et Hw]]]]].
  - destruct (awk_numeral_head _ H) as [sg [h [r [Hsg [Et Hh]]]]].
    destruct Hsg as [-> | [-> | ->]]; cbn [app] in Et; try discriminate.
    injection Et as <- _. destruct Hh as [Hh|Hh]; [vm_compute in Hh|]; discriminate.
  - destruct Hsg as [-> | [-> | ->]]; cbn [app] in Et; try discriminate. subst w.
    destruct Hw as [[H _] | [[H _] | [H _]]]; vm_compute in H; discriminate.
Qed.
