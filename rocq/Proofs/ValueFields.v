(* C05: where input text enters through the RECORD: the typing of a field depends only on the
   record it was read from and on what was assigned since that record arrived - never on
   earlier records.  Stated over the model of interp.go's record machinery (Model/Fields.v:
   setLine, ensureFields, getField, setField, NF assignment; p.fieldsIsTrueStr is
   [fields_true]) for ANY state the earlier history may have left behind, and joined with
   the typing rules of Model/Value.v. *)
From Verif Require Import Lib.Base Lib.Dyadic Lib.Utf8 Lib.Regex Model.Value Model.Fields Proofs.FieldsObs Proofs.ValueCmp.

(* the AWK value getField pushes: str(text) when the flag is set, numStr(text) otherwise *)
Definition field_value (f : bytes) (is_true_str : bool) : Value.value :=
  if is_true_str then VStr f else VNumStr f.

Section AnyEngine.
Variable rx : Type.
Variable all_matches : rx -> bytes -> list (Z * Z).

Notation get_field := (get_field rx all_matches).

(* a record arrives (main loop, plain getline: setLine(t, false)), in whatever state s the
   earlier records and assignments left the interpreter: $0 and every existing field of the
   new record are numeric-string candidates; only a position beyond NF reads as the string "" *)
Lemma fresh_record_flags (s : state rx) t k s1 f b :
  get_field (set_line rx s t false) k = Ok (s1, f, b) ->
  b = false \/ (k <> 0 /\ f = [] /\ b = true /\
                (let n := zlen (fields rx s1) in let j := if k <? 1 then n + 1 + k else k in j < 1 \/ j > n)).
Proof.
  intros H. destruct (get_field_set_line _ _ _ _ _ _ _ _ _ H) as [(_ & _ & ->)|(Hk & [->|(-> & -> & Hj)])];
    [left; reflexivity|left; reflexivity|right; auto].
Qed.

(* independence of history: two interpreters that agree on the settings the split depends on
   (FS, its regex, RS, input mode) see the same text and the same typing for every field of a
   record t, whatever records and assignments came before in either of them *)
Lemma fresh_record_independent (s s' : state rx) t k :
  fs rx s = fs rx s' -> fs_re rx s = fs_re rx s' -> rs rx s = rs rx s' -> inmode rx s = inmode rx s' ->
  match get_field (set_line rx s t false) k, get_field (set_line rx s' t false) k with
  | Ok (_, f, b), Ok (_, f', b') => f = f' /\ b = b'
  | Err m, Err m' => m = m'
  | Panic, Panic => True
  | Unmod, Unmod => True
  | _, _ => False
  end.
Proof.
  intros H1 H2 H3 H4. unfold Fields.get_field.
  destruct (k =? 0); [cbn [line line_true set_line]; split; reflexivity|].
  unfold Fields.ensure_fields. cbn [have set_line saved_fs saved_re saved_rs saved_inmode line].
  rewrite <- H1, <- H2, <- H3, <- H4.
  destruct (split_record rx all_matches _ _ _ _ _) as [fl|m| |]; cbn [rbind]; auto.
  cbn [fields fields_true].
  destruct ((if k <? 1 then zlen fl + 1 + k else k) <? 1); [split; reflexivity|].
  destruct ((if k <? 1 then zlen fl + 1 + k else k) >? zlen fl); [split; reflexivity|].
  destruct (index (map (fun _ => false) fl) _) as [t0|m| |]; cbn [rbind]; auto.
  destruct (index fl _) as [f0|m| |]; cbn [rbind]; auto.
Qed.

(* the same after "$0 = t" (setField(0, t) = setLine(t, true)): the fields are re-split and are
   numeric-string candidates again; $0 itself is a string *)
Lemma assigned_record_flags (s : state rx) t k s0 s1 f b :
  set_field rx all_matches s 0 t = Ok s0 -> get_field s0 k = Ok (s1, f, b) ->
  (k = 0 /\ b = true) \/ b = false \/ (k <> 0 /\ f = [] /\ b = true).
Proof.
  intros H0 H. change (Ok (set_line rx s t true) = Ok s0) in H0. injection H0 as <-.
  destruct (get_field_set_line _ _ _ _ _ _ _ _ _ H) as [(-> & _ & ->)|(Hk & [->|(-> & -> & _)])]; auto.
Qed.

(* joined with the typing rules: a field of a freshly read record takes part in a comparison as
   a number exactly when parseFloat accepts its text (i.e., by C05_numeric_text_accepted /
   C05_accepted_is_numeric, when it is in the AWK numeric grammar between ASCII blanks) -
   whatever came before *)
Lemma fresh_field_numeric_iff (s : state rx) t k s1 f b :
  get_field (set_line rx s t false) k = Ok (s1, f, b) ->
  (exists x, numeric_operand (field_value f b) = Some x) <-> (exists x, parse_float f = PFOk x).
Proof.
  intro H. destruct (fresh_record_flags s t k s1 f b H) as [-> | [_ [-> [-> _]]]]; unfold field_value.
  - cbn [numeric_operand]. destruct (parse_float f) as [x| |]; split; intros [y Hy]; try discriminate; eauto.
  - cbn [numeric_operand]. split; intros [y Hy]; [discriminate|]. vm_compute in Hy. discriminate.
Qed.

End AnyEngine.

(* executable glue for the correspondence check (Lib/Regex.v as the engine) *)
Definition xfield (s : xstate) (k : Z) : res (xstate * Value.value) :=
  do (s1, f, b) <- Fields.get_field re Regex.all_matches s k; Ok (s1, field_value f b).
Definition xset_field (s : xstate) (k : Z) (t : bytes) : res xstate := Fields.set_field re Regex.all_matches s k t.
Definition xset_field_self (s : xstate) (k : Z) : res xstate :=
  do (s1, f, _) <- Fields.get_field re Regex.all_matches s k; Fields.set_field re Regex.all_matches s1 k f.
Definition xset_nf (s : xstate) (n : Z) : res xstate :=
  Fields.set_nf re Regex.all_matches s (count_value n).
Definition xread (s : xstate) (t : bytes) : xstate := Fields.set_line re s t false.
Definition xset_fs1 (s : xstate) (f : bytes) : res xstate := Fields.set_fs re s f None.
