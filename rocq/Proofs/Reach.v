(* C01: "execution from (p, stk, m) reaches (p', stk', m')" and "stops with r",
   the two relations the simulation proof composes. *)
From Verif Require Import Lib.Base Model.Ast Model.Instr Model.Compiler Model.Prims Model.VM
  Proofs.CodeAt Proofs.VMLemmas.

Section Reach.
  Variables value St err : Type.
  Variable P : prims value St err.
  Variable F : list cfunc.

  Notation run := (run P F).
  Notation step := (step P F).
  Notation mstate := (mstate value St).
  Notation vres := (vres value St err).

  Definition final (r : vres) : Prop := r <> VFuel.

  (* whatever a run from (p', stk', m') produces, a run from (p, stk, m) produces too *)
  Definition reaches (C : code) (p : Z) (stk : list value) (m : mstate)
                     (p' : Z) (stk' : list value) (m' : mstate) : Prop :=
    forall k r, run k C p' stk' m' = r -> final r -> exists k', run k' C p stk m = r.

  Definition stops (C : code) (p : Z) (stk : list value) (m : mstate) (r : vres) : Prop :=
    exists k, run k C p stk m = r.

  Lemma reaches_refl C p stk m : reaches C p stk m p stk m.
  Proof. intros k r H _. exists k. exact H. Qed.

  Lemma reaches_trans C p1 s1 m1 p2 s2 m2 p3 s3 m3 :
    reaches C p1 s1 m1 p2 s2 m2 -> reaches C p2 s2 m2 p3 s3 m3 -> reaches C p1 s1 m1 p3 s3 m3.
  Proof.
    intros H12 H23 k r Hr Hf. destruct (H23 k r Hr Hf) as [k2 H2]. exact (H12 k2 r H2 Hf).
  Qed.

  Lemma reaches_stops C p1 s1 m1 p2 s2 m2 r :
    reaches C p1 s1 m1 p2 s2 m2 -> stops C p2 s2 m2 r -> final r -> stops C p1 s1 m1 r.
  Proof. intros H12 [k Hk] Hf. exact (H12 k r Hk Hf). Qed.

  Lemma reaches_step C p stk m p' stk' m' :
    step C p stk m = ANext p' stk' m' -> reaches C p stk m p' stk' m'.
  Proof. intros Hs k r Hr _. exists (S k). rewrite run_S, Hs. exact Hr. Qed.

  Lemma stops_step C p stk m r : step C p stk m = AStop r -> stops C p stk m r.
  Proof. intros Hs. exists 1%nat. rewrite run_S, Hs. reflexivity. Qed.

  Lemma stops_end C p stk m : csize C <= p -> stops C p stk m (VDone stk m).
  Proof. intros H. exists 1%nat. apply run_end. exact H. Qed.

  Lemma reaches_simple C p i c stk m stk' m' :
    code_at C p (i :: c) -> is_control i = false -> exec_simple P i stk m = SOk stk' m' ->
    reaches C p stk m (p + isize i) stk' m'.
  Proof.
    intros H Hc He. apply reaches_step. erewrite step_simple; [rewrite He; reflexivity|eassumption|assumption].
  Qed.

  Lemma stops_simple_err C p i c stk m e m' :
    code_at C p (i :: c) -> is_control i = false -> exec_simple P i stk m = SErr e m' ->
    stops C p stk m (VAbort (XError e) m').
  Proof.
    intros H Hc He. apply stops_step. erewrite step_simple; [rewrite He; reflexivity|eassumption|assumption].
  Qed.

  Lemma stops_mono C p stk m r k :
    run k C p stk m = r -> final r -> forall k', (k <= k')%nat -> run k' C p stk m = r.
  Proof. intros. eapply run_mono; eassumption. Qed.

End Reach.

Arguments reaches {value St err}.
Arguments stops {value St err}.
Arguments final {value St err}.
