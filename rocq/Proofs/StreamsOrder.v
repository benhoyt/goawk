(* C13 proofs: every process starts with goawk's stdout buffer empty
   (flush before start), for every history and every sink failure. *)
From Verif Require Import Lib.Base Model.Streams Proofs.StreamsBase Proofs.StreamsSpec Proofs.StreamsTrace.

(* goawk's stdout buffer holds nothing that could still be delivered *)
Definition flushed (E : env) (s : state) : Prop :=
  match e_mode E with Buf _ => bw_buf (st_out s) = [] \/ bw_err (st_out s) = true | _ => True end.

Lemma flushed_flush_again E s : flushed E s -> flushed E (fst (flush_stdout E s)).
Proof. intros _. apply flush_stdout_log. Qed.

Lemma step_ext E s o : lext start_ok s (fst (step E s o)).
Proof.
  destruct (step_log E s o) as [H|(d & data & w & l1 & l2 & _ & _ & F1 & F2 & Hl)]; [exact (lext_mono _ _ calm_start_ok H)|].
  assert (Hs : forall l, Forall calm l -> Forall start_ok l) by (intros l; apply Forall_impl, calm_start_ok).
  exists (l2 ++ EvWrite w data :: l1). rewrite Hl, <- app_assoc. split; [reflexivity|].
  apply Forall_app. split; [apply Hs, F2|constructor; [exact I|apply Hs, F1]].
Qed.

Lemma exec_ext E ops : forall s, lext start_ok s (fst (exec E s ops)).
Proof.
  induction ops as [|o ops IH]; intros s; cbn [exec]; [apply lext_refl|].
  pose proof (step_ext E s o) as H. destruct (step E s o) as [s1 [| |]]; cbn [fst] in *; auto.
  eapply lext_trans; eauto.
Qed.

(* flush_before_child: in every history, with or without a failing writer,
   every process (system, print | cmd, cmd | getline) is started when goawk
   holds no byte of standard output that could still be delivered: either its
   buffer is empty or the writer has already failed for good.  So what a child
   writes can never overtake what the program printed before starting it. *)
Theorem flush_before_child E s0 ops s r :
  Forall start_ok (st_log s0) -> run E s0 ops = (s, r) -> Forall start_ok (st_log s).
Proof.
  intros H0. unfold run. pose proof (exec_ext E ops s0) as H. destruct (exec E s0 ops) as [s1 r1]. cbn [fst] in H.
  intros HH; injection HH as <- <-.
  destruct (lext_trans _ _ _ H (lext_mono _ _ calm_start_ok (proj1 (close_all_steady E s1)))) as (l & -> & F). apply Forall_app; auto.
Qed.
