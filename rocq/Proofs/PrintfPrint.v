(* C09: print joins its arguments with OFS, integral numbers are written as
   integers whatever OFMT says, other numbers go through OFMT. *)
From Verif Require Import Lib.Base Lib.Dyadic Lib.Utf8 Model.Printf
  Proofs.PrintfSpec Proofs.PrintfBase.

Theorem print_is_join ffmt ofs ors args strs :
  Forall2 (fun a s => v_str ffmt a = Ok s) args strs ->
  print_args ffmt ofs ors args = Ok (join ofs strs ++ ors).
Proof.
  intros H. unfold print_args.
  assert (G : forall first, print_fields ffmt ofs first args
              = Ok (match strs with [] => [] | _ => (if first then [] else ofs) ++ join ofs strs end)).
  { induction H as [|a s args' strs' Ha Hr IH]; intros first; [reflexivity|].
    cbn [print_fields]. rewrite Ha, (IH false). cbn [rbind].
    destruct strs' as [|s2 r2]; cbn [join app]; [rewrite app_nil_r|]; reflexivity. }
  rewrite (G true). destruct strs; reflexivity.
Qed.

(* strings are written as they are *)
Lemma v_str_string ffmt s n : v_str ffmt (VStr s n) = Ok s.
Proof. reflexivity. Qed.

(* a finite number that is an integer z within the int64 range: its decimal text *)
Definition integral_value (x : fnum) (z : Z) : Prop :=
  match x with
  | FFin m e => is_integral m e = true /\ z = ftrunc m e
  | _ => False
  end.

Lemma feq_integral m e : is_integral m e = true -> feq (FFin m e) (fnum_of_Z (ftrunc m e)) = true.
Proof.
  intros H. unfold feq, fnum_of_Z, fin_cmp, is_integral, ftrunc in *.
  destruct (0 <=? e) eqn:E.
  - apply Z.leb_le in E. rewrite Z.min_r by lia. rewrite !Z.sub_0_r, Z.pow_0_r, Z.mul_1_r.
    rewrite Z.compare_refl. reflexivity.
  - apply Z.leb_gt in E. rewrite Z.min_l by lia. rewrite Z.sub_diag, Z.pow_0_r, Z.mul_1_r.
    apply Z.eqb_eq in H. replace (0 - e) with (- e) by lia.
    pose proof (Z.quot_rem' m (2 ^ (- e))) as Q. rewrite H in Q.
    replace (Z.quot m (2 ^ (- e)) * 2 ^ (- e)) with m by lia. rewrite Z.compare_refl. reflexivity.
Qed.

Theorem num_str_integral ffmt x z : integral_value x z -> - two63 <= z < two63 ->
  num_str ffmt x = Ok (dec z).
Proof.
  destruct x as [| |m e]; cbn [integral_value]; try contradiction. intros [Hi ->] Hz.
  unfold num_str. assert (f2i64 (FFin m e) = ftrunc m e) as ->.
  { unfold f2i64, in_i64. replace (- two63 <=? ftrunc m e) with true by lia.
    replace (ftrunc m e <? two63) with true by lia. reflexivity. }
  rewrite (feq_integral m e Hi). reflexivity.
Qed.

(* the decimal text denotes z *)
Theorem dec_value z :
  dec z = (if z <? 0 then [45] else []) ++ to_digits 10 (Z.abs z) false /\
  digits_value 10 (to_digits 10 (Z.abs z) false) = Z.abs z.
Proof.
  split; [|apply to_digits_value; lia]. unfold dec. destruct (z <? 0) eqn:E.
  - apply Z.ltb_lt in E. rewrite digits_of_to_digits by lia. rewrite Z.abs_neq by lia. reflexivity.
  - apply Z.ltb_ge in E. rewrite digits_of_to_digits by lia. rewrite Z.abs_eq by lia. reflexivity.
Qed.

(* a finite number that is not an integer goes through OFMT (ffmt) *)
Theorem num_str_fraction ffmt m e : is_integral m e = false -> num_str ffmt (FFin m e) = ffmt (FFin m e).
Proof.
  intros H. unfold num_str. assert (feq (FFin m e) (fnum_of_Z (f2i64 (FFin m e))) = false) as ->; [|reflexivity].
  generalize (f2i64 (FFin m e)). intros t. unfold feq, fnum_of_Z, fin_cmp, is_integral in *.
  destruct (0 <=? e) eqn:E; [discriminate|]. apply Z.leb_gt in E. apply Z.eqb_neq in H.
  rewrite Z.min_l by lia. rewrite Z.sub_diag, Z.pow_0_r, Z.mul_1_r. replace (0 - e) with (- e) by lia.
  destruct (m ?= t * 2 ^ (- e)) eqn:C; try reflexivity. apply Z.compare_eq in C. exfalso. apply H.
  rewrite C. apply Z.rem_mul. pose proof (Z.pow_pos_nonneg 2 (- e) ltac:(lia) ltac:(lia)). lia.
Qed.

(* non-finite numbers have fixed spellings *)
Lemma num_str_nonfinite ffmt :
  num_str ffmt FNaN = Ok s_nan /\ num_str ffmt (FInf false) = Ok s_inf /\ num_str ffmt (FInf true) = Ok s_minf.
Proof. repeat split; reflexivity. Qed.
