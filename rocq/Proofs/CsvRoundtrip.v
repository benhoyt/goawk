(* C08, CSV output.  Every row print hands to interp.writeCSV reaches the sink complete and in
   order, whatever stack of bufio.Writers lies between ([emit_rows_complete]); and the text
   csv.Writer.Write produces for a row is read back by csvSplitter.scan as that row, fields
   and $0, for every valid separator ([scan_written_row], [roundtrip_file]). *)
From Verif Require Import Lib.Base Lib.Utf8 Model.Csv Proofs.CsvBase Proofs.CsvFuel Proofs.CsvAccount.
From Coq Require Import ZifyBool.

(* nothing written is lost or reordered by a stack of bufio.Writers *)
Lemma d_total_write : forall d p, d_total (d_write d p) = d_total d ++ p.
Proof.
  induction d as [got | size buf under IH]; intros p; cbn [d_write d_total]; [reflexivity|].
  destruct (zlen p <=? size - zlen buf).
  { cbn [d_total]. rewrite app_assoc. reflexivity. }
  destruct (Z.eqb_spec (zlen buf) 0) as [E|E].
  { apply zlen_0_nil in E. subst buf. cbn [d_total]. rewrite IH, !app_nil_r. reflexivity. }
  destruct (zlen (zdrop (size - zlen buf) p) <=? size); cbn [d_total]; rewrite IH.
  - rewrite <- !app_assoc. rewrite ztake_zdrop. reflexivity.
  - rewrite app_nil_r, <- app_assoc. reflexivity.
Qed.

Lemma d_depth_write : forall d p, d_depth (d_write d p) = d_depth d.
Proof.
  induction d as [got | size buf under IH]; intros p; cbn [d_write d_depth]; [reflexivity|].
  destruct (zlen p <=? size - zlen buf); [reflexivity|].
  destruct (zlen buf =? 0); [cbn [d_depth]; rewrite IH; reflexivity|].
  destruct (zlen (zdrop (size - zlen buf) p) <=? size); cbn [d_depth]; rewrite IH; reflexivity.
Qed.

Lemma d_write_buf size buf under p : exists buf' under',
  d_write (DBuf size buf under) p = DBuf size buf' under'.
Proof.
  cbn [d_write]. destruct (zlen p <=? size - zlen buf); [eauto|].
  destruct (zlen buf =? 0); [eauto|].
  destruct (zlen (zdrop (size - zlen buf) p) <=? size); eauto.
Qed.

Lemma delivered_close_f : forall n d, d_depth d = n -> delivered (d_close_f n d) = d_total d.
Proof.
  induction n as [|n IH]; intros d Hd; destruct d as [got | size buf under]; try discriminate; try reflexivity.
  cbn [d_close_f delivered d_total]. cbn [d_depth] in Hd. injection Hd as Hd.
  rewrite IH by (rewrite d_depth_write; exact Hd). apply d_total_write.
Qed.

Theorem delivered_close d : delivered (d_close d) = d_total d.
Proof. apply delivered_close_f. reflexivity. Qed.

Lemma wrap_write_total d row : d_total (wrap_write d row) = d_total d ++ row.
Proof.
  unfold wrap_write.
  destruct (d_write_buf csv_buf_size [] d row) as (buf' & under' & E).
  pose proof (d_total_write (DBuf csv_buf_size [] d) row) as Ht. rewrite E in *.
  cbn [d_flush d_total] in *. rewrite d_total_write, Ht, app_nil_r. reflexivity.
Qed.

Lemma write_csv_to_total sep crlf o fs :
  d_total (o_d (write_csv_to sep crlf o fs)) = d_total (o_d o) ++ write_record sep crlf fs.
Proof.
  unfold write_csv_to. destruct (direct o); cbn [o_d]; [apply d_total_write | apply wrap_write_total].
Qed.

Lemma write_rows_to_total sep crlf : forall rows o,
  d_total (o_d (write_rows_to sep crlf o rows)) = d_total (o_d o) ++ write_csv sep crlf rows.
Proof.
  unfold write_rows_to. induction rows as [|fs rows IH]; intros o; cbn [fold_left write_csv flat_map].
  - rewrite app_nil_r. reflexivity.
  - rewrite IH, write_csv_to_total, <- app_assoc. reflexivity.
Qed.

(* after the run, EVERY destination holds what it held (or had buffered) before, followed by
   the text of every row printed to it, complete and in order *)
Theorem emit_rows_complete sep crlf o rows :
  emit_rows sep crlf o rows = d_total (o_d o) ++ write_csv sep crlf rows.
Proof. unfold emit_rows. rewrite delivered_close. apply write_rows_to_total. Qed.

(* the first line of a stream (with its newline if it has one) and what follows *)
Definition fl (X : bytes) : bytes * bytes :=
  match cut_nl X with Some (l, d) => (l, d) | None => (X, []) end.
Definition fl1 X := fst (fl X).
Definition fl2 X := snd (fl X).

Lemma fl_nl X : fl (10 :: X) = ([10], X).
Proof. reflexivity. Qed.

Lemma fl_app u X : nob 10 u -> fl (u ++ X) = (u ++ fl1 X, fl2 X).
Proof.
  intros H. unfold fl1, fl2, fl. rewrite cut_nl_app by assumption.
  destruct (cut_nl X) as [[l d]|]; reflexivity.
Qed.

Lemma fl1_app u X : nob 10 u -> fl1 (u ++ X) = u ++ fl1 X.
Proof. intros H. unfold fl1 at 1. rewrite fl_app by assumption. reflexivity. Qed.
Lemma fl2_app u X : nob 10 u -> fl2 (u ++ X) = fl2 X.
Proof. intros H. unfold fl2 at 1. rewrite fl_app by assumption. reflexivity. Qed.
Lemma fl1_cons x X : x <> 10 -> fl1 (x :: X) = x :: fl1 X.
Proof. intros H. apply (fl1_app [x]). repeat constructor. exact H. Qed.
Lemma fl2_cons x X : x <> 10 -> fl2 (x :: X) = fl2 X.
Proof. intros H. apply (fl2_app [x]). repeat constructor. exact H. Qed.

Lemma fl_join X : fl1 X ++ fl2 X = X.
Proof.
  unfold fl1, fl2, fl. destruct (cut_nl X) as [[l d]|] eqn:E; cbn [fst snd].
  - destruct (cut_nl_some_inv _ _ _ E) as (u & _ & _ & ->). reflexivity.
  - apply app_nil_r.
Qed.

Lemma fl1_le X : zlen (fl1 X) <= zlen X.
Proof. rewrite <- (fl_join X) at 2. rewrite zlen_app. pose proof (zlen_nonneg (fl2 X)). lia. Qed.

Lemma fl_split W X : W ++ X = (W ++ fl1 X) ++ fl2 X.
Proof. rewrite <- app_assoc, fl_join. reflexivity. Qed.

Lemma ztake_fl W X : ztake (zlen W + zlen (fl1 X)) (W ++ X) = W ++ fl1 X.
Proof. rewrite <- zlen_app, (fl_split W X). apply ztake_zlen_app. Qed.

Lemma zdrop_fl W X : zdrop (zlen W + zlen (fl1 X)) (W ++ X) = fl2 X.
Proof. rewrite <- zlen_app, (fl_split W X). apply zdrop_zlen_app. Qed.

Lemma fl1_nonempty X : X <> [] -> fl1 X <> [].
Proof.
  intros H. unfold fl1, fl. destruct (cut_nl X) as [[l d]|] eqn:E; cbn [fst]; [|exact H].
  destruct (cut_nl_some_inv _ _ _ E) as (u & -> & _ & _). destruct u; discriminate.
Qed.

Lemma has_sub_single b f : nob b f -> has_sub [b] f = false.
Proof.
  induction f as [|x f IH]; intros H; [reflexivity|]. apply nob_cons in H as [Hx Hf].
  rewrite has_sub_cons, IH by assumption. cbn [prefix_of].
  destruct (Z.eqb_spec b x); [congruence|reflexivity].
Qed.

Lemma no_special sep f : existsb (is_special sep) f = false ->
  nob 10 f /\ nob 13 f /\ nob 34 f /\ nob sep f.
Proof.
  induction f as [|x f IH]; intros H; [repeat split; apply nob_nil|].
  cbn [existsb] in H. apply orb_false_iff in H as [Hx H].
  destruct (IH H) as (H10 & H13 & H34 & Hs). unfold is_special in Hx.
  repeat split; apply nob_cons; split; try assumption; lia.
Qed.

Lemma unq_facts sep f : valid_sep sep -> field_needs_quotes sep f = false ->
  nob 10 f /\ nob 13 f /\ nob 34 f /\ (forall T, tstart_ok T -> no_occ (encode_rune sep) f T).
Proof.
  intros Hv H. destruct f as [|x f'].
  { split; [|split; [|split]]; try apply nob_nil. intros; exact I. }
  unfold field_needs_quotes in H. set (f := x :: f') in *.
  destruct (bytes_eqb f [92; 46]); [discriminate|].
  destruct (Z.ltb_spec sep 128) as [Hlt|Hge].
  - apply orb_false_iff in H as [H _]. apply no_special in H as (H10 & H13 & H34 & Hs).
    split; [|split; [|split]]; try assumption. intros T HT.
    rewrite (enc_ascii sep Hv Hlt).
    apply no_occ_of_has_sub; [reflexivity | apply has_sub_single; exact Hs | exact HT].
  - apply orb_false_iff in H as [H _]. apply orb_false_iff in H as [Hsub H].
    apply no_special in H as (H10 & H13 & H34 & _).
    split; [|split; [|split]]; try assumption. intros T HT.
    destruct (enc_shape sep Hv) as (b0 & cs & He & _ & Hcs & _). rewrite He in *.
    apply no_occ_of_has_sub; assumption.
Qed.

Definition esc := flat_map (esc_byte false).

Lemma esc_cons x f : esc (x :: f) = esc_byte false x ++ esc f.
Proof. reflexivity. Qed.

Lemma esc_byte_other x : x <> 34 -> x <> 13 -> x <> 10 -> esc_byte false x = [x].
Proof.
  intros H1 H2 H3. unfold esc_byte. destruct (Z.eqb_spec x 34); [contradiction|].
  destruct (Z.eqb_spec x 13); [contradiction|]. destruct (Z.eqb_spec x 10); [contradiction|]. reflexivity.
Qed.

Lemma nob13_esc f : nob 13 f -> nob 13 (esc f).
Proof.
  induction f as [|x f IH]; intros H; [apply nob_nil|]. apply nob_cons in H as [Hx Hf].
  rewrite esc_cons. apply nob_app. split; [|auto]. unfold esc_byte.
  destruct (x =? 34); [repeat constructor; lia|].
  destruct (Z.eqb_spec x 13) as [|_]; [contradiction|].
  destruct (x =? 10) eqn:E10; repeat constructor; lia.
Qed.

Lemma starts_quote_app f X : nob 34 f -> starts_quote X = false -> starts_quote (f ++ X) = false.
Proof.
  destruct f as [|x f]; intros Hf HX; [exact HX|]. apply nob_cons in Hf as [Hx _]. cbn. lia.
Qed.

Lemma lone_empty_cases (fs : list bytes) : fs = [[]] \/ fs <> [[]].
Proof. destruct fs as [|[|x f] [|g fs]]; (left; reflexivity) || (right; discriminate). Qed.

Section RoundTrip.
Variable c : csv_cfg.
Variable e : bool.                       (* atEOF of the call *)
Hypothesis Hsep : valid_sep (c_sep c).

Lemma sep_shape : exists b0 cs, sep_bytes c = b0 :: cs /\ is_cont b0 = false /\ forallb is_cont cs = true /\
  b0 <> 10 /\ b0 <> 13 /\ b0 <> 34.
Proof. exact (enc_shape _ Hsep). Qed.

Lemma nob_sepb b : b < 128 -> b <> c_sep c -> nob b (sep_bytes c).
Proof. apply nob_enc. exact Hsep. Qed.

Lemma next_rune_sepb X : next_rune (sep_bytes c ++ X) = c_sep c.
Proof. apply decode_encode. exact Hsep. Qed.

Lemma tstart_sepb X : tstart_ok (sep_bytes c ++ X).
Proof. destruct sep_shape as (b0 & cs & -> & H & _). exact H. Qed.

Lemma starts_quote_sepb X : starts_quote (sep_bytes c ++ X) = false.
Proof. destruct sep_shape as (b0 & cs & -> & _ & _ & _ & _ & H). cbn. lia. Qed.

Lemma sep_ne : c_sep c <> 10 /\ c_sep c <> 13 /\ c_sep c <> 34 /\ c_sep c <> 65533.
Proof. pose proof Hsep as Hv. apply valid_sep_iff in Hv. lia. Qed.

Definition encs (fs : list bytes) : bytes := join_enc (c_sep c) false fs.

Lemma enc_field_unfold f :
  enc_field (c_sep c) false f = if field_needs_quotes (c_sep c) f then 34 :: esc f ++ [34] else f.
Proof. reflexivity. Qed.

Lemma encs_cons2 f g fs : encs (f :: g :: fs) = enc_field (c_sep c) false f ++ sep_bytes c ++ encs (g :: fs).
Proof. reflexivity. Qed.

Lemma nob13_enc f : nob 13 f -> nob 13 (enc_field (c_sep c) false f).
Proof.
  intros H. rewrite enc_field_unfold. destruct (field_needs_quotes (c_sep c) f); [|exact H].
  apply nob_cons. split; [lia|]. apply nob_app. split; [apply nob13_esc; exact H|].
  apply nob_cons. split; [lia | apply nob_nil].
Qed.

Lemma nob13_encs fs : Forall (nob 13) fs -> nob 13 (encs fs).
Proof.
  induction fs as [|f fs IH]; intros H; [apply nob_nil|]. inversion H as [|? ? Hf Hfs]; subst.
  destruct fs as [|g fs]; [apply nob13_enc; exact Hf|]. rewrite encs_cons2.
  destruct sep_ne as (_ & S13 & _).
  apply nob_app. split; [apply nob13_enc; exact Hf|]. apply nob_app. split; [apply nob_sepb; lia | auto].
Qed.

Lemma encs_head fs : fs <> [] -> fs <> [[]] -> exists x r, encs fs = x :: r /\ x <> 10 /\ x <> 13.
Proof.
  intros Hne Hne1. destruct fs as [|f fs]; [congruence|].
  assert (E : exists rest, encs (f :: fs) = enc_field (c_sep c) false f ++ rest /\
                           (fs <> [] -> exists X, rest = sep_bytes c ++ X)).
  { destruct fs as [|g fs].
    - exists []. split; [symmetry; apply app_nil_r | congruence].
    - exists (sep_bytes c ++ encs (g :: fs)). split; [apply encs_cons2 | eauto]. }
  destruct E as (rest & -> & Hrest). rewrite enc_field_unfold.
  destruct (field_needs_quotes (c_sep c) f) eqn:Q.
  - eexists _, _. split; [reflexivity | lia].
  - destruct (unq_facts _ _ Hsep Q) as (H10 & H13 & _). destruct f as [|y f'].
    + (* an empty first field: the row goes on with a separator *)
      destruct Hrest as [X ->]; [intros ->; congruence|].
      destruct sep_shape as (b0 & cs & -> & _ & _ & B10 & B13 & _). eexists _, _. split; [reflexivity | auto].
    + apply nob_cons in H10 as [? _]. apply nob_cons in H13 as [? _]. eexists _, _.
      split; [reflexivity | auto].
Qed.

Lemma last_is_encs fs : last_is 10 (encs fs) = false.
Proof.
  destruct sep_ne as (S10 & _).
  assert (Henc : forall f, last_is 10 (enc_field (c_sep c) false f) = false).
  { intros f. rewrite enc_field_unfold. destruct (field_needs_quotes (c_sep c) f) eqn:Q.
    - replace (34 :: esc f ++ [34]) with ((34 :: esc f) ++ [34]) by reflexivity. rewrite last_is_snoc.
      reflexivity.
    - apply last_is_nob. apply (unq_facts _ _ Hsep Q). }
  induction fs as [|f fs IH]; [reflexivity|]. destruct fs as [|g fs]; [apply Henc|].
  rewrite encs_cons2. destruct (encs (g :: fs)) eqn:E.
  - rewrite app_nil_r. rewrite last_is_app; [apply last_is_nob, nob_sepb; lia|].
    destruct sep_shape as (b0 & cs & -> & _). discriminate.
  - rewrite app_assoc. rewrite last_is_app by discriminate. exact IH.
Qed.

(* the text interp.writeCSV produces for a row (without the newline) *)
Definition rtext (fs : list bytes) : bytes := row_text (c_sep c) false fs.

Lemma rtext_encs fs : fs <> [[]] -> rtext fs = encs fs.
Proof.
  intros H. unfold rtext, row_text. destruct fs as [|[|x f] [|g fs]]; try reflexivity. congruence.
Qed.

Lemma nob13_rtext fs : Forall (nob 13) fs -> nob 13 (rtext fs).
Proof.
  intros H. destruct (lone_empty_cases fs) as [-> | Hne1].
  - repeat constructor; lia.
  - rewrite rtext_encs by exact Hne1. apply nob13_encs. exact H.
Qed.

(* what follows the written row in the data handed to the splitter: its newline and any
   further data, or nothing at all when the call is made at EOF (rebuilt $0) *)
Variable T : bytes.
Hypothesis HT : (exists rest, T = 10 :: rest) \/ (T = [] /\ e = true).

(* With [X] the text not yet read, the parser's current line and remaining data are [fl1 X]
   and [fl2 X].  Each lemma below lets [pf] or [pq] consume what the writer put in front of
   [X] and go on from [X] with the field added, so that they chain along a row. *)

Lemma rl_stream u : nob 13 u ->
  read_line (u ++ T) e = Some (fl1 (u ++ T), fl2 (u ++ T), 0).
Proof.
  intros Hu. unfold read_line, fl1, fl2, fl.
  destruct (cut_nl (u ++ T)) as [[l d]|] eqn:E; [reflexivity|].
  destruct HT as [[rest ->] | [-> ->]].
  - apply cut_nl_none_inv in E. apply nob_app in E as [_ E]. apply nob_cons in E as [E _]. congruence.
  - rewrite app_nil_r in *. rewrite last_is_nob by assumption. reflexivity.
Qed.

Lemma tstart_T : tstart_ok T.
Proof. destruct HT as [[rest ->] | [-> _]]; cbn; reflexivity. Qed.

Lemma tl_cases : fl1 T = [10] \/ fl1 T = [].
Proof. destruct HT as [[rest ->] | [-> _]]; [left | right]; reflexivity. Qed.

Lemma strip_tail u : nob 13 u -> last_is 10 u = false ->
  ztake (zlen (u ++ fl1 T) - len_newline (u ++ fl1 T)) (u ++ fl1 T) = u.
Proof.
  intros H13 Hl. destruct tl_cases as [-> | ->].
  - rewrite len_newline_lf by exact H13. apply ztake_snoc.
  - rewrite app_nil_r, len_newline_last by exact Hl. rewrite Z.sub_0_r. apply ztake_all. lia.
Qed.

Lemma pq_plain x line data adv cur done cr : x <> 34 -> x <> 13 -> line <> [] ->
  pq c e (x :: line) data adv cur done cr = pq c e line data (adv + 1) (cur ++ [x]) done cr.
Proof.
  intros H34 H13 Hne. rewrite (pq_unfold c e (x :: line)), (pq_unfold c e line).
  cbn [cut_byte]. destruct (Z.eqb_spec x 34) as [|_]; [contradiction|].
  destruct (cut_byte 34 line) as [[pre line1]|] eqn:E.
  - cbv zeta. rewrite <- !app_assoc. cbn [app].
    replace (adv + zlen (x :: pre) + 1) with (adv + 1 + zlen pre + 1) by (rewrite zlen_cons; lia).
    reflexivity.
  - destruct line as [|y line]; [congruence|]. cbv zeta.
    assert (Hnl : (len_newline (x :: y :: line) =? 2) = (len_newline (y :: line) =? 2)).
    { destruct line as [|z line].
      - cbn. destruct (y =? 10); [|reflexivity].
        destruct (Z.eqb_spec x 13) as [|_]; [contradiction|reflexivity].
      - rewrite len_newline_cons; [reflexivity|]. zl. pose proof (zlen_nonneg line). lia. }
    rewrite Hnl.
    replace (adv + zlen (x :: y :: line)) with (adv + 1 + zlen (y :: line)) by (rewrite (zlen_cons x); lia).
    destruct (len_newline (y :: line) =? 2) eqn:E2.
    + pose proof (len_newline_range (y :: line)) as Hr.
      replace (zlen (x :: y :: line) - 2) with (1 + (zlen (y :: line) - 2)) by (rewrite (zlen_cons x); lia).
      rewrite ztake_succ_cons by lia. rewrite <- !app_assoc. reflexivity.
    + rewrite <- !app_assoc. reflexivity.
Qed.

Lemma pq_byte x u adv cur done cr : x <> 13 -> nob 13 u -> u <> [] ->
  pq c e (fl1 (esc_byte false x ++ u ++ T)) (fl2 (esc_byte false x ++ u ++ T)) adv cur done cr =
  pq c e (fl1 (u ++ T)) (fl2 (u ++ T)) (adv + zlen (esc_byte false x)) (cur ++ [x]) done cr.
Proof.
  intros Hx Hu Hne.
  destruct (Z.eqb_spec x 34) as [->|H34]; [|destruct (Z.eqb_spec x 10) as [->|H10]].
  - change (esc_byte false 34) with [34; 34]. cbn [app].
    rewrite fl1_cons, fl2_cons by lia. rewrite fl1_cons, fl2_cons by lia.
    rewrite pq_unfold. cbn [cut_byte]. rewrite Z.eqb_refl. cbv zeta.
    rewrite next_rune_ascii by lia. rewrite Z.eqb_refl, zdrop_1_cons, app_nil_r.
    f_equal. zl. lia.
  - (* the line ends inside the quotes: the parser reads the next one *)
    change (esc_byte false 10) with [10]. cbn [app]. unfold fl1 at 1, fl2 at 1.
    rewrite fl_nl. cbn [fst snd].
    rewrite pq_unfold. change (cut_byte 34 [10]) with (@None (bytes * bytes)). cbv zeta.
    change (len_newline [10] =? 2) with false. cbv iota.
    rewrite rl_stream by exact Hu. f_equal. zl. lia.
  - rewrite esc_byte_other by assumption. cbn [app]. rewrite fl1_cons, fl2_cons by assumption.
    rewrite pq_plain; try assumption; [reflexivity|].
    apply fl1_nonempty. destruct u; [congruence | discriminate].
Qed.

Lemma pq_content done cr : forall f, nob 13 f -> forall V cur adv, nob 13 V ->
  pq c e (fl1 (esc f ++ 34 :: V ++ T)) (fl2 (esc f ++ 34 :: V ++ T)) adv cur done cr =
  pq c e (fl1 (34 :: V ++ T)) (fl2 (34 :: V ++ T)) (adv + zlen (esc f)) (cur ++ f) done cr.
Proof.
  induction f as [|x f IH]; intros Hf V cur adv HV.
  - cbn [esc flat_map app]. rewrite zlen_nil, Z.add_0_r, app_nil_r. reflexivity.
  - apply nob_cons in Hf as [Hx Hf].
    assert (Hu : nob 13 (esc f ++ 34 :: V)).
    { apply nob_app. split; [apply nob13_esc; exact Hf|]. apply nob_cons. split; [lia | exact HV]. }
    rewrite esc_cons, <- app_assoc.
    replace (esc f ++ 34 :: V ++ T) with ((esc f ++ 34 :: V) ++ T) by (rewrite <- app_assoc; reflexivity).
    rewrite pq_byte; [|exact Hx|exact Hu|destruct (esc f); discriminate].
    rewrite <- app_assoc. cbn [app]. rewrite IH by assumption.
    f_equal; [zl; lia | rewrite <- app_assoc; reflexivity].
Qed.

Lemma pf_unq_more f V adv done cr : field_needs_quotes (c_sep c) f = false ->
  pf c e (fl1 (f ++ sep_bytes c ++ V ++ T)) (fl2 (f ++ sep_bytes c ++ V ++ T)) adv done cr =
  pf c e (fl1 (V ++ T)) (fl2 (V ++ T)) (adv + zlen f + zlen (sep_bytes c)) (done ++ [f]) cr.
Proof.
  intros Hq. destruct (unq_facts _ _ Hsep Hq) as (H10 & H13 & H34 & Hocc).
  destruct sep_ne as (S10 & S13 & S34 & _).
  rewrite fl1_app, fl2_app by assumption.
  rewrite fl1_app, fl2_app by (apply nob_sepb; lia).
  rewrite pf_unfold. rewrite starts_quote_app by (auto using starts_quote_sepb).
  rewrite cut_sub_found by (apply Hocc, tstart_sepb).
  rewrite (sep_len_zlen c Hsep). reflexivity.
Qed.

Lemma cut_sub_tl f : (forall X, tstart_ok X -> no_occ (sep_bytes c) f X) ->
  cut_sub (sep_bytes c) (f ++ fl1 T) = None.
Proof.
  intros Hocc. destruct sep_shape as (b0 & cs & Hs & _ & _ & B10 & _).
  destruct tl_cases as [-> | ->].
  - apply cut_sub_none; [apply Hocc; reflexivity|].
    rewrite Hs. apply cut_sub_short.
    + cbn [prefix_of]. destruct (Z.eqb_spec b0 10); [contradiction | reflexivity].
    + intros x t Ht. injection Ht as _ <-. reflexivity.
  - apply cut_sub_none; [apply Hocc; exact I|]. rewrite Hs. reflexivity.
Qed.

Lemma pf_unq_last f adv done cr : field_needs_quotes (c_sep c) f = false ->
  pf c e (fl1 (f ++ T)) (fl2 (f ++ T)) adv done cr = PDone (adv + zlen f + zlen (fl1 T)) (done ++ [f]) cr.
Proof.
  intros Hq. destruct (unq_facts _ _ Hsep Hq) as (H10 & H13 & H34 & Hocc).
  rewrite fl1_app, fl2_app by assumption. rewrite pf_unfold.
  rewrite starts_quote_app; [|assumption|destruct tl_cases as [-> | ->]; reflexivity].
  rewrite cut_sub_tl by exact Hocc.
  f_equal; [zl; lia|]. f_equal. f_equal.
  apply strip_tail; [assumption | apply last_is_nob; assumption].
Qed.

Lemma pf_q_more f V adv done cr : nob 13 f -> nob 13 V ->
  pf c e (fl1 (34 :: esc f ++ 34 :: sep_bytes c ++ V ++ T))
         (fl2 (34 :: esc f ++ 34 :: sep_bytes c ++ V ++ T)) adv done cr =
  pf c e (fl1 (V ++ T)) (fl2 (V ++ T)) (adv + (zlen (esc f) + 2) + zlen (sep_bytes c)) (done ++ [f]) cr.
Proof.
  intros Hf HV. destruct sep_ne as (S10 & S13 & S34 & _).
  assert (HV' : nob 13 (sep_bytes c ++ V)) by (apply nob_app; split; [apply nob_sepb; lia | exact HV]).
  rewrite fl1_cons, fl2_cons by lia.
  rewrite pf_unfold. cbn [starts_quote]. rewrite Z.eqb_refl, zdrop_1_cons.
  replace (esc f ++ 34 :: sep_bytes c ++ V ++ T) with (esc f ++ 34 :: (sep_bytes c ++ V) ++ T)
    by (rewrite <- app_assoc; reflexivity).
  rewrite (pq_content done cr f Hf (sep_bytes c ++ V) [] (adv + 1) HV').
  rewrite <- app_assoc. rewrite fl1_cons, fl2_cons by lia.
  rewrite fl1_app, fl2_app by (apply nob_sepb; lia).
  rewrite pq_unfold. cbn [cut_byte]. rewrite Z.eqb_refl. cbv zeta.
  rewrite next_rune_sepb. destruct (Z.eqb_spec (c_sep c) 34); [contradiction|].
  rewrite Z.eqb_refl. rewrite (sep_len_zlen c Hsep), zdrop_zlen_app. rewrite app_nil_r. cbn [app].
  f_equal. zl. lia.
Qed.

Lemma pf_q_last f adv done cr : nob 13 f ->
  pf c e (fl1 (34 :: esc f ++ 34 :: T)) (fl2 (34 :: esc f ++ 34 :: T)) adv done cr =
  PDone (adv + (zlen (esc f) + 2) + zlen (fl1 T)) (done ++ [f]) cr.
Proof.
  intros Hf. destruct sep_ne as (S10 & S13 & S34 & S65).
  rewrite fl1_cons, fl2_cons by lia.
  rewrite pf_unfold. cbn [starts_quote]. rewrite Z.eqb_refl, zdrop_1_cons.
  pose proof (pq_content done cr f Hf [] [] (adv + 1) (nob_nil 13)) as Hc. cbn [app] in Hc. rewrite Hc.
  rewrite fl1_cons, fl2_cons by lia.
  rewrite pq_unfold. cbn [cut_byte]. rewrite Z.eqb_refl. cbv zeta.
  assert (Hrn : (next_rune (fl1 T) =? 34) = false /\ (next_rune (fl1 T) =? c_sep c) = false /\
                (len_newline (fl1 T) =? zlen (fl1 T)) = true).
  { destruct tl_cases as [-> | ->].
    - rewrite next_rune_ascii by lia. repeat split; try lia; reflexivity.
    - unfold next_rune. cbn [decode_rune fst]. unfold rune_error. repeat split; try lia; reflexivity. }
  destruct Hrn as (-> & -> & ->). rewrite app_nil_r. f_equal. zl. lia.
Qed.

Lemma pf_fields : forall fs, fs <> [] -> Forall (nob 13) fs -> forall adv done cr,
  pf c e (fl1 (encs fs ++ T)) (fl2 (encs fs ++ T)) adv done cr =
  PDone (adv + zlen (encs fs) + zlen (fl1 T)) (done ++ fs) cr.
Proof.
  induction fs as [|f fs IH]; [congruence|]. intros _ Hcr adv done cr.
  inversion Hcr as [|? ? Hf Hfs]; subst. destruct fs as [|g fs].
  - unfold encs. cbn [join_enc]. rewrite enc_field_unfold.
    destruct (field_needs_quotes (c_sep c) f) eqn:Q.
    + cbn [app]. rewrite <- app_assoc. cbn [app]. rewrite pf_q_last by exact Hf. f_equal. zl. lia.
    + apply pf_unq_last. exact Q.
  - rewrite encs_cons2. rewrite enc_field_unfold.
    assert (Hne : g :: fs <> []) by discriminate.
    destruct (field_needs_quotes (c_sep c) f) eqn:Q.
    + cbn [app]. rewrite <- !app_assoc. cbn [app].
      rewrite pf_q_more by (auto using nob13_encs). rewrite IH by assumption.
      f_equal; [zl; lia | rewrite <- app_assoc; reflexivity].
    + rewrite <- !app_assoc. rewrite pf_unq_more by exact Q. rewrite IH by assumption.
      f_equal; [zl; lia | rewrite <- app_assoc; reflexivity].
Qed.

Lemma scan_written_text W fs s stale nz :
  c_comment c = 0 -> c_header c = false -> 0 <= nz ->
  (exists x r, W = x :: r /\ x <> 10 /\ x <> 13) -> nob 13 W -> last_is 10 W = false ->
  pf c e (fl1 (W ++ T)) (fl2 (W ++ T)) 0 [] false = PDone (zlen W + zlen (fl1 T)) fs false ->
  (st_noBOM s = true \/ prefix_of bom (W ++ T) = false) ->
  scan c s (W ++ T) stale nz e =
    (mkSt true (st_row s + 1), ORecord (zlen W + zlen (fl1 T)) W fs).
Proof.
  intros Hcom Hhdr Hnz (x & r & Hx & X10 & X13) H13 Hlast Hpf Hbom.
  assert (Hib : isbom s (W ++ T) = false).
  { unfold isbom. destruct Hbom as [-> | ->]; [reflexivity | apply andb_false_r]. }
  clear Hbom.
  (* scan's first loop keeps the first line: it is neither blank nor a comment *)
  assert (Hl : fl1 (W ++ T) = x :: fl1 (r ++ T)) by (rewrite Hx; apply fl1_cons; exact X10).
  destruct (kept_line x (fl1 (r ++ T)) X10 X13) as [K0 K1]. rewrite <- Hl in K0, K1.
  assert (Sk : skip_lines c e 1 (W ++ T) 0 0 = SkLine (fl1 (W ++ T)) (fl2 (W ++ T)) 0 0).
  { rewrite skip_lines_S, rl_stream by exact H13. cbv zeta. rewrite K0, Hcom, K1. reflexivity. }
  unfold pf in Hpf.
  pose proof (scan_intro c s (W ++ T) stale nz e 1 (S (length (fl1 (W ++ T)) + length (fl2 (W ++ T))))) as E.
  unfold bdy, a0 in E. rewrite Hib in E.
  rewrite (E _ _ _ _ _ _ _) with (2 := Sk) (3 := Hpf); clear E.
  2:{ rewrite Hx. cbn [app]. rewrite (proj1 (kept_line x (r ++ T) X10 X13)). apply andb_false_r. }
  (* $0 is the line without its newline *)
  pose proof (zlen_nonneg W) as HW. pose proof (zlen_nonneg (fl1 T)) as HF. pose proof (fl1_le T) as HFT.
  rewrite scan_done_inside by (rewrite ?zlen_app; clear -HW HF HFT Hnz; lia).
  rewrite Hhdr, andb_false_r. cbn [app]. do 2 f_equal.
  rewrite zdrop_0, Z.sub_0_r, ztake_fl. exact (strip_tail W H13 Hlast).
Qed.

(* What writeCSV produced for the row [fs] is read as one record with exactly the fields
   [fs], and $0 is the written text. *)
Lemma scan_written_row fs s stale nz :
  c_comment c = 0 -> c_header c = false -> 0 <= nz ->
  fs <> [] -> Forall (nob 13) fs ->
  (st_noBOM s = true \/ prefix_of bom (rtext fs ++ T) = false) ->
  scan c s (rtext fs ++ T) stale nz e =
    (mkSt true (st_row s + 1), ORecord (zlen (rtext fs) + zlen (fl1 T)) (rtext fs) fs).
Proof.
  intros Hcom Hhdr Hnz Hne Hcr Hbom.
  destruct (lone_empty_cases fs) as [-> | Hne1].
  - (* a single empty field: written as two quotes *)
    change (rtext [[]]) with [34; 34] in *.
    apply scan_written_text; auto.
    + exists 34, [34]. repeat split; discriminate.
    + repeat constructor; discriminate.
    + exact (pf_q_last [] 0 [] false (nob_nil 13)).
  - rewrite rtext_encs in * by exact Hne1.
    apply scan_written_text; auto.
    + apply encs_head; assumption.
    + apply nob13_encs; assumption.
    + apply last_is_encs.
    + exact (pf_fields fs Hne Hcr 0 [] false).
Qed.

End RoundTrip.

(* Whole files.  [read_all]: the reader run over a complete input (every call sees all the
   remaining data and atEOF = true); Proofs/CsvChunks.v shows that any delivery of the same
   bytes in pieces yields the same records. *)

Definition row_ok (fs : list bytes) : Prop := fs <> [] /\ Forall (nob 13) fs.

Lemma join_fields_text sep fs : valid_sep sep -> Forall (nob 13) fs ->
  join_fields sep false fs = row_text sep false fs.
Proof.
  intros Hv Hcr. unfold join_fields, write_record.
  pose proof (nob13_rtext (mkCfg sep 0 false) Hv fs Hcr) as H13.
  unfold rtext in H13. cbn [c_sep] in H13.
  rewrite len_newline_lf by exact H13. apply ztake_snoc.
Qed.

Lemma write_csv_cons sep crlf fs rows :
  write_csv sep crlf (fs :: rows) = write_record sep crlf fs ++ write_csv sep crlf rows.
Proof. reflexivity. Qed.

Lemma read_all_written c : valid_sep (c_sep c) -> c_comment c = 0 -> c_header c = false ->
  forall rows, Forall row_ok rows -> forall fuel s,
  (length (write_csv (c_sep c) false rows) < fuel)%nat ->
  (st_noBOM s = true \/ prefix_of bom (write_csv (c_sep c) false rows) = false) ->
  read_all fuel c s (write_csv (c_sep c) false rows) =
  map (fun fs => ERecord (join_fields (c_sep c) false fs) fs) rows.
Proof.
  intros Hv Hcom Hhdr. induction rows as [|fs rows IH]; intros Hok fuel s Hfuel Hbom.
  - destruct fuel as [|fuel]; [reflexivity|]. cbn [write_csv flat_map map read_all].
    unfold scan. cbn [prefix_of bom]. rewrite andb_false_r. reflexivity.
  - inversion Hok as [|? ? (Hne & Hcr) Hok']; subst.
    destruct fuel as [|fuel]; [lia|]. rewrite write_csv_cons in *. cbn [map read_all].
    unfold write_record. rewrite <- !app_assoc. cbn [app].
    change (row_text (c_sep c) false fs) with (rtext c fs).
    rewrite (scan_written_row c true Hv (10 :: write_csv (c_sep c) false rows)
               ltac:(left; eauto) fs s [] 0 Hcom Hhdr ltac:(lia) Hne Hcr).
    2:{ destruct Hbom as [Hb | Hb]; [left; exact Hb | right].
        unfold write_record in Hb. rewrite <- app_assoc in Hb. exact Hb. }
    cbv beta iota.
    unfold rtext. rewrite join_fields_text by assumption. f_equal.
    rewrite zdrop_fl. unfold fl2. rewrite fl_nl. cbn [snd]. apply IH; [exact Hok' | | left; reflexivity].
    unfold write_record in Hfuel. rewrite !app_length in Hfuel. cbn [length] in Hfuel. lia.
Qed.

(* print in CSV/TSV output mode, then read the bytes in CSV/TSV input mode with the same
   separator: the same rows come back, and $0 of each is the text that was written *)
Theorem roundtrip_file c rows :
  valid_sep (c_sep c) -> c_comment c = 0 -> c_header c = false -> Forall row_ok rows ->
  prefix_of bom (write_csv (c_sep c) false rows) = false ->
  read_file c (write_csv (c_sep c) false rows) =
  map (fun fs => ERecord (join_fields (c_sep c) false fs) fs) rows.
Proof.
  intros Hv Hcom Hhdr Hok Hbom. unfold read_file. apply read_all_written; auto.
Qed.

(* $0 rebuilt by joinFields (no newline), parsed again by ensureFields at EOF *)
Theorem roundtrip_rebuilt c s fs stale nz :
  valid_sep (c_sep c) -> c_comment c = 0 -> c_header c = false -> 0 <= nz -> row_ok fs ->
  (st_noBOM s = true \/ prefix_of bom (join_fields (c_sep c) false fs) = false) ->
  scan c s (join_fields (c_sep c) false fs) stale nz true =
    (mkSt true (st_row s + 1),
     ORecord (zlen (join_fields (c_sep c) false fs)) (join_fields (c_sep c) false fs) fs).
Proof.
  intros Hv Hcom Hhdr Hnz (Hne & Hcr) Hbom. rewrite join_fields_text in * by assumption.
  pose proof (scan_written_row c true Hv [] ltac:(right; split; reflexivity) fs s stale nz
                Hcom Hhdr Hnz Hne Hcr) as H.
  unfold rtext in H. rewrite app_nil_r in H. rewrite H by exact Hbom.
  f_equal. f_equal. unfold fl1. cbn. lia.
Qed.
