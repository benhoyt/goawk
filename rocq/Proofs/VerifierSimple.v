(* C02: every straight-line instruction whose static stack effect is (pops, pushes) leaves the
   stack exactly pops-pushes deeper, keeps the frame length and the call depth, and is never
   stuck when at least [pops] values are available. *)
From Coq Require Import ZifyBool.
From Verif Require Import Lib.Base Model.Ast Model.Instr Model.Compiler Model.Prims Model.VM
  Model.Verifier Proofs.CodeAt Proofs.VerifierBase Gen.Consts.

Section Simple.
  Variables value St err : Type.
  Variable P : prims value St err.
  Hypothesis Hshape : prims_shape P.

  Notation mstate := (mstate value St).

  Ltac fnext_inv H :=
    match type of H with
    | fnext_if ?b _ _ = FNext _ _ =>
        unfold fnext_if in H; destruct b eqn:?; [|discriminate H]
    | (if ?b then _ else _) = FNext _ _ => destruct b; discriminate H
    | _ => idtac
    end; injection H as <- <-.

  Ltac fin :=
    cbn [sres_ok with_ms frame depth ms]; rewrite ?zlen_cons, ?zlen_app, ?zlen_nil;
    split; [lia|split; [assumption || lia|reflexivity || lia]].

  Ltac wr c := eapply lift_w_ok; [rewrite ?zlen_cons; lia|
    eapply var_write_ok with (cx := c); [cbn [var_ok]; try reflexivity; assumption|cbn [with_ms frame]; assumption|reflexivity]].

  Ltac go cx :=
    cbv beta iota;
    lazymatch goal with
    | |- sres_ok _ _ _ (SOk _ _) => fin
    | |- sres_ok _ _ _ (SErr _ _) => exact I
    | |- sres_ok _ _ _ (lift_w _ _) => wr cx
    | |- sres_ok _ _ _ (lift_unit _ _ _) =>
        apply lift_unit_ok; cbn [with_ms frame depth]; rewrite ?zlen_cons; first [lia|assumption|reflexivity]
    | |- sres_ok _ _ _ (lift_val _ _ _) =>
        apply lift_val_ok; cbn [with_ms frame depth]; rewrite ?zlen_cons; first [lia|assumption|reflexivity]
    | |- sres_ok _ _ _ (match ?x with [] => _ | _ :: _ => _ end) =>
        is_var x; destruct x as [|? x]; [exfalso; rewrite ?zlen_cons, ?zlen_nil in *; lia|rewrite ?zlen_cons in *]; go cx
    | |- sres_ok _ _ _ (match ?e with _ => _ end) => destruct e eqn:?; go cx
    end.

  Lemma exec_simple_ok cx i po pu stk (m : mstate) :
    flow_of cx i = FNext po pu ->
    po <= zlen stk -> zlen (frame m) = cx_nlocals cx ->
    sres_ok (zlen stk - po + pu) (cx_nlocals cx) (depth m) (exec_simple P i stk m).
  Proof.
    intros Hf Hd Hm.
    destruct i; cbn [flow_of] in Hf; try discriminate Hf; fnext_inv Hf; cbn [exec_simple].
    all: try match goal with H : local_ok_idx _ ?i = true |- _ =>
           let v := fresh "fv" in let Ev := fresh "Ev" in
           assert (Hr : 0 <= i < zlen (frame m)) by (unfold local_ok_idx in H; lia);
           destruct (frame_get_ok _ _ m i Hr) as [v Ev]; try rewrite Ev end.
    all: try solve [go cx].
    all: try match goal with |- context [pop_n (Z.to_nat ?n) ?stk []] =>
           let vs := fresh "vs" in let t := fresh "t" in let Ep := fresh "Ep" in
           let Lt := fresh "Lt" in let Lv := fresh "Lv" in
           destruct (pop_n_z _ n stk ltac:(lia) ltac:(pose proof (zlen_nonneg stk); try match goal with r : redir |- _ => destruct r end; cbn [redir_pops] in *; lia))
             as (vs & t & Ep & Lt & Lv); rewrite Ep end.
    all: try solve [go cx].
    all: try match goal with |- context [do_getline P ?m ?r ?stk] =>
           let t := fresh "t" in let res := fresh "res" in let Eg := fresh "Eg" in let Lt := fresh "Lt" in
           destruct (do_getline_ok _ _ _ P m r stk ltac:(lia)) as (t & res & Eg & Lt); rewrite Eg; solve [go cx] end.
    - (* CallBuiltin *)
      destruct Hshape as [Har Hres]. rewrite Har.
      destruct (pop_n_ok _ (builtin_arity b) stk [] Hd) as (vs & t & Ep & Lt & Lv). rewrite Ep.
      destruct (p_builtin P b (ms m) vs) as [s [rs|e]] eqn:Eb; cbv beta iota; [|exact I].
      apply Hres in Eb.
      cbn [sres_ok with_ms frame depth]. rewrite zlen_app. unfold zlen at 1. rewrite rev_length, Eb.
      split; [lia|split; [assumption|reflexivity]].
    - (* Nulls *)
      cbn [sres_ok]. rewrite zlen_app. unfold zlen at 1. rewrite repeat_length.
      split; [lia|split; [assumption|reflexivity]].
    - (* Print *)
      destruct r; cbn [redir_pops] in *; go cx.
    - (* Printf *)
      destruct r; cbn [redir_pops] in *; go cx.
  Qed.
End Simple.
