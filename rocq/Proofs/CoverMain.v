(* C18: the theorems about a whole annotated program: transparency, exact
   counts (count mode), set mode; and three small programs ({ }, { { } }, END { { } }) on which
   the plain and the annotated run are evaluated. *)
From Verif Require Import Lib.Base Model.Cover Proofs.CoverBase Proofs.CoverStruct Proofs.CoverSim.

Section Bridge.
Context {E : Type}.
Variable files : ftable.
Variable mode : cmode.
Variable okp : option Z -> pos -> Prop.

Lemma lists_bridge (ls' ls : list (list (cstmt E))) :
  Forall2 (list_rel mode) ls' ls -> Forall (okt okp) (concat (map tagged ls')) ->
  Forall2 (lrel E mode okp) ls' ls.
Proof.
  induction 1 as [|l' l t' t (R1 & R2 & _) _ IH]; cbn [map concat]; intros Hok; [constructor|].
  apply Forall_app in Hok as [Hl Ht]. constructor; [|apply IH; exact Ht].
  split; [exact R1|]. split; [exact R2|exact Hl].
Qed.

Lemma actions_bridge (la' la : list (action E)) :
  Forall2 (action_rel mode) la' la ->
  Forall (okt okp) (concat (map (fun a => tagged_body (a_body a)) la')) ->
  Forall2 (arel E mode okp) la' la.
Proof.
  induction 1 as [|a' a t' t [Hp Hb] _ IH]; cbn [map concat]; intros Hok; [constructor|].
  apply Forall_app in Hok as [Hl Ht]. constructor; [|apply IH; exact Ht].
  split; [exact Hp|]. unfold body_rel in Hb. unfold body_prel.
  destruct (a_body a) as [l|], (a_body a') as [l'|]; try contradiction; [|exact I].
  destruct Hb as (_ & He & Hs). split; [exact He|]. split; [exact Hs|exact Hl].
Qed.

Theorem bridge (P A : program E) (B : list block) :
  ann_ok files mode P A B -> Forall (okt okp) (tagged_prog A) ->
  prel E mode okp A P /\ Forall2 (lrel E mode okp) (p_funcs A) (p_funcs P).
Proof.
  intros [Hb Ha He Hf _ _ _] Hok. unfold tagged_prog in Hok.
  apply Forall_app in Hok as [Hok1 Hok]. apply Forall_app in Hok as [Hok2 Hok].
  apply Forall_app in Hok as [Hok3 Hok4].
  split; [constructor|].
  - apply lists_bridge; assumption.
  - apply actions_bridge; assumption.
  - apply lists_bridge; assumption.
  - destruct He; reflexivity.
  - apply lists_bridge; assumption.
Qed.

End Bridge.

Lemma marks_in (T : list (option Z * pos)) i p : In (i, p) (marks_of T) <-> In (Some i, p) T.
Proof.
  induction T as [|[[j|] q] T IH]; cbn [marks_of In].
  - tauto.
  - rewrite IH. split; intros [H|H]; auto; left; congruence.
  - rewrite IH. split; [intros H; right; exact H|intros [H|H]; [discriminate H|exact H]].
Qed.

Lemma pos_eqb_eq a b : pos_eqb a b = true <-> a = b.
Proof.
  destruct a as [l1 c1], b as [l2 c2]. unfold pos_eqb. cbn [pline pcol].
  rewrite andb_true_iff, !Z.eqb_eq. split; [intros [-> ->]; reflexivity|intros H; inversion H; auto].
Qed.

Lemma began_cons_same p tr : began p (p :: tr) = 1 + began p tr.
Proof. cbn [began]. destruct (pos_eqb p p) eqn:H; [reflexivity|]. exfalso. assert (pos_eqb p p = true) by (apply pos_eqb_eq; reflexivity). congruence. Qed.

Lemma began_cons_other p q tr : q <> p -> began p (q :: tr) = began p tr.
Proof. intros Hne. cbn [began]. destruct (pos_eqb q p) eqn:H; [apply pos_eqb_eq in H; contradiction|lia]. Qed.

Lemma began_nonneg p tr : 0 <= began p tr.
Proof. induction tr as [|q t IH]; cbn [began]; [lia|]. destruct (pos_eqb q p); lia. Qed.

Section Main.
Variables (E U K V I : Type).
Variable ev_start : E -> U -> estep U K V.
Variable ev_resume : K -> U -> V -> estep U K V.
Variable truthy : V -> bool.
Variable nil_v : V.
Variable forin_init : E -> U -> I.
Variable forin_next : E -> I -> U -> option (I * U).
Variable next_record : U -> nrec U V.
Variable print_record : U -> U * option V.
Variable skip_file : U -> U.
Variable files : ftable.

(* run of a whole program; calls refer to the program's own function table *)
Definition run (X : Type) (bump : cmode -> Z -> X -> X) (n : nat) (p : program E) (q : st U X) : st U X * outcome V :=
  exec_prog E U K V I X ev_start ev_resume truthy nil_v forin_init forin_next bump (p_funcs p)
    next_record print_record skip_file n p q.

(* the generic statement: an invariant between __COVER and the trace carried through the run
   of the annotated program, in lock step with the plain run of the original program *)
Lemma annotated_run (XA XB : Type) (bumpA : cmode -> Z -> XA -> XA) (bumpB : cmode -> Z -> XB -> XB)
  (mode : cmode) (J : XA -> list pos -> Prop) (JP : Z -> XA -> list pos -> Prop) (P : program E) :
  let A := fst (annotate files mode P) in
  let okp := fun t p => In (t, p) (tagged_prog A) in
  nocov_prog P = true ->
  (forall i x tr, J x tr -> JP i (bumpA mode i x) tr) ->
  (forall i p x tr, JP i x tr -> okp (Some i) p -> J x (p :: tr)) ->
  (forall p x tr, J x tr -> okp None p -> J x (p :: tr)) ->
  forall n u x xb tr, J x tr ->
  rrel U V XA XB J JP (run XA bumpA n A (mkst U XA u x tr)) (run XB bumpB n P (mkst U XB u xb tr)).
Proof.
  intros A okp Hn Hc Hh Hp n u x xb tr HJ.
  pose proof (annotate_ok files mode P Hn) as Hok. fold A in Hok.
  destruct (bridge files mode okp P A _ Hok) as [Hprel Hfun].
  { apply Forall_forall. intros [t p] Hx. exact Hx. }
  unfold run. eapply exec_prog_sim; try eassumption.
  split; [reflexivity|]. split; [reflexivity|exact HJ].
Qed.

Theorem transparent (XA XB : Type) (bumpA : cmode -> Z -> XA -> XA) (bumpB : cmode -> Z -> XB -> XB)
  (mode : cmode) (P : program E) :
  nocov_prog P = true ->
  forall n u x xb tr,
  let rA := run XA bumpA n (fst (annotate files mode P)) (mkst U XA u x tr) in
  let rP := run XB bumpB n P (mkst U XB u xb tr) in
  snd rA = snd rP
  /\ (snd rA <> OFuel V -> s_u _ _ (fst rA) = s_u _ _ (fst rP) /\ s_tr _ _ (fst rA) = s_tr _ _ (fst rP)).
Proof.
  intros Hn n u x xb tr.
  pose proof (annotated_run XA XB bumpA bumpB mode (fun _ _ => True) (fun _ _ _ => True) P Hn
                (fun _ _ _ _ => Logic.I) (fun _ _ _ _ _ _ => Logic.I) (fun _ _ _ _ _ => Logic.I) n u x xb tr Logic.I) as [H1 H2].
  cbn zeta. split; [exact H1|]. intros Hne. destruct (H2 Hne) as (Hu & Ht & _). split; assumption.
Qed.

Lemma cover_get_bump m k x i :
  cover_get (cover_bump m k x) i =
  if i =? k then (match m with MCount => cover_get x k + 1 | MSet => 1 end) else cover_get x i.
Proof. unfold cover_get, cover_bump. destruct (i =? k); reflexivity. Qed.

(* after a run with fuel to spare, every block of the table starts at a statement whose counter
   holds [F] of the number of times that statement began in the plain run *)
Definition counts_read (mode : cmode) (F : Z -> Z) (XB : Type) (bumpB : cmode -> Z -> XB -> XB) (P : program E) : Prop :=
  nocov_prog P = true -> NoDup (map snd (tagged_prog P)) ->
  let A := fst (annotate files mode P) in
  let B := snd (annotate files mode P) in
  forall n u xb,
  let rA := run cover_array cover_bump n A (mkst U cover_array u cover_empty []) in
  let rP := run XB bumpB n P (mkst U XB u xb []) in
  snd rA <> OFuel V ->
  forall i b, 1 <= i -> nth_error B (Z.to_nat (i - 1)) = Some b ->
  exists p, In (Some i, p) (tagged_prog A) /\ link files b p
            /\ cover_get (s_x _ _ (fst rA)) i = F (began p (s_tr _ _ (fst rP))).

(* Both counting modes at once: between a counter statement and the begin event of the
   statement it guards, __COVER[i] is [G] of that number. *)
Lemma exact_gen (mode : cmode) (F G : Z -> Z) (XB : Type) (bumpB : cmode -> Z -> XB -> XB) (P : program E) :
  (forall c, 0 <= c -> match mode with MCount => F c + 1 | MSet => 1 end = G c) ->
  (forall c, 0 <= c -> F (1 + c) = G c) ->
  F 0 = 0 ->
  counts_read mode F XB bumpB P.
Proof.
  intros Hbump Hbegin H0 Hn Hnd A B n u xb rA rP Hfuel i b Hi Hb.
  pose proof (annotate_ok files mode P Hn) as Hok. fold A B in Hok.
  destruct Hok as [_ _ _ _ [_ _ HndM Hall Hlink] _ Htags].
  set (T := tagged_prog A) in *.
  assert (HndT : NoDup (map snd T)) by (rewrite Htags; exact Hnd).
  set (J := fun (x : cover_array) (tr : list pos) => forall i p, In (Some i, p) T -> cover_get x i = F (began p tr)).
  set (JP := fun (k : Z) (x : cover_array) (tr : list pos) =>
               forall i p, In (Some i, p) T -> cover_get x i = if i =? k then G (began p tr) else F (began p tr)).
  assert (Hsim : rrel U V cover_array XB J JP rA rP).
  { apply (annotated_run cover_array XB cover_bump bumpB mode J JP P Hn).
    - intros k x tr HJ j p Hin. rewrite cover_get_bump. destruct (j =? k) eqn:Hjk; [|apply HJ; exact Hin].
      apply Z.eqb_eq in Hjk. subst j. rewrite (HJ k p Hin). apply Hbump. apply began_nonneg.
    - intros k p x tr HJP Hk j q Hin. fold A T in Hk. rewrite (HJP j q Hin). destruct (j =? k) eqn:Hjk.
      + (* the same counter: by NoDup of the counter indices it guards the same statement *)
        apply Z.eqb_eq in Hjk. subst j.
        assert (Hqp : (k, q) = (k, p)).
        { apply (NoDup_map_inj fst (marks_of T)); [exact HndM|apply marks_in; exact Hin|apply marks_in; exact Hk|reflexivity]. }
        injection Hqp as ->. rewrite began_cons_same. symmetry. apply Hbegin. apply began_nonneg.
      + (* another counter guards another statement, by NoDup of the start positions *)
        rewrite began_cons_other; [reflexivity|]. intros <-.
        assert (Hkj : (Some k, p) = (Some j, p)) by (apply (NoDup_map_inj snd T); auto).
        apply Z.eqb_neq in Hjk. congruence.
    - intros p x tr HJ Hk j q Hin. fold A T in Hk. rewrite (HJ j q Hin).
      rewrite began_cons_other; [reflexivity|]. intros <-.
      assert (Hkj : (None, p) = (Some j, p)) by (apply (NoDup_map_inj snd T); auto).
      discriminate Hkj.
    - intros j p _. symmetry. exact H0. }
  destruct Hsim as [_ Hst]. destruct (Hst Hfuel) as (_ & Htr & HJ).
  (* block i exists, so i is the index of a counter; the block is linked to the statement it guards *)
  pose proof (nth_error_z_le B i b Hi Hb) as Hlt.
  assert (Hin : In i (map fst (marks_of T))) by (apply Hall; rewrite zlen_nil; lia).
  apply in_map_iff in Hin as ([i' p] & Hi' & Hin). cbn in Hi'. subst i'.
  destruct (Hlink i p Hin) as (_ & b' & Hb' & Hl). apply marks_in in Hin.
  exists p. split; [exact Hin|]. split; [congruence|]. rewrite <- Htr. apply HJ. exact Hin.
Qed.

Theorem count_exact (XB : Type) (bumpB : cmode -> Z -> XB -> XB) (P : program E) :
  nocov_prog P = true -> NoDup (map snd (tagged_prog P)) ->
  let A := fst (annotate files MCount P) in
  let B := snd (annotate files MCount P) in
  forall n u xb,
  let rA := run cover_array cover_bump n A (mkst U cover_array u cover_empty []) in
  let rP := run XB bumpB n P (mkst U XB u xb []) in
  snd rA <> OFuel V ->
  forall i b, 1 <= i -> nth_error B (Z.to_nat (i - 1)) = Some b ->
  exists p, In (Some i, p) (tagged_prog A) /\ link files b p
            /\ cover_get (s_x _ _ (fst rA)) i = began p (s_tr _ _ (fst rP)).
Proof.
  refine (exact_gen MCount (fun c => c) (fun c => c + 1) XB bumpB P _ _ _); [reflexivity|intros c _; apply Z.add_comm|reflexivity].
Qed.

Theorem set_exact (XB : Type) (bumpB : cmode -> Z -> XB -> XB) (P : program E) :
  counts_read MSet (fun c => if 0 <? c then 1 else 0) XB bumpB P.
Proof.
  apply (exact_gen MSet _ (fun _ => 1)); [reflexivity| |reflexivity].
  intros c Hc. destruct (0 <? 1 + c) eqn:Hlt; [reflexivity|]. apply Z.ltb_ge in Hlt. lia.
Qed.

End Main.

(* the full statement: no guard on the shape of action bodies or END blocks *)
Definition transparent_full_statement : Prop :=
  forall (E U K V I : Type) (ev_start : E -> U -> estep U K V) (ev_resume : K -> U -> V -> estep U K V)
    (truthy : V -> bool) (nil_v : V) (forin_init : E -> U -> I) (forin_next : E -> I -> U -> option (I * U))
    (next_record : U -> nrec U V) (print_record : U -> U * option V) (skip_file : U -> U)
    (files : ftable) (XA XB : Type) (bumpA : cmode -> Z -> XA -> XA) (bumpB : cmode -> Z -> XB -> XB)
    (mode : cmode) (P : program E),
  nocov_prog P = true ->
  forall n u x xb tr,
  let rA := run E U K V I ev_start ev_resume truthy nil_v forin_init forin_next next_record print_record skip_file
              XA bumpA n (fst (annotate files mode P)) (mkst U XA u x tr) in
  let rP := run E U K V I ev_start ev_resume truthy nil_v forin_init forin_next next_record print_record skip_file
              XB bumpB n P (mkst U XB u xb tr) in
  snd rA = snd rP
  /\ (snd rA <> OFuel V -> s_u _ _ (fst rA) = s_u _ _ (fst rP) /\ s_tr _ _ (fst rA) = s_tr _ _ (fst rP)).

Theorem transparent_full : transparent_full_statement.
Proof. exact transparent. Qed.

(* a toy interpreter: the state is (records left to read, lines printed so far) *)
Module Toy.
Definition U : Type := nat * nat.
Definition ev_start (_ : unit) (u : U) : estep U unit unit := EDone U unit unit u (inl tt).
Definition ev_resume (_ : unit) (u : U) (_ : unit) : estep U unit unit := EDone U unit unit u (inl tt).
Definition next_record (u : U) : nrec U unit :=
  match fst u with O => NEof U unit u | S r => NRec U unit (r, snd u) end.
Definition print_record (u : U) : U * option unit := ((fst u, S (snd u)), None).
Definition run_toy (X : Type) (bump : cmode -> Z -> X -> X) (p : program unit) (x : X) : st U X * outcome unit :=
  run unit U unit unit unit ev_start ev_resume (fun _ => true) tt (fun _ _ => tt) (fun _ _ _ => None)
      next_record print_record (fun u => u) X bump 5 p (mkst U X (2%nat, 0%nat) x []).
(* { }  : an action with an empty body *)
Definition prog_empty_action : program unit := mkprogram [] [mkaction [] (Some [])] [] [].
(* { { } } : an action whose body is one empty block *)
Definition prog_block_action : program unit :=
  mkprogram [] [mkaction [] (Some [SBlock (mkpos 1 3) (mkpos 1 7) []])] [] [].
(* END { { } } with no rules: the input is read (records left goes from 2 to 0) *)
Definition prog_end_blocks : program unit :=
  mkprogram [] [] [[SBlock (mkpos 1 7) (mkpos 1 11) []]] [].
End Toy.

(* formerly F-C18-1 (fixed): {} prints nothing plainly and nothing when annotated (the body
   stays a present, empty list; before the fix it came back nil and every record was printed) *)
Lemma toy_empty_action :
  snd (Toy.run_toy unit (fun _ _ x => x) Toy.prog_empty_action tt) = ONormal unit /\
  s_u _ _ (fst (Toy.run_toy unit (fun _ _ x => x) Toy.prog_empty_action tt)) = (0%nat, 0%nat) /\
  s_u _ _ (fst (Toy.run_toy cover_array cover_bump (fst (annotate [] MSet Toy.prog_empty_action)) cover_empty)) = (0%nat, 0%nat)
  /\ p_actions (fst (annotate [] MSet Toy.prog_empty_action)) = [mkaction [] (Some [])].
Proof. vm_compute. repeat split. Qed.

(* formerly F-C18-3 (fixed in the compiler): { { } } gets a Nop and prints nothing, plainly and annotated *)
Lemma toy_block_action :
  s_u _ _ (fst (Toy.run_toy unit (fun _ _ x => x) Toy.prog_block_action tt)) = (0%nat, 0%nat) /\
  s_u _ _ (fst (Toy.run_toy cover_array cover_bump (fst (annotate [] MSet Toy.prog_block_action)) cover_empty)) = (0%nat, 0%nat).
Proof. vm_compute. repeat split. Qed.

Lemma toy_end_blocks :
  s_u _ _ (fst (Toy.run_toy unit (fun _ _ x => x) Toy.prog_end_blocks tt)) = (0%nat, 0%nat) /\
  s_u _ _ (fst (Toy.run_toy cover_array cover_bump (fst (annotate [] MSet Toy.prog_end_blocks)) cover_empty)) = (0%nat, 0%nat).
Proof. vm_compute. repeat split. Qed.
