(* C15: promptness.  [Inv] is an invariant of the single interpreter-wide counter, not of one
   activation: it holds before and after every execute call at every nesting depth, whether the
   context was cancelled from outside ([done_at] given) or by the script itself ([latch]).  Under it
   at most checkContextOps - 1 instructions run after the cancellation, checkContext's error is
   returned only when the context is done, and no fuel above that budget runs out: the call returns. *)
From Verif Require Import Lib.Base Model.Ast Model.Instr Model.Compiler Model.Prims Model.VM Model.Cancel
  Proofs.CodeAt Proofs.VMLemmas Proofs.Cancel Gen.Consts.

Lemma N_pos : 0 < checkContextOps.
Proof. reflexivity. Qed.

(* [clock - ctxOps] is when the counter was last reset: no later than the cancellation, so the
   next poll that looks at the context comes at most checkContextOps - 1 instructions after it *)
Definition Inv (cs : cstate) : Prop :=
  checkCtx cs = true /\ 0 <= ctxOps cs < checkContextOps /\
  forall t, done_at cs = Some t -> clock cs - ctxOps cs <= t.

(* no more than checkContextOps - 1 instructions after the moment of cancellation *)
Definition Post (cs : cstate) : Prop :=
  forall t, done_at cs = Some t -> clock cs <= t + checkContextOps - 1.

Definition ext (cs cs' : cstate) : Prop :=
  clock cs <= clock cs' /\ (forall t, done_at cs = Some t -> done_at cs' = Some t) /\ checkCtx cs' = checkCtx cs.

Lemma ext_refl cs : ext cs cs.
Proof. unfold ext. repeat split; try lia; auto. Qed.

Lemma ext_trans a b c : ext a b -> ext b c -> ext a c.
Proof. unfold ext. intros (H1 & H2 & H3) (H4 & H5 & H6). repeat split; try lia; auto. congruence. Qed.

Lemma Inv_Post {cs} : Inv cs -> Post cs.
Proof. intros (_ & Hr & Hk) t Ht. specialize (Hk t Ht). lia. Qed.

Lemma Inv_init d : (forall t, d = Some t -> 0 <= t) -> Inv (cs_execute_context true d).
Proof.
  intros H. unfold Inv, cs_execute_context. cbn. pose proof N_pos. repeat split; try lia.
  intros t Ht. specialize (H t Ht). lia.
Qed.

Lemma Inv_init_at t : 0 <= t -> Inv (cs_execute_context true (Some t)).
Proof. intros Ht. apply Inv_init. intros t' E. inversion E; subst. exact Ht. Qed.

Lemma poll_inv {cs stop cs1} :
  Inv cs -> poll cs = (stop, cs1) ->
  if stop then Post cs1 /\ closed cs1 = true /\ ext cs cs1
  else Inv (tick cs1) /\ ext cs (tick cs1) /\ clock (tick cs1) = clock cs + 1.
Proof.
  intros (Hc & Hr & Hk) Hp. unfold poll in Hp. rewrite Hc in Hp. unfold check_context in Hp.
  destruct (ctxOps cs + 1 <? checkContextOps) eqn:E.
  - apply Z.ltb_lt in E. inversion Hp; subst stop cs1; clear Hp.
    unfold Inv, ext, tick, with_ops; cbn. repeat split; try lia; auto.
    intros t Ht. specialize (Hk t Ht). lia.
  - apply Z.ltb_ge in E. inversion Hp; subst cs1; clear Hp.
    unfold closed. destruct (done_at cs) as [t|] eqn:Ed.
    + specialize (Hk t eq_refl). destruct (t <=? clock cs) eqn:Et.
      * apply Z.leb_le in Et. unfold Post, closed, ext, with_ops; cbn. rewrite Ed.
        repeat split; auto; try lia;
          try solve [intros t' Ht'; inversion Ht'; subst t'; lia]; try solve [apply Z.leb_le; lia].
      * apply Z.leb_gt in Et. unfold Inv, ext, tick, with_ops; cbn. rewrite Ed. pose proof N_pos.
        repeat split; auto; try lia; try solve [intros t' Ht'; inversion Ht'; subst t'; lia].
    + unfold Inv, ext, tick, with_ops; cbn. rewrite Ed. pose proof N_pos.
      repeat split; auto; try lia; try discriminate.
Qed.

Section CancelPrompt.
  Variables value St err : Type.
  Variable P : prims value St err.
  Variable F : list cfunc.
  Variable cancel_req : St -> bool.

  Notation step := (step P F).
  Notation run_ctx := (run_ctx P F cancel_req).
  Notation latch := (latch cancel_req).
  Notation latch_res := (latch_res cancel_req).
  Notation mstate := (mstate value St).
  Notation cres := (cres value St err).

  Lemma latch_inv cs (m : mstate) : Inv cs -> Inv (latch cs m) /\ ext cs (latch cs m).
  Proof.
    intros HI. unfold Cancel.latch. destruct (done_at cs) eqn:Ed; [split; [exact HI|apply ext_refl]|].
    destruct (cancel_req (ms m)); [|split; [exact HI|apply ext_refl]].
    destruct HI as (Hc & Hr & Hk). unfold Inv, ext; cbn. rewrite Ed. repeat split; try lia; auto.
    - intros t Ht. inversion Ht. lia.
    - discriminate.
  Qed.

  Lemma latch_res_inv cs (r : vres value St err) : Inv cs -> Inv (latch_res cs r) /\ ext cs (latch_res cs r).
  Proof.
    intros HI. destruct r; cbn [Cancel.latch_res]; try apply latch_inv; try exact HI; split; try exact HI; apply ext_refl.
  Qed.

  (* what holds of the counter when execute returns *)
  Definition good (x : cres) (cs' : cstate) : Prop :=
    match x with
    | CRes _ => Inv cs'
    | CCtx _ => Post cs' /\ closed cs' = true
    end.

  (* ... or when a layer above execute goes on without a result (None) *)
  Definition goodo (s : option cres) (cs' : cstate) : Prop :=
    match s with Some x => good x cs' | None => Inv cs' end.

  (* from [cs] to [cs']: the counter is as it should be, the context's history is extended, and
     running out of fuel (the only way to VFuel) has taken [n] ticks of the clock *)
  Definition post (n : Z) (s : option cres) (cs cs' : cstate) : Prop :=
    goodo s cs' /\ ext cs cs' /\ (s = Some (CRes VFuel) -> clock cs + n <= clock cs').

  Lemma post_now n s cs : goodo s cs -> s <> Some (CRes VFuel) -> post n s cs cs.
  Proof. intros Hg Hs. split; [exact Hg|split; [apply ext_refl|intros E; contradiction]]. Qed.

  Lemma post_ext n s a b c : ext a b -> post n s b c -> post n s a c.
  Proof.
    intros Hab (Hg & Hbc & Hf). split; [exact Hg|split; [eapply ext_trans; eassumption|]].
    intros E. specialize (Hf E). destruct Hab as (Hc & _). lia.
  Qed.

  Lemma post_tick {n s a b c} : ext a b -> clock a + 1 <= clock b -> post n s b c -> post (n + 1) s a c.
  Proof.
    intros Hab Hclk (Hg & Hbc & Hf). split; [exact Hg|split; [eapply ext_trans; eassumption|]].
    intros E. specialize (Hf E). lia.
  Qed.

  Lemma post_le n n' s a c : n' <= n -> post n s a c -> post n' s a c.
  Proof. intros Hn (Hg & He & Hf). split; [exact Hg|split; [exact He|]]. intros E. specialize (Hf E). lia. Qed.

  Lemma step_not_fuel C ip stk (m : mstate) : step C ip stk m <> AStop VFuel.
  Proof.
    unfold VM.step. destruct (csize C <=? ip); [discriminate|].
    destruct (fetch C ip) as [i|]; [|discriminate].
    destruct i; try discriminate;
      try (destruct (exec_simple P _ stk m); discriminate);
      try (destruct stk as [|? [|? ?]]; discriminate).
    - destruct (sub_code C _ _); discriminate.
    - destruct (fi <? 0); [discriminate|]. destruct (nth_error F (Z.to_nat fi)); [|discriminate].
      destruct (maxCallDepth <=? depth m); [discriminate|].
      destruct (pop_n _ stk []) as [[? ?]|]; discriminate.
  Qed.

  Lemma run_ctx_inv : forall k C ip stk m cs x cs',
    Inv cs -> run_ctx k C ip stk m cs = (x, cs') -> post (Z.of_nat k) (Some x) cs cs'.
  Proof.
    induction k as [|k IH]; intros C ip stk m cs x cs' HI H.
    - cbn in H. inversion H; subst. split; [exact HI|split; [apply ext_refl|intros _; cbn; lia]].
    - cbn [Cancel.run_ctx] in H.
      destruct (csize C <=? ip) eqn:Eend.
      { inversion H; subst. apply post_now; [exact HI|discriminate]. }
      destruct (poll cs) as [stop cs1] eqn:Ep. pose proof (poll_inv HI Ep) as Hp.
      destruct stop.
      { destruct Hp as (Hpost & Hcl & Hext). inversion H; subst.
        split; [split; assumption|split; [exact Hext|discriminate]]. }
      destruct Hp as (HI2 & Hext2 & Hclk). cbv zeta in H.
      rewrite Nat2Z.inj_succ. apply (post_tick Hext2 ltac:(lia)).
      remember (tick cs1) as cs2 eqn:Ecs2. clear Ecs2 Ep cs1 Hext2 Hclk HI cs.
      destruct (step C ip stk m) as [ip' stk' m'|r0|vsc vi keys body ipa stk0 m0|fn m1 saved ipa stk0] eqn:Est.
      + destruct (latch_inv cs2 m' HI2) as (HI3 & Hext3).
        eapply post_ext; [exact Hext3|]. eapply IH; eassumption.
      + destruct (latch_res_inv cs2 r0 HI2) as (HI3 & Hext3). inversion H; subst.
        eapply post_ext; [exact Hext3|]. apply post_now; [exact HI3|].
        intros E. inversion E; subst. exact (step_not_fuel _ _ _ _ Est).
      + clear Est stk m. revert stk0 m0 cs2 HI2 H.
        induction keys as [|key ks IHk]; intros stk0 m0 cs2 HI2 H.
        * eapply IH; eassumption.
        * destruct (var_write P m0 vsc vi key) as [m1|e m1|];
            try (inversion H; subst; apply post_now; [exact HI2|discriminate]).
          destruct (run_ctx k body 0 stk0 m1 cs2) as [xb csb] eqn:Eb.
          pose proof (IH _ _ _ _ _ _ _ HI2 Eb) as Hb. pose proof Hb as (Hgb & Heb & _).
          destruct xb as [[stk' m2|v stk' m2|stk' m2|x0 m2| |]|mb]; try (inversion H; subst; exact Hb).
          -- eapply post_ext; [exact Heb|]. eapply IHk; eassumption.
          -- eapply post_ext; [exact Heb|]. eapply IH; eassumption.
      + cbv zeta in H.
        destruct (run_ctx k (cf_body fn) 0 stk0 m1 cs2) as [xb csb] eqn:Eb.
        pose proof (IH _ _ _ _ _ _ _ HI2 Eb) as Hb. pose proof Hb as (Hgb & Heb & _).
        (* the callee's outcome is handed on, in a restored state *)
        assert (Hon : forall y : cres, y <> CRes VFuel -> goodo (Some y) csb -> post (Z.of_nat k) (Some y) cs2 csb).
        { intros y Hy Hgy. split; [exact Hgy|split; [exact Heb|intros E; congruence]]. }
        destruct xb as [[stk' m2|v stk' m2|stk' m2|x0 m2| |]|mb];
          try (inversion H; subst; exact Hb); try (inversion H; subst; apply Hon; [discriminate|exact Hgb]).
        (* VDone, VRet: the epilogue *)
        all: destruct (pop_n (Z.to_nat (cf_nscalars fn)) stk' []) as [[a t]|];
          [|inversion H; subst; apply Hon; [discriminate|exact Hgb]].
        all: eapply post_ext; [exact Heb|]; eapply IH; eassumption.
  Qed.

  Lemma good_Post x cs : good x cs -> Post cs.
  Proof. destruct x; cbn [good]; [apply Inv_Post|intros [H _]; exact H]. Qed.

  (* the statement of promptness: whatever execute returns, and at whatever nesting depth the
     context was (or gets) cancelled, no more than checkContextOps - 1 instructions have been
     executed after the moment of cancellation; checkContext's error means the context is done *)
  Theorem run_ctx_prompt k C ip stk m cs x cs' :
    Inv cs -> run_ctx k C ip stk m cs = (x, cs') ->
    (forall t, done_at cs' = Some t -> clock cs' <= t + checkContextOps - 1) /\
    clock cs <= clock cs' /\
    (forall t, done_at cs = Some t -> done_at cs' = Some t) /\
    (forall m', x = CCtx m' -> closed cs' = true) /\
    (forall r, x = CRes r -> Inv cs').
  Proof.
    intros HI H. destruct (run_ctx_inv _ _ _ _ _ _ _ _ HI H) as (Hg & (Hc & Hd & _) & _).
    split; [|split; [|split; [|split]]].
    - apply (good_Post _ _ Hg).
    - exact Hc.
    - exact Hd.
    - intros m' E. subst x. destruct Hg as [_ Hcl]. exact Hcl.
    - intros r0 E. subst x. exact Hg.
  Qed.

  (* under a context cancelled at [t] the budget is exhausted before [n] more ticks *)
  Lemma post_returns {n x cs cs' t} :
    post n (Some x) cs cs' -> done_at cs = Some t -> t + checkContextOps - 1 - clock cs < n -> x <> CRes VFuel.
  Proof.
    intros (Hg & (_ & Hd & _) & Hf) Ht Hn E. subst x.
    pose proof (Inv_Post Hg t (Hd t Ht)). specialize (Hf eq_refl). lia.
  Qed.

  Lemma run_ctx_returns : forall k C ip stk m cs t x cs',
    Inv cs -> done_at cs = Some t -> t + checkContextOps - 1 - clock cs < Z.of_nat k ->
    run_ctx k C ip stk m cs = (x, cs') -> x <> CRes VFuel.
  Proof.
    intros k C ip stk m cs t x cs' HI Hd Hk H.
    exact (post_returns (run_ctx_inv _ _ _ _ _ _ _ _ HI H) Hd Hk).
  Qed.

End CancelPrompt.

Arguments good {value St err}.
Arguments goodo {value St err}.
Arguments run_ctx_inv {value St err P F cancel_req k C ip stk m cs x cs'}.
Arguments post {value St err}.
Arguments post_now {value St err}.
Arguments post_ext {value St err}.
Arguments post_tick {value St err n s a b c}.
Arguments post_le {value St err}.
Arguments post_returns {value St err n x cs cs' t}.
