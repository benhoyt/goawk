(* C03: next and unread, and the loops of scan() and scanRegex(): they never panic,
   never run out of fuel, and keep the position fields true. *)
From Verif Require Import Lib.Base Lib.Utf8 Model.Lexer Proofs.LexerPos.
From Coq Require Import ZifyBool.
Open Scope Z_scope.

Section Scan.
Variable src : bytes.
Notation len := (zlen src).
Notation W := (W src).
Notation Norm := (Norm src).
Notation Inv := (Inv src).
Notation NormInv := (NormInv src).

Lemma col_add_add p a c : col_add (col_add p a) c = col_add p (a + c).
Proof. unfold col_add; cbn [fst snd]. f_equal. lia. Qed.

Lemma col_add_0 p : col_add p 0 = p.
Proof. destruct p; unfold col_add; cbn [fst snd]. f_equal. lia. Qed.

Definition plain (c : Z) : Prop := c <> 10 /\ c <> 13.

Lemma adv_plain p c : plain c -> adv p c = col_add p 1.
Proof. intros (H1 & H2). unfold adv. replace (c =? 10) with false by lia. replace (c =? 13) with false by lia. reflexivity. Qed.

(* ---- set_had_space / set_last_tok do not touch what the invariants read -------------- *)
Lemma NormInv_set_had v l : NormInv l -> NormInv (set_had_space v l).
Proof. intro H; exact H. Qed.
Lemma Inv_set_last t l : Inv l -> Inv (set_last_tok t l).
Proof. intro H; exact H. Qed.
Lemma NormInv_set_last t l : NormInv l -> NormInv (set_last_tok t l).
Proof. intro H; exact H. Qed.

(* ---- next where the end of input may have been reached -------------------------------- *)
Lemma nextI l :
  Inv l -> okr (fun l' => Inv l' /\ offset l <= offset l' /\ (ch l <> 0 -> offset l' = offset l + 1)) (next src l).
Proof.
  intros Hi. eapply okr_weaken; [apply next_inv; exact Hi|].
  intros l' (Hi' & Ho' & Ho1 & _). splits; try assumption; lia.
Qed.

Lemma next_then {A} (Q : A -> Prop) l m (K : lexer -> lres A) :
  Inv l -> m <= offset l -> (forall l2, Inv l2 -> m <= offset l2 -> okr Q (K l2)) ->
  okr Q (lbind (next src l) K).
Proof.
  intros Hi Hm HK. eapply okr_bind; [apply (nextI l Hi)|].
  intros l2 (Hi2 & Ho2 & _). apply HK; [assumption | lia].
Qed.

Lemma next_then1 {A} (Q : A -> Prop) l (K : lexer -> lres A) :
  Inv l -> ch l <> 0 -> (forall l2, Inv l2 -> offset l2 = offset l + 1 -> okr Q (K l2)) ->
  okr Q (lbind (next src l) K).
Proof.
  intros Hi Hnz HK. eapply okr_bind; [apply (nextI l Hi)|].
  intros l2 (Hi2 & _ & Ho2). apply HK; [assumption | exact (Ho2 Hnz)].
Qed.

Lemma unread_spec l :
  W l -> 2 <= offset l -> Norm l -> plain (getch src (offset l - 2)) ->
  okr (fun l' => W l' /\ offset l' = offset l - 1 /\ Norm l' /\ ch l' = getch src (offset l - 2))
      (unread src l).
Proof.
  intros (Hb & Hc) H2 Hn Hpl. unfold unread.
  replace (offset l - 1 - 1) with (offset l - 2) by lia.
  destruct (index_ok src (offset l - 2)) as (c & Hi & _); [lia|]. rewrite Hi. cbn [of_res lbind].
  pose proof (getch_index _ _ _ Hi) as Hg. rewrite Hg in Hpl.
  apply okr_ret. cbn [offset ch lpos npos]. splits; try lia; try congruence.
  - split; cbn [offset ch]; [lia|]. replace (offset l - 1 - 1) with (offset l - 2) by lia. congruence.
  - destruct Hn as (H1 & Hl & Hnp). unfold LexerPos.Norm; cbn [offset ch lpos npos].
    pose proof (pos_of_offset_step _ _ _ Hi) as Hs.
    replace (offset l - 2 + 1) with (offset l - 1) in Hs by lia.
    rewrite (adv_plain _ _ Hpl) in Hs.
    replace (offset l - 1 - 1) with (offset l - 2) by lia.
    splits; [lia| |exact Hl].
    rewrite Hl, Hs, col_add_add. replace (1 + -1) with 0 by lia. apply col_add_0.
Qed.

(* ---- loops that only step over non-zero characters --------------------------------------- *)
Lemma skip_while_spec cond :
  (forall c, cond c = true -> c <> 0) ->
  forall fuel l, NormInv l -> len + 2 - offset l <= Z.of_nat fuel ->
  okr (fun l' => NormInv l' /\ offset l <= offset l' /\ cond (ch l') = false /\ lastTok l' = lastTok l)
      (skip_while src fuel cond l).
Proof.
  intros Hcond. induction fuel as [|f IH]; intros l Hn Hf.
  - exfalso. pose proof (NormInv_bounds _ _ Hn). lia.
  - cbn [skip_while]. destruct (cond (ch l)) eqn:Ec.
    + eapply okr_bind; [apply (next_norm src l Hn (Hcond _ Ec))|].
      intros l1 (Hn1 & Ho1 & _ & Ht1).
      eapply okr_weaken; [apply (IH l1 Hn1); lia|].
      intros l' (Hn' & Ho' & Hc' & Ht'). splits; try assumption; try lia; try congruence.
    + apply okr_ret. splits; try assumption; try lia; try reflexivity.
Qed.

Lemma is_digit_nz c : is_digit c = true -> c <> 0.
Proof. unfold is_digit. lia. Qed.

Lemma skip_digits_spec :
  forall fuel got l, NormInv l -> len + 2 - offset l <= Z.of_nat fuel ->
  okr (fun r => NormInv (snd r) /\ offset l <= offset (snd r) /\
                is_digit (ch (snd r)) = false /\
                (fst r = true \/ (fst r = got /\ snd r = l)))
      (skip_digits src fuel got l).
Proof.
  induction fuel as [|f IH]; intros got l Hn Hf.
  - exfalso. pose proof (NormInv_bounds _ _ Hn). lia.
  - cbn [skip_digits]. destruct (is_digit (ch l)) eqn:Ec.
    + eapply okr_bind; [apply (next_norm src l Hn (is_digit_nz _ Ec))|].
      intros l1 (Hn1 & Ho1 & _).
      eapply okr_weaken; [apply (IH true l1 Hn1); lia|].
      intros (g, l') (Hn' & Ho' & Hd' & Hg'). cbn [fst snd] in *.
      splits; try assumption; try lia.
    + apply okr_ret. cbn [fst snd]. splits; try assumption; try lia. right; split; reflexivity.
Qed.

Definition ws_state (w : ws_out) : lexer := match w with WsIllegal l => l | WsDone l => l end.

Lemma skip_ws_spec :
  forall fuel m l, NormInv l -> m <= offset l -> len + 2 - offset l <= Z.of_nat fuel ->
  okr (fun w => NormInv (ws_state w) /\ m <= offset (ws_state w)) (skip_ws src fuel l).
Proof.
  induction fuel as [|f IH]; intros m l Hn Hm Hf.
  - exfalso. pose proof (NormInv_bounds _ _ Hn). lia.
  - cbn [skip_ws].
    destruct ((ch l =? 32) || (ch l =? 9) || (ch l =? 13) || (ch l =? 92)) eqn:Ews.
    + assert (Hnz : ch l <> 0) by lia. clear Ews.
      pose proof (NormInv_set_had true l Hn) as Hn0.
      destruct (ch l =? 92).
      * eapply okr_bind; [apply (next_norm src _ Hn0); exact Hnz|].
        intros l1 (Hn1 & Ho1 & _). cbn [set_had_space offset] in Ho1.
        eapply okr_bind with (Q1 := fun l2 => NormInv l2 /\ offset l1 <= offset l2).
        { destruct (ch l1 =? 13) eqn:Ecr.
          - eapply okr_weaken; [apply (next_norm src l1 Hn1); lia|].
            intros l2 (? & ? & _). split; [assumption | lia].
          - apply okr_ret. split; [assumption | lia]. }
        intros l2 (Hn2 & Ho2).
        destruct (ch l2 =? 10) eqn:Elf; cbn [negb].
        -- eapply okr_bind; [apply (next_norm src l2 Hn2); lia|].
           intros l3 (Hn3 & Ho3 & _). apply (IH m l3 Hn3); lia.
        -- apply okr_ret. cbn [ws_state]. split; [assumption | lia].
      * eapply okr_bind; [apply (next_norm src _ Hn0); exact Hnz|].
        intros l1 (Hn1 & Ho1 & _). cbn [set_had_space offset] in Ho1.
        apply (IH m l1 Hn1); lia.
    + apply okr_ret. cbn [ws_state]. split; assumption.
Qed.

(* ---- parseString: Inv-level (next may be called at the end of input) -------------------- *)
Definition str_state (o : str_out) : lexer := match o with StrErr _ l => l | StrOk _ l => l end.

Lemma hex_digit_nz c : 0 <= hex_digit c -> c <> 0.
Proof. unfold hex_digit, is_digit. intros H ->. cbn in H. lia. Qed.

Lemma hex_loop_spec : forall n r l, Inv l ->
  okr (fun rl => Inv (snd rl) /\ offset l <= offset (snd rl)) (hex_loop src n r l).
Proof.
  induction n as [|n IH]; intros r l Hi; cbn [hex_loop].
  - apply okr_ret. cbn [snd]. split; [assumption | lia].
  - destruct (hex_digit (ch l) <? 0) eqn:Eh.
    + apply okr_ret. cbn [snd]. split; [assumption | lia].
    + eapply okr_bind; [apply (nextI l Hi)|]. intros l1 (Hi1 & Ho1 & _).
      eapply okr_weaken; [apply (IH _ l1 Hi1)|]. intros rl (? & ?). split; [assumption | lia].
Qed.

Lemma oct_loop_spec : forall n c l, Inv l ->
  okr (fun rl => Inv (snd rl) /\ offset l <= offset (snd rl)) (oct_loop src n c l).
Proof.
  induction n as [|n IH]; intros c l Hi; cbn [oct_loop].
  - apply okr_ret. cbn [snd]. split; [assumption | lia].
  - destruct ((48 <=? ch l) && (ch l <=? 55)) eqn:Eo.
    + eapply okr_bind; [apply (nextI l Hi)|]. intros l1 (Hi1 & Ho1 & _).
      eapply okr_weaken; [apply (IH _ l1 Hi1)|]. intros rl (? & ?). split; [assumption | lia].
    + apply okr_ret. cbn [snd]. split; [assumption | lia].
Qed.

(* m is a lower bound kept through the loop, so that the post-condition does not change *)
Definition SP (m : Z) (o : str_out) : Prop := Inv (str_state o) /\ m <= offset (str_state o).

Lemma parse_string_spec :
  forall fuel quote chars m l, Inv l -> m <= offset l -> len + 2 - offset l <= Z.of_nat fuel ->
  okr (SP m) (parse_string src fuel quote chars l).
Proof.
  induction fuel as [|f IH]; intros quote chars m l Hi Hm Hf.
  - exfalso. destruct (Inv_W _ _ Hi) as (Hb & _). lia.
  - cbn [parse_string].
    destruct ((ch l =? quote) || (ch l =? 0)) eqn:Eq.
    { apply okr_ret. split; assumption. }
    assert (Hnz : ch l <> 0) by lia.
    destruct ((ch l =? 13) || (ch l =? 10)) eqn:Enl.
    { apply okr_ret. split; assumption. }
    assert (Hm' : forall x, offset l + 1 <= x -> m <= x) by (intros; lia).
    assert (Hrec : forall q cs l', Inv l' -> offset l + 1 <= offset l' ->
              okr (SP m) (parse_string src f q cs l')).
    { intros q cs l' Hi' Ho'. apply IH; try assumption; lia. }
    assert (Hfin : forall q cs l1, Inv l1 -> offset l + 1 <= offset l1 ->
              okr (SP m) (dol l2 <- next src l1; parse_string src f q cs l2)).
    { intros q cs l1 Hi1 Ho1. apply (next_then _ l1 (offset l + 1)); try assumption.
      intros; apply Hrec; assumption. }
    destruct (negb (ch l =? 92)) eqn:Ebs.
    { apply (next_then1 _ l); try assumption. intros; apply Hrec; try assumption; lia. }
    apply (next_then1 _ l); try assumption. intros l1 Hi1 Ho1.
    assert (Ho1' : offset l + 1 <= offset l1) by lia.
    cbv zeta.
    destruct (ch l1 =? 110) eqn:E1; [apply Hfin; assumption|].
    destruct (ch l1 =? 116) eqn:E2; [apply Hfin; assumption|].
    destruct (ch l1 =? 114) eqn:E3; [apply Hfin; assumption|].
    destruct (ch l1 =? 97) eqn:E4; [apply Hfin; assumption|].
    destruct (ch l1 =? 98) eqn:E5; [apply Hfin; assumption|].
    destruct (ch l1 =? 102) eqn:E6; [apply Hfin; assumption|].
    destruct (ch l1 =? 118) eqn:E7; [apply Hfin; assumption|].
    destruct (ch l1 =? 120) eqn:E8.
    { apply (next_then _ l1 (offset l + 1)); try assumption. intros l2 Hi2 Ho2.
      destruct (hex_digit (ch l2) <? 0) eqn:Eh2; [apply okr_ret; split; [assumption | apply Hm'; assumption]|].
      apply (next_then _ l2 (offset l + 1)); try assumption. intros l3 Hi3 Ho3.
      destruct (hex_digit (ch l3) >=? 0) eqn:Eh3; [apply Hfin; assumption|apply Hrec; assumption]. }
    destruct (ch l1 =? 117) eqn:E9.
    { apply (next_then _ l1 (offset l + 1)); try assumption. intros l2 Hi2 Ho2.
      destruct (hex_digit (ch l2) <? 0) eqn:Eh2; [apply okr_ret; split; [assumption | apply Hm'; assumption]|].
      apply (next_then _ l2 (offset l + 1)); try assumption. intros l3 Hi3 Ho3.
      eapply okr_bind; [apply (hex_loop_spec 7 _ l3 Hi3)|].
      intros (r', l4) (Hi4 & Ho4). cbn [snd] in *.
      destruct (negb (valid_rune_of_int r')); [apply okr_ret; split; [assumption | apply Hm'; cbn [str_state]; lia]|].
      apply Hrec; try assumption. lia. }
    destruct ((48 <=? ch l1) && (ch l1 <=? 55)) eqn:E10.
    { apply (next_then _ l1 (offset l + 1)); try assumption. intros l2 Hi2 Ho2.
      eapply okr_bind; [apply (oct_loop_spec 2 _ l2 Hi2)|].
      intros (c', l3) (Hi3 & Ho3). cbn [snd] in *.
      apply Hrec; try assumption. lia. }
    apply Hfin; assumption.
Qed.

Definition rx_state (o : rx_out) : lexer := match o with RxErr _ l => l | RxOk _ l => l end.
Definition RP (m : Z) (o : rx_out) : Prop :=
  Inv (rx_state o) /\ m <= offset (rx_state o) /\ match o with RxOk _ l' => ch l' = 47 | RxErr _ _ => True end.

Lemma regex_loop_spec :
  forall fuel chars m l, Inv l -> m <= offset l -> len + 2 - offset l <= Z.of_nat fuel ->
  okr (RP m) (regex_loop src fuel chars l).
Proof.
  induction fuel as [|f IH]; intros chars m l Hi Hm Hf.
  - exfalso. destruct (Inv_W _ _ Hi) as (Hb & _). lia.
  - cbn [regex_loop].
    destruct (ch l =? 47) eqn:E47.
    { apply okr_ret. unfold RP; cbn [rx_state]. splits; try assumption; lia. }
    destruct (ch l =? 0) eqn:E0.
    { apply okr_ret. unfold RP; cbn [rx_state]. splits; try assumption; exact I. }
    destruct ((ch l =? 13) || (ch l =? 10)) eqn:Enl.
    { apply okr_ret. unfold RP; cbn [rx_state]. splits; try assumption; exact I. }
    assert (Hnz : ch l <> 0) by lia.
    destruct (ch l =? 92) eqn:Ebs.
    + apply (next_then1 _ l); try assumption. intros l1 Hi1 Ho1. cbv zeta.
      apply (next_then _ l1 (offset l + 1)); try assumption; try lia.
      intros l2 Hi2 Ho2.
      apply IH; try assumption; lia.
    + apply (next_then1 _ l); try assumption. intros l1 Hi1 Ho1.
      apply IH; try assumption; lia.
Qed.

(* ---- the exponent of a number, with its un-reads ---------------------------------------- *)
Lemma scan_exponent_spec fuel l :
  NormInv l -> ch l = 101 \/ ch l = 69 -> len + 2 - offset l <= Z.of_nat fuel ->
  okr (fun l' => NormInv l' /\ offset l <= offset l') (scan_exponent src fuel l).
Proof.
  intros Hn He Hf. unfold scan_exponent.
  assert (H1 : 1 <= offset l) by (pose proof (NormInv_bounds _ _ Hn); lia).
  assert (Hnz : ch l <> 0) by lia.
  eapply okr_bind; [apply (next_norm src l Hn Hnz)|].
  intros l1 (Hn1 & Ho1 & _). cbv zeta.
  pose proof (NormInv_W _ _ Hn) as (Hb & Hc).
  pose proof (NormInv_W _ _ Hn1) as (Hb1 & Hc1).
  destruct ((ch l1 =? 43) || (ch l1 =? 45)) eqn:Esg.
  - (* a sign was read *)
    eapply okr_bind; [apply (next_norm src l1 Hn1); lia|].
    intros l2 (Hn2 & Ho2 & _).
    eapply okr_bind; [apply (skip_digits_spec fuel false l2 Hn2); lia|].
    intros (g, l3) (Hn3 & Ho3 & _ & Hg). cbn [fst snd] in *.
    destruct g; cbn [negb].
    + apply okr_ret. split; [assumption|lia].
    + destruct Hg as [Hg|(_ & ->)]; [discriminate|].
      pose proof (NormInv_W _ _ Hn2) as Hw2.
      eapply okr_bind.
      { apply (unread_spec l2 Hw2); [lia|apply (NormInv_norm _ _ Hn2)|].
        replace (offset l2 - 2) with (offset l1 - 1) by lia. rewrite <- Hc1. unfold plain; lia. }
      intros l4 (Hw4 & Ho4 & Hn4 & Hc4).
      eapply okr_weaken.
      { apply (unread_spec l4 Hw4); [lia|exact Hn4|].
        replace (offset l4 - 2) with (offset l - 1) by lia. rewrite <- Hc. unfold plain; lia. }
      intros l5 (Hw5 & Ho5 & Hn5 & _).
      split; [split; assumption|lia].
  - (* no sign *)
    cbn [lbind].
    eapply okr_bind; [apply (skip_digits_spec fuel false l1 Hn1); lia|].
    intros (g, l3) (Hn3 & Ho3 & _ & Hg). cbn [fst snd] in *.
    destruct g; cbn [negb].
    + apply okr_ret. split; [assumption|lia].
    + destruct Hg as [Hg|(_ & ->)]; [discriminate|].
      eapply okr_weaken.
      { apply (unread_spec l1 (conj Hb1 Hc1)); [lia|apply (NormInv_norm _ _ Hn1)|].
        replace (offset l1 - 2) with (offset l - 1) by lia. rewrite <- Hc. unfold plain; lia. }
      intros l5 (Hw5 & Ho5 & Hn5 & _).
      split; [split; assumption|lia].
Qed.

End Scan.
