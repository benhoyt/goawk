(* C02: soundness of the verifier of Model/Verifier.v for the machine of Model/VM.v.
   A locally consistent annotation is an invariant of execution: at every instruction
   boundary the stack is exactly base + annotated depth deep, the frame has the checked
   length, the call depth is at most maxCallDepth; hence no step is ever [VStuck]. *)
From Coq Require Import ZifyBool.
From Verif Require Import Lib.Base Model.Ast Model.Instr Model.Compiler Model.Prims Model.VM
  Model.Verifier Proofs.CodeAt Proofs.VMLemmas Proofs.VerifierBase Proofs.VerifierSimple Proofs.VerifierDepth
  Gen.Consts.

Section Sound.
  Variables value St err : Type.
  Variable P : prims value St err.
  Hypothesis Hshape : prims_shape P.
  Variable F : list cfunc.
  Hypothesis HF : check_funcs F = true.

  Notation mstate := (mstate value St).
  Notation vres := (vres value St err).
  Notation FT := (ftable_of F).
  Notation run := (run P F).
  Notation step := (step P F).

  Definition chkb (cf : nat) : vctx -> Z -> code -> bool :=
    fun cx' d body => check_seg cf FT cx' d d body.

  Lemma check_seg_ann {cf cx d0 dend C} :
    check_seg cf FT cx d0 dend C = true -> exists cf' a, check_ann FT (chkb cf') cx a C d0 dend = true.
  Proof. destruct cf as [|cf']; [discriminate|]. intros H. exists cf', (infer FT cx C d0). exact H. Qed.

  (* [B] is the height of the stack under the current function activation, [d] the depth above
     it, [dp] the call depth *)
  Definition at_depth (cx : vctx) (B dp d : Z) (stk : list value) (m : mstate) : Prop :=
    zlen stk = B + d /\ zlen (frame m) = cx_nlocals cx /\ depth m = dp.

  (* the invariant: the machine is at a boundary of [C], with the stack as deep as [a] says *)
  Definition at_ann (cx : vctx) (a : ann) (C : code) (B dp ip : Z) (stk : list value) (m : mstate) : Prop :=
    exists d, tgt C a ip d = true /\ at_depth cx B dp d stk m.

  (* what a run of a checked unit may end with; [dend] is the annotated depth at the end of the unit *)
  Definition good (cx : vctx) (B dend dp : Z) (r : vres) : Prop :=
    match r with
    | VDone stk m => at_depth cx B dp dend stk m
    | VRet _ stk m => cx_infunc cx = true /\ at_depth cx B dp 0 stk m
    | VBrk stk m => exists db, cx_forin cx = Some db /\ at_depth cx B dp db stk m
    | VAbort _ _ => True
    | VStuck => False
    | VFuel => True
    end.

  Lemma at_depth_pop {cx B dp} d {stk} {m : mstate} :
    0 <= B -> 1 <= d -> at_depth cx B dp d stk m -> exists v t, stk = v :: t /\ at_depth cx B dp (d - 1) t m.
  Proof.
    intros HB Hd (Hs & Hfd). destruct stk as [|v t]; [rewrite zlen_nil in Hs; lia|rewrite zlen_cons in Hs].
    exists v, t. split; [reflexivity|]. split; [lia|exact Hfd].
  Qed.

  Lemma at_ann_start {chk cx a C d0 dend B dp stk} {m : mstate} :
    check_ann FT chk cx a C d0 dend = true -> at_depth cx B dp d0 stk m -> at_ann cx a C B dp 0 stk m.
  Proof. intros Hchk Hst. exists d0. split; [exact (check_ann_start Hchk)|exact Hst]. Qed.

  Lemma ftable_func fi nsc :
    nth_z FT fi = Some nsc ->
    0 <= fi /\ exists fn, nth_error F (Z.to_nat fi) = Some fn /\ cf_nscalars fn = nsc /\
                          check_func FT fn = true.
  Proof.
    intros H. apply nth_z_Some in H as [H0 H]. split; [exact H0|].
    unfold ftable_of in H. rewrite nth_error_map in H.
    destruct (nth_error F (Z.to_nat fi)) as [fn|] eqn:En; [|discriminate].
    injection H as H. exists fn. split; [reflexivity|]. split; [exact H|].
    unfold check_funcs in HF. rewrite forallb_forall in HF. apply HF. eapply nth_error_In. exact En.
  Qed.

  Lemma step_checked cf cx a C d0 dend B dp ip stk (m : mstate) :
    check_ann FT (chkb cf) cx a C d0 dend = true -> 0 <= B ->
    at_ann cx a C B dp ip stk m ->
    match step C ip stk m with
    | ANext ip' stk' m' => at_ann cx a C B dp ip' stk' m'
    | AStop r => good cx B dend dp r
    | AForIn vsc vi keys body ipa stk0 m0 =>
        exists d, var_ok cx vsc vi = true /\ chkb cf (in_forin cx d) d body = true /\
                  tgt C a ipa d = true /\ at_depth cx B dp d stk0 m0
    | ACall fn m1 saved ipa stk0 =>
        check_func FT fn = true /\ dp + 1 <= maxCallDepth /\
        at_depth (top_ctx (cf_nscalars fn) true) (zlen stk0) (dp + 1) 0 stk0 m1 /\
        forall v stk' (m2 : mstate), zlen stk' = zlen stk0 ->
          exists args t, pop_n (Z.to_nat (cf_nscalars fn)) stk' [] = Some (args, t) /\
                         at_ann cx a C B dp ipa (v :: t) (restore P saved m2)
    end.
  Proof.
    intros Hchk HB (d & Ht & Hst).
    apply tgt_true in Ht as [Htgt Hlook].
    destruct (is_target_cases _ _ Htgt) as [->|[i Hfetch]].
    { rewrite step_end by lia. rewrite (check_ann_end Hchk _ Hlook) in Hst. exact Hst. }
    pose proof (check_ann_local Hchk _ _ _ Hfetch Hlook) as Hloc. unfold local_ok in Hloc.
    pose proof (fetch_code_at _ _ _ Hfetch) as Hat.
    pose proof (flow_of_control cx i) as Hi.
    clear Hchk Htgt Hlook Hfetch.
    destruct (flow_of cx i) as [po pu|po off fall|po|po| |off|fi|] eqn:Hfl.
    - (* straight-line *)
      apply andb_true_iff in Hloc as [Hpo Ht]. apply Z.leb_le in Hpo.
      rewrite (step_simple _ _ _ P F _ _ _ _ stk m Hat Hi).
      pose proof (exec_simple_ok _ _ _ P Hshape cx i po pu stk m Hfl) as Hex.
      destruct Hst as (Hs & Hf & Hd). specialize (Hex ltac:(lia) Hf).
      destruct (exec_simple P i stk m) as [stk' m'|e m'|]; cbn [sres_ok] in Hex; [|exact I|exact Hex].
      destruct Hex as (H1 & H2 & H3). exists (d - po + pu).
      split; [exact Ht|]. split; [lia|split; [exact H2|lia]].
    - (* jumps *)
      apply andb_true_iff in Hloc as [Hloc Hfall]. apply andb_true_iff in Hloc as [Hpo Ht]. apply Z.leb_le in Hpo.
      destruct Hi as [(-> & -> & ->)|[(-> & -> & ->)|[(-> & -> & ->)|(c & -> & -> & ->)]]].
      (* [step_at] only now that [i] is known: its right-hand side is a match over every opcode *)
      all: rewrite (step_at _ _ _ P F _ _ _ _ stk m Hat); cbv beta iota zeta.
      + rewrite Z.sub_0_r in Ht. exists d. split; [exact Ht|exact Hst].
      + destruct (at_depth_pop d HB Hpo Hst) as (v & t & -> & Hst').
        exists (d - 1). split; [destruct (p_to_bool P v); assumption|exact Hst'].
      + destruct (at_depth_pop d HB Hpo Hst) as (v & t & -> & Hst').
        exists (d - 1). split; [destruct (p_to_bool P v); assumption|exact Hst'].
      + replace (d - 2) with (d - 1 - 1) in Ht, Hfall by lia.
        destruct (at_depth_pop d HB ltac:(lia) Hst) as (v & t1 & -> & Hst1).
        destruct (at_depth_pop (d - 1) HB ltac:(lia) Hst1) as (w & t & -> & Hst').
        exists (d - 1 - 1). split; [destruct (p_cmpj P c (ms m) w v); assumption|exact Hst'].
    - (* next, nextfile, exit *)
      destruct Hi as [(-> & [ -> | [ -> | -> ]])|(-> & ->)].
      all: rewrite (step_at _ _ _ P F _ _ _ _ stk m Hat); cbv beta iota zeta; try exact I.
      apply Z.leb_le in Hloc. destruct (at_depth_pop d HB Hloc Hst) as (v & t & -> & _). exact I.
    - (* return *)
      apply andb_true_iff in Hloc as [Hin Hd1]. apply Z.eqb_eq in Hd1. subst d.
      destruct Hi as [(-> & ->)|(-> & ->)].
      all: rewrite (step_at _ _ _ P F _ _ _ _ stk m Hat); cbv beta iota zeta.
      + destruct (at_depth_pop 1 HB (Z.le_refl 1) Hst) as (v & t & -> & Hst').
        split; [exact Hin|exact Hst'].
      + split; [exact Hin|exact Hst].
    - (* break out of a for-in *)
      subst i.
      rewrite (step_at _ _ _ P F _ _ _ _ stk m Hat); cbv beta iota zeta.
      destruct (cx_forin cx) as [db|] eqn:Hdb; [|discriminate Hloc]. apply Z.eqb_eq in Hloc. subst db.
      exists d. split; [exact Hdb|exact Hst].
    - (* for-in *)
      destruct Hi as (vsc & vi & asc & ai & -> & Hvar).
      rewrite (step_at _ _ _ P F _ _ _ _ stk m Hat); cbv beta iota zeta.
      destruct (sub_code C (ip + isize (IForIn vsc vi asc ai off)) off) as [body|]; [|discriminate Hloc].
      apply andb_true_iff in Hloc as [Hbody Ht].
      exists d. split; [exact Hvar|]. split; [exact Hbody|]. split; [exact Ht|exact Hst].
    - (* user call *)
      destruct Hi as (arrs & ->).
      rewrite (step_at _ _ _ P F _ _ _ _ stk m Hat); cbv beta iota zeta.
      destruct (nth_z FT fi) as [nsc|] eqn:Hnz; [|discriminate Hloc].
      apply andb_true_iff in Hloc as [Hloc Ht]. apply andb_true_iff in Hloc as [Hnsc0 Hnsc].
      apply Z.leb_le in Hnsc0, Hnsc.
      destruct (ftable_func _ _ Hnz) as (Hfi & fn & Hfn & <- & Hcf).
      destruct (fi <? 0) eqn:Efi; [lia|]. rewrite Hfn.
      destruct (maxCallDepth <=? depth m) eqn:Emax; [exact I|]. apply Z.leb_gt in Emax.
      destruct Hst as (Hs & Hf & Hd). clear Hat Hfl Hnz Hfn Efi.
      destruct (pop_n_z _ (cf_nscalars fn) stk Hnsc0 ltac:(lia)) as (args & t0 & -> & _ & Largs).
      split; [exact Hcf|]. split; [lia|]. split.
      { split; [symmetry; apply Z.add_0_r|split; [exact Largs|cbn [depth]; lia]]. }
      intros v stk' m2 Hs'.
      destruct (pop_n_z _ (cf_nscalars fn) stk' Hnsc0 ltac:(lia)) as (a2 & t2 & Ep2 & Lt2 & _).
      exists a2, t2. split; [exact Ep2|]. exists (d - cf_nscalars fn + 1).
      split; [exact Ht|]. split; [rewrite zlen_cons; lia|split; [exact Hf|exact Hd]].
    - discriminate Hloc.
  Qed.

  Lemma check_func_body fn : check_func FT fn = true ->
    exists cf a, check_ann FT (chkb cf) (top_ctx (cf_nscalars fn) true) a (cf_body fn) 0 0 = true.
  Proof. intros H. apply andb_true_iff in H as [_ H]. exact (check_seg_ann H). Qed.

  Lemma and_mid (A B C : Prop) : B -> A /\ C -> A /\ B /\ C.
  Proof. tauto. Qed.

  (* [M]: any bound on the call depth that is at least the machine's own limit (a run may start
     above maxCallDepth: its calls then fail, nothing gets stuck) *)
  Lemma run_checked M : maxCallDepth <= M -> forall k cf cx a C d0 dend B dp ip stk (m : mstate),
    check_ann FT (chkb cf) cx a C d0 dend = true -> 0 <= B -> dp <= M ->
    at_ann cx a C B dp ip stk m ->
    good cx B dend dp (run k C ip stk m) /\ all_states P F (fun m' => depth m' <= M) k C ip stk m.
  Proof.
    intros HM. induction k as [|k IH]; intros cf cx a C d0 dend B dp ip stk m Hchk HB Hdp Hat.
    all: assert (HQ : depth m <= M) by (destruct Hat as (d & _ & _ & _ & Hd); lia).
    { split; [exact I|split; [exact HQ|exact I]]. }
    pose proof (step_checked _ _ _ _ _ _ _ _ _ _ _ Hchk HB Hat) as Hs.
    pose proof (fun ip' stk' m' => IH _ _ _ _ _ _ _ _ ip' stk' m' Hchk HB Hdp) as Hnext.
    rewrite run_S. cbn [all_states].
    destruct (step C ip stk m) as [ip' stk' m'|r|vsc vi keys body ipa stk0 m0|fn m1 saved ipa stk0].
    - destruct (Hnext _ _ _ Hs) as [Hg Ha]. split; [exact Hg|split; [exact HQ|exact Ha]].
    - split; [exact Hs|split; [exact HQ|exact I]].
    - (* for-in: the loop over the keys keeps the stack at the depth of the ForIn *)
      destruct Hs as (d & Hvar & Hbody & Hafter & H0).
      destruct (check_seg_ann Hbody) as (cf' & a' & Hchk').
      apply and_mid; [exact HQ|]. clear Hat HQ stk m.
      revert stk0 m0 H0. induction keys as [|key ks IHk]; intros stk0 m0 H0.
      + apply Hnext. exists d. split; [exact Hafter|exact H0].
      + cbv beta iota fix.   (* one turn of the key loop of [run] and of [all_states] *)
        destruct H0 as (Hs0 & Hf0 & Hd0).
        pose proof (var_write_ok _ _ _ P cx dp m0 vsc vi key Hvar Hf0 Hd0) as Hw.
        destruct (var_write P m0 vsc vi key) as [m1|e m1|]; cbn [wres_ok] in Hw; [|split; [exact I|rewrite Hw; exact Hdp]|destruct Hw].
        destruct Hw as [Hf1 Hd1].
        destruct (IH _ _ _ _ _ _ _ _ 0 stk0 m1 Hchk' HB Hdp) as [Hg Ha].
        { apply (at_ann_start Hchk'). split; [exact Hs0|split; [exact Hf1|exact Hd1]]. }
        apply and_mid; [exact Ha|].
        destruct (run k body 0 stk0 m1) as [stk' m2|v stk' m2|stk' m2|x m2| |]; cbn [good in_forin cx_forin] in Hg.
        * exact (IHk _ _ Hg).
        * split; [exact Hg|exact I].
        * destruct Hg as (db & Hdb & Hg). injection Hdb as <-.
          apply Hnext. exists d. split; [exact Hafter|exact Hg].
        * split; exact I.
        * destruct Hg.
        * split; exact I.
    - (* user call *)
      destruct Hs as (Hcf & Hdp1 & H1 & Hfin).
      destruct (check_func_body _ Hcf) as (cf' & a' & Hchk').
      destruct (IH _ _ _ _ _ _ _ _ _ _ _ Hchk' (zlen_nonneg stk0) (Z.le_trans _ _ _ Hdp1 HM)
                  (at_ann_start Hchk' H1))
        as [Hg Ha].
      cbv zeta. apply and_mid; [exact HQ|]. apply and_mid; [exact Ha|].
      destruct (run k (cf_body fn) 0 stk0 m1) as [stk' m2|v stk' m2|stk' m2|x m2| |]; cbn [good top_ctx cx_forin] in Hg.
      + destruct Hg as (Hz & _). rewrite Z.add_0_r in Hz. destruct (Hfin (p_null P) stk' m2 Hz) as (args & t & -> & Hat').
        exact (Hnext _ _ _ Hat').
      + destruct Hg as (_ & Hz & _). rewrite Z.add_0_r in Hz. destruct (Hfin v stk' m2 Hz) as (args & t & -> & Hat').
        exact (Hnext _ _ _ Hat').
      + destruct Hg as (db & Hdb & _). discriminate Hdb.
      + split; exact I.
      + destruct Hg.
      + split; exact I.
  Qed.

  Theorem check_code_sound nlocals infunc d0 dend C :
    check_code FT nlocals infunc d0 dend C = true ->
    forall M fuel stk (m : mstate),
      d0 <= zlen stk -> zlen (frame m) = nlocals -> maxCallDepth <= M -> depth m <= M ->
      good (top_ctx nlocals infunc) (zlen stk - d0) dend (depth m) (run fuel C 0 stk m) /\
      all_states P F (fun m' => depth m' <= M) fuel C 0 stk m.
  Proof.
    intros Hc M fuel stk m Hd Hf HM Hdp.
    destruct (check_seg_ann Hc) as (cf & a & Hchk).
    apply (run_checked M HM fuel _ _ _ _ _ _ _ _ _ _ _ Hchk); [lia|exact Hdp|].
    apply (at_ann_start Hchk). split; [lia|split; [exact Hf|reflexivity]].
  Qed.

  Corollary check_code_good nlocals infunc d0 dend C :
    check_code FT nlocals infunc d0 dend C = true ->
    forall fuel stk (m : mstate), d0 <= zlen stk -> zlen (frame m) = nlocals ->
      good (top_ctx nlocals infunc) (zlen stk - d0) dend (depth m) (run fuel C 0 stk m).
  Proof.
    intros Hc fuel stk m Hd Hf.
    exact (proj1 (check_code_sound _ _ _ _ _ Hc _ fuel stk m Hd Hf (Z.le_max_l _ (depth m)) (Z.le_max_r _ _))).
  Qed.

  Theorem check_code_never_stuck nlocals infunc d0 dend C :
    check_code FT nlocals infunc d0 dend C = true ->
    forall fuel stk (m : mstate), d0 <= zlen stk -> zlen (frame m) = nlocals ->
      run fuel C 0 stk m <> VStuck.
  Proof.
    intros Hc fuel stk m Hd Hf E.
    pose proof (check_code_good _ _ _ _ _ Hc fuel stk m Hd Hf) as Hg. rewrite E in Hg. exact Hg.
  Qed.

  (* the evaluation stack is where the annotation says when the unit completes, the frame
     and the call depth are restored; Return is only seen in functions, with the stack back at
     the activation's base; a for-in break never escapes its unit *)
  Theorem check_code_balanced nlocals infunc d0 dend C :
    check_code FT nlocals infunc d0 dend C = true ->
    forall fuel stk (m : mstate), d0 <= zlen stk -> zlen (frame m) = nlocals ->
      match run fuel C 0 stk m with
      | VDone stk' m' => zlen stk' = zlen stk - d0 + dend /\ zlen (frame m') = nlocals /\ depth m' = depth m
      | VRet _ stk' m' => infunc = true /\ zlen stk' = zlen stk - d0 /\ depth m' = depth m
      | VBrk _ _ => False
      | VStuck => False
      | _ => True
      end.
  Proof.
    intros Hc fuel stk m Hd Hf.
    pose proof (check_code_good _ _ _ _ _ Hc fuel stk m Hd Hf) as Hg.
    destruct (run fuel C 0 stk m); cbn [good top_ctx cx_nlocals cx_infunc cx_forin] in Hg; auto.
    - destruct Hg as (Hin & Hs & _ & Hd'). split; [exact Hin|split; [lia|exact Hd']].
    - destruct Hg as (db & Hdb & _). discriminate.
  Qed.

  Theorem check_code_depth_bounded nlocals infunc d0 dend C :
    check_code FT nlocals infunc d0 dend C = true ->
    forall fuel stk (m : mstate),
      d0 <= zlen stk -> zlen (frame m) = nlocals -> depth m <= maxCallDepth ->
      all_states P F (fun m' => depth m' <= maxCallDepth) fuel C 0 stk m.
  Proof.
    intros Hc fuel stk m Hd Hf Hdp.
    exact (proj2 (check_code_sound _ _ _ _ _ Hc _ fuel stk m Hd Hf (Z.le_refl _) Hdp)).
  Qed.

End Sound.
