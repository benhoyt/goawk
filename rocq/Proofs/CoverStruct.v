(* C18: structure of the annotated tree and of the block table.  The annotation only inserts
   counter statements, each immediately followed by a statement of the program; counter indices
   are exactly 1..n, each used once, and block i starts where the statement guarded by counter i
   starts; the sum of numStmts is the number of statements. *)
From Verif Require Import Lib.Base Model.Cover Proofs.CoverBase.

Section Struct.
Context {E : Type}.
Variable files : ftable.
Variable mode : cmode.

Notation ann_loop := (@ann_loop E files mode).
Notation ann_stmt := (@ann_stmt E files mode).
Notation ann_stmts := (@ann_stmts E files mode).

Definition first_of (pend : list (cstmt E)) (s' : cstmt E) : cstmt E :=
  match pend with [] => s' | p :: _ => p end.

(* the loop of annotateStmts as a relation (res = []); of the type switch it keeps only that
   [Q s bl s' bl1] holds when [s] becomes [s'] while the table grows from [bl] to [bl1] *)
Definition step_rel : Type := cstmt E -> list block -> cstmt E -> list block -> Prop.

Inductive AL (Q : step_rel) : list (cstmt E) -> list block -> list (cstmt E) -> list (cstmt E) -> list block -> Prop :=
| AL_nil bl : AL Q [] bl [] [] bl
| AL_flush bl p ps b :
    blk_of files p (last_ne p ps) (zlen (p :: ps)) b ->
    AL Q [] bl (p :: ps) (SCover mode (zlen bl + 1) :: p :: ps) (bl ++ [b])
| AL_go s t bl pend s' bl1 out bl' :
    Q s bl s' bl1 -> AL Q t bl1 (pend ++ [s']) out bl' -> AL Q (s :: t) bl pend out bl'
| AL_end s t bl pend s' bl1 b out bl' :
    Q s bl s' bl1 ->
    blk_of files (first_of pend s') s' (zlen (pend ++ [s'])) b ->
    AL Q t (bl1 ++ [b]) [] out bl' ->
    AL Q (s :: t) bl pend (SCover mode (zlen bl1 + 1) :: (pend ++ [s']) ++ out) bl'.

Definition stmt_sat (Q : step_rel) (s : cstmt E) : Prop :=
  forall bl s' bl' ends, ann_stmt s bl = (s', bl', ends) -> Q s bl s' bl'.

Lemma stmt_sat_intro (Q : step_rel) s :
  (forall bl, Q s bl (with_bodies s (fst (ann_lists files mode (bodies s) bl))) (snd (ann_lists files mode (bodies s) bl))) ->
  stmt_sat Q s.
Proof. intros H bl s' bl' ends Hf. rewrite ann_stmt_eq in Hf. injection Hf as <- <- _. apply H. Qed.

Lemma ann_loop_AL Q ss : Forall (stmt_sat Q) ss -> forall bl pend,
  AL Q ss bl pend (fst (ann_loop ann_stmt ss bl pend [])) (snd (ann_loop ann_stmt ss bl pend [])).
Proof.
  induction 1 as [|s t Hs _ IH]; intros bl pend.
  - destruct pend as [|p ps]; [apply AL_nil|].
    rewrite ann_loop_flush. cbn [fst snd].
    destruct (track_eq files mode bl p (last_ne p ps) (zlen (p :: ps))) as (b & Hb & Hblk).
    rewrite Hb. cbn [fst snd]. apply AL_flush. exact Hblk.
  - rewrite ann_loop_cons. destruct (ann_stmt s bl) as [[s' bl1] ends] eqn:Hf.
    specialize (Hs _ _ _ _ Hf). destruct ends; [|eapply AL_go; [exact Hs|apply IH]].
    destruct (track_eq files mode bl1 (first_of pend s') s' (zlen (pend ++ [s']))) as (b & Hb & Hblk).
    unfold first_of in Hb. rewrite Hb. cbn [fst snd].
    replace (SCover mode (zlen bl1 + 1) :: pend ++ [s'] ++ fst (ann_loop ann_stmt t (bl1 ++ [b]) [] []))
      with (SCover mode (zlen bl1 + 1) :: (pend ++ [s']) ++ fst (ann_loop ann_stmt t (bl1 ++ [b]) [] []))
      by (rewrite <- app_assoc; reflexivity).
    eapply AL_end; [exact Hs|exact Hblk|apply IH].
Qed.

Lemma tagged_list_plain g prev (s : cstmt E) t : plain s ->
  tagged_list g prev (s :: t) = (prev, start_of s) :: g s ++ tagged_list g None t.
Proof. destruct s; cbn; intros H; try reflexivity; discriminate H. Qed.

Lemma tagged_list_app_plain g (l1 l2 : list (cstmt E)) : forall prev,
  Forall plain l1 -> l1 <> [] ->
  tagged_list g prev (l1 ++ l2) = tagged_list g prev l1 ++ tagged_list g None l2.
Proof.
  induction l1 as [|s t IH]; intros prev HF Hne; [congruence|].
  inversion HF as [|? ? Hs Ht]; subst.
  cbn [app]. rewrite !tagged_list_plain by assumption.
  destruct t as [|s2 t2].
  - cbn [app tagged_list]. rewrite app_nil_r. reflexivity.
  - rewrite (IH None Ht) by congruence. cbn [app]. rewrite <- app_assoc. reflexivity.
Qed.

Lemma marks_of_app a b : marks_of (a ++ b) = marks_of a ++ marks_of b.
Proof.
  induction a as [|[[i|] p] a IH]; cbn [app marks_of]; rewrite ?IH; reflexivity.
Qed.

(* marks of the nested bodies of a list without top-level counters *)
Definition nested_marks (l : list (cstmt E)) : list (Z * pos) :=
  marks_of (concat (map tagged_in l)).

Lemma nested_marks_app a b : nested_marks (a ++ b) = nested_marks a ++ nested_marks b.
Proof. unfold nested_marks. rewrite map_app, concat_app, marks_of_app. reflexivity. Qed.

Lemma marks_plain_none (l : list (cstmt E)) : Forall plain l ->
  marks_of (tagged_list tagged_in None l) = nested_marks l.
Proof.
  induction 1 as [|s t Hs _ IH]; [reflexivity|].
  rewrite tagged_list_plain by assumption. cbn [marks_of].
  rewrite marks_of_app, IH. unfold nested_marks. cbn [map concat]. rewrite marks_of_app. reflexivity.
Qed.

Lemma marks_plain_some i (s : cstmt E) t : Forall plain (s :: t) ->
  marks_of (tagged_list tagged_in (Some i) (s :: t)) = (i, start_of s) :: nested_marks (s :: t).
Proof.
  intros HF. inversion HF as [|? ? Hs Ht]; subst.
  rewrite tagged_list_plain by assumption. cbn [marks_of].
  rewrite marks_of_app, (marks_plain_none t Ht). unfold nested_marks. cbn [map concat].
  rewrite marks_of_app. reflexivity.
Qed.

Lemma tagged_in_bodies (s : cstmt E) : tagged_in s = concat (map tagged (bodies s)).
Proof. destruct s; cbn [tagged_in bodies map concat]; rewrite ?app_nil_r; reflexivity. Qed.

Definition link (b : block) (p : pos) : Prop :=
  b_path b = fst (file_line files (pline p))
  /\ b_start b = mkpos (snd (file_line files (pline p))) (pcol p).

Definition linked (bl : list block) (M : list (Z * pos)) : Prop :=
  forall i p, In (i, p) M -> 1 <= i /\ exists b, nth_error bl (Z.to_nat (i - 1)) = Some b /\ link b p.

(* the segment of the block table created by a piece of the annotation with marks [M] *)
Record Seg (bl bl' : list block) (M : list (Z * pos)) : Prop := mkSeg {
  seg_ext : exists new, bl' = bl ++ new;
  seg_range : forall i p, In (i, p) M -> zlen bl < i <= zlen bl';
  seg_nodup : NoDup (map fst M);
  seg_all : forall i, zlen bl < i <= zlen bl' -> In i (map fst M);
  seg_link : linked bl' M }.

Lemma linked_ext bl new M : linked bl M -> linked (bl ++ new) M.
Proof.
  intros H i p Hin. destruct (H i p Hin) as (H1 & b & Hb & Hl). split; [exact H1|].
  exists b. split; [|exact Hl]. rewrite nth_error_app1; [exact Hb|].
  apply nth_error_Some. congruence.
Qed.

Lemma Seg_nil bl : Seg bl bl [].
Proof.
  constructor.
  - exists []. rewrite app_nil_r. reflexivity.
  - intros i p [].
  - constructor.
  - intros i Hi. lia.
  - intros i p [].
Qed.

Lemma Seg_app bl bl1 bl2 M1 M2 : Seg bl bl1 M1 -> Seg bl1 bl2 M2 -> Seg bl bl2 (M1 ++ M2).
Proof.
  intros [[n1 E1] R1 N1 A1 L1] [[n2 E2] R2 N2 A2 L2].
  pose proof (zlen_app_le bl n1) as Hz1. pose proof (zlen_app_le bl1 n2) as Hz2. rewrite <- E1 in Hz1. rewrite <- E2 in Hz2.
  constructor.
  - exists (n1 ++ n2). subst. rewrite app_assoc. reflexivity.
  - intros i p Hin. apply in_app_or in Hin as [Hin|Hin]; [apply R1 in Hin|apply R2 in Hin]; lia.
  - rewrite map_app. apply NoDup_app_disj; [assumption|assumption|].
    intros i H1 H2. apply in_map_iff in H1 as ([i1 p1] & He1 & Hi1). apply in_map_iff in H2 as ([i2 p2] & He2 & Hi2).
    cbn in He1, He2. subst. apply R1 in Hi1. apply R2 in Hi2. lia.
  - intros i Hi. rewrite map_app. apply in_or_app.
    destruct (Z_le_gt_dec i (zlen bl1)); [left; apply A1|right; apply A2]; lia.
  - intros i p Hin. apply in_app_or in Hin as [Hin|Hin]; [|apply L2; exact Hin].
    rewrite E2. exact (linked_ext bl1 n2 M1 L1 i p Hin).
Qed.

Lemma Seg_snoc bl0 bl b M p : Seg bl0 bl M -> link b p -> Seg bl0 (bl ++ [b]) ((zlen bl + 1, p) :: M).
Proof.
  intros [[n En] R N A L] Hl. pose proof (zlen_app_le bl0 n) as Hz. rewrite <- En in Hz.
  assert (Hb : zlen (bl ++ [b]) = zlen bl + 1) by (rewrite zlen_app, zlen_cons, zlen_nil; lia).
  constructor.
  - exists (n ++ [b]). rewrite En, app_assoc. reflexivity.
  - intros i q [Hq|Hin]; [inversion Hq; subst i q; lia|apply R in Hin; lia].
  - cbn [map fst]. constructor; [|exact N].
    intros Hin. apply in_map_iff in Hin as ([i q] & Hi & Hin). cbn in Hi. subst i. apply R in Hin. lia.
  - intros i Hi. destruct (Z.eq_dec i (zlen bl + 1)) as [->|Hne]; [left; reflexivity|right; apply A; lia].
  - intros i q [Hq|Hin]; [|exact (linked_ext bl [b] M L i q Hin)].
    inversion Hq; subst i q. pose proof (zlen_nonneg bl). split; [lia|].
    exists b. split; [apply nth_error_snoc_z|exact Hl].
Qed.

(* closing a chunk: the counter in front of [l] gets the next index and the block [b] *)
Lemma Seg_close bl0 bl b l q : Forall plain l -> hd_error l = Some q ->
  Seg bl0 bl (nested_marks l) -> link b (start_of q) ->
  Seg bl0 (bl ++ [b]) (marks_of (tagged_list tagged_in (Some (zlen bl + 1)) l)).
Proof.
  intros HP Hq HS Hl. destruct l as [|q' qs]; inversion Hq; subst q'.
  rewrite marks_plain_some by exact HP. apply Seg_snoc; assumption.
Qed.

(* every counter statement is immediately followed by a program statement *)
Section Sok.
Variable g : cstmt E -> Prop.
Fixpoint sok_list (prev : option Z) (l : list (cstmt E)) : Prop :=
  match l with
  | [] => prev = None
  | SCover m i :: t => prev = None /\ m = mode /\ sok_list (Some i) t
  | s :: t => g s /\ sok_list None t
  end.
End Sok.
Fixpoint sok (s : cstmt E) : Prop :=
  match s with
  | SIf _ _ _ _ body els => sok_list sok None body /\ sok_list sok None els
  | SFor _ _ _ _ _ _ body | SForIn _ _ _ _ body | SWhile _ _ _ _ body
  | SDoWhile _ _ _ body | SBlock _ _ body => sok_list sok None body
  | _ => True
  end.

Lemma sok_list_plain g prev (s : cstmt E) t : plain s ->
  sok_list g prev (s :: t) <-> g s /\ sok_list g None t.
Proof. destruct s; cbn; intros H; try tauto; discriminate H. Qed.

Lemma sok_list_plain_app g (l1 l2 : list (cstmt E)) : forall prev,
  Forall plain l1 -> l1 <> [] -> Forall g l1 -> sok_list g None l2 -> sok_list g prev (l1 ++ l2).
Proof.
  induction l1 as [|s t IH]; intros prev HP Hne HG H2; [congruence|].
  inversion HP as [|? ? Hs Ht]; subst. inversion HG as [|? ? Gs Gt]; subst.
  cbn [app]. apply sok_list_plain; [exact Hs|]. split; [exact Gs|].
  destruct t as [|s2 t2]; [exact H2|]. apply IH; [exact Ht|congruence|exact Gt|exact H2].
Qed.

Lemma erase_stmts_app (l1 l2 : list (cstmt E)) : erase_stmts (l1 ++ l2) = erase_stmts l1 ++ erase_stmts l2.
Proof. apply erase_list_app. Qed.

Lemma erase_stmts_one (s : cstmt E) : plain s -> erase_stmts [s] = [erase s].
Proof. destruct s; cbn; intros H; try reflexivity; discriminate H. Qed.

Lemma nested_marks_one (s : cstmt E) : nested_marks [s] = marks_of (tagged_in s).
Proof. unfold nested_marks. cbn [map concat]. rewrite app_nil_r. reflexivity. Qed.

Lemma sok_list_chunk i (l out : list (cstmt E)) :
  Forall plain l -> l <> [] -> Forall sok l -> sok_list sok None out ->
  sok_list sok None (SCover mode i :: l ++ out).
Proof.
  intros HP Hne HS Ho. cbn [sok_list]. split; [reflexivity|]. split; [reflexivity|].
  apply sok_list_plain_app; assumption.
Qed.

Lemma sok_bodies (s : cstmt E) : Forall (sok_list sok None) (bodies s) -> sok s.
Proof.
  intros H. destruct s; cbn [bodies] in H; cbn [sok]; try exact I; try exact (Forall_inv H).
  split; [exact (Forall_inv H)|exact (Forall_inv (Forall_inv_tail H))].
Qed.

Definition nstmts_lists (ls : list (list (cstmt E))) : Z := fold_right (fun l a => nstmts_list l + a) 0 ls.

Lemma nstmts_bodies (s : cstmt E) : plain s -> nstmts s = 1 + nstmts_lists (bodies s).
Proof.
  destruct s; intros H; try discriminate H;
    unfold nstmts_lists, nstmts_list; cbn [nstmts bodies fold_right]; lia.
Qed.

(* what annotating one statement does *)
Definition struct_step : step_rel := fun s bl s' bl' =>
  plain s' /\ erase s' = s /\ sok s' /\ Seg bl bl' (marks_of (tagged_in s'))
  /\ sum_num bl' = sum_num bl + nstmts s - 1.
Definition stmt_ok : cstmt E -> Prop := stmt_sat struct_step.

Lemma blk_link (first last : cstmt E) num b : blk_of files first last num b -> link b (start_of first).
Proof. intros (_ & H2 & H3 & _). split; assumption. Qed.

Lemma AL_shape ss bl pend out bl' : AL struct_step ss bl pend out bl' ->
  Forall plain pend -> Forall sok pend ->
  erase_stmts out = erase_stmts pend ++ ss
  /\ sok_list sok None out
  /\ (out = [] -> pend = [] /\ ss = []).
Proof.
  induction 1 as [bl | bl p ps b Hb | s t bl pend s' bl1 out bl' Hf HAL IH
                 | s t bl pend s' bl1 b out bl' Hf Hb HAL IH]; intros HP HS.
  - repeat split; reflexivity.
  - split; [rewrite app_nil_r; reflexivity|]. split; [|discriminate].
    rewrite <- (app_nil_r (p :: ps)). apply sok_list_chunk; [exact HP|discriminate|exact HS|reflexivity].
  - destruct Hf as (Hpl & Her & Hsok & _).
    destruct (IH (Forall_snoc _ _ _ HP Hpl) (Forall_snoc _ _ _ HS Hsok)) as (He & Hk & Hemp).
    split; [|split; [exact Hk|]].
    + rewrite He, erase_stmts_app, (erase_stmts_one s' Hpl), Her, <- app_assoc. reflexivity.
    + intros Ho. destruct (Hemp Ho) as [Hp _]. destruct pend; discriminate Hp.
  - destruct Hf as (Hpl & Her & Hsok & _).
    destruct (IH (Forall_nil _) (Forall_nil _)) as (He & Hk & _).
    split; [|split; [|discriminate]].
    + change (erase_stmts (SCover mode (zlen bl1 + 1) :: (pend ++ [s']) ++ out)) with (erase_stmts ((pend ++ [s']) ++ out)).
      rewrite !erase_stmts_app, (erase_stmts_one s' Hpl), Her, He. cbn [erase_stmts erase_list app].
      rewrite <- app_assoc. reflexivity.
    + apply sok_list_chunk; [apply Forall_snoc; assumption|destruct pend; discriminate|apply Forall_snoc; assumption|exact Hk].
Qed.

(* the blocks it registers: [bl0 .. bl] covers the nested lists of [pend] *)
Lemma AL_seg ss bl pend out bl' : AL struct_step ss bl pend out bl' ->
  forall bl0, Forall plain pend -> Seg bl0 bl (nested_marks pend) ->
  Seg bl0 bl' (marks_of (tagged_list tagged_in None out)).
Proof.
  induction 1 as [bl | bl p ps b Hb | s t bl pend s' bl1 out bl' Hf HAL IH
                 | s t bl pend s' bl1 b out bl' Hf Hb HAL IH]; intros bl0 HP HSeg.
  - exact HSeg.
  - apply (Seg_close bl0 bl b (p :: ps) p); [exact HP|reflexivity|exact HSeg|eapply blk_link; exact Hb].
  - destruct Hf as (Hpl & _ & _ & Hseg & _).
    apply (IH bl0); [apply Forall_snoc; assumption|].
    rewrite nested_marks_app, nested_marks_one. eapply Seg_app; [exact HSeg|exact Hseg].
  - destruct Hf as (Hpl & _ & _ & Hseg & _).
    assert (HP' : Forall plain (pend ++ [s'])) by (apply Forall_snoc; assumption).
    change (tagged_list tagged_in None (SCover mode (zlen bl1 + 1) :: (pend ++ [s']) ++ out))
      with (tagged_list tagged_in (Some (zlen bl1 + 1)) ((pend ++ [s']) ++ out)).
    rewrite tagged_list_app_plain by (try exact HP'; destruct pend; discriminate).
    rewrite marks_of_app.
    eapply Seg_app; [|exact (IH _ (Forall_nil _) (Seg_nil _))].
    apply (Seg_close bl0 bl1 b _ (first_of pend s')); [exact HP'|destruct pend; reflexivity| |eapply blk_link; exact Hb].
    rewrite nested_marks_app, nested_marks_one. eapply Seg_app; [exact HSeg|exact Hseg].
Qed.

(* every statement is counted once: in the chunk that is open or in a nested list *)
Lemma AL_sum ss bl pend out bl' : AL struct_step ss bl pend out bl' ->
  sum_num bl' = sum_num bl + zlen pend + nstmts_list ss.
Proof.
  induction 1 as [bl | bl p ps b Hb | s t bl pend s' bl1 out bl' Hf HAL IH
                 | s t bl pend s' bl1 b out bl' Hf Hb HAL IH].
  - rewrite zlen_nil. unfold nstmts_list. cbn [fold_right]. lia.
  - destruct Hb as (Hn & _). rewrite sum_num_snoc, Hn. unfold nstmts_list. cbn [fold_right]. lia.
  - destruct Hf as (_ & _ & _ & _ & Hsum).
    rewrite IH, Hsum, zlen_app, zlen_cons, zlen_nil.
    change (nstmts_list (s :: t)) with (nstmts s + nstmts_list t). lia.
  - destruct Hf as (_ & _ & _ & _ & Hsum).
    destruct Hb as (Hn & _).
    rewrite IH, sum_num_snoc, Hn, Hsum, zlen_app, zlen_cons, !zlen_nil.
    change (nstmts_list (s :: t)) with (nstmts s + nstmts_list t). lia.
Qed.

Definition list_rel (l' l : list (cstmt E)) : Prop :=
  erase_stmts l' = l /\ sok_list sok None l' /\ (l' = [] -> l = []) /\ (l = [] -> l' = []).

Lemma ann_stmts_nil bl : ann_stmts [] bl = ([], bl).
Proof. reflexivity. Qed.

Lemma ann_stmts_ok l bl : Forall stmt_ok l ->
  list_rel (fst (ann_stmts l bl)) l
  /\ Seg bl (snd (ann_stmts l bl)) (marks_of (tagged (fst (ann_stmts l bl))))
  /\ sum_num (snd (ann_stmts l bl)) = sum_num bl + nstmts_list l.
Proof.
  intros HF. unfold Cover.ann_stmts. pose proof (ann_loop_AL _ l HF bl []) as HAL.
  destruct (AL_shape _ _ _ _ _ HAL (Forall_nil _) (Forall_nil _)) as (H1 & H2 & H3).
  split; [|split].
  - split; [exact H1|]. split; [exact H2|]. split; [intros Ho; apply (H3 Ho)|]. intros ->. reflexivity.
  - exact (AL_seg _ _ _ _ _ HAL bl (Forall_nil _) (Seg_nil bl)).
  - rewrite (AL_sum _ _ _ _ _ HAL), zlen_nil. lia.
Qed.

Notation ann_lists := (@ann_lists E files mode).
Notation ann_actions := (@ann_actions E files mode).
Notation ann_body := (@ann_body E files mode).
Notation annotate := (@annotate E files mode).

Lemma ann_lists_rel ls : Forall (Forall stmt_ok) ls -> forall bl,
  Forall2 list_rel (fst (ann_lists ls bl)) ls
  /\ sum_num (snd (ann_lists ls bl)) = sum_num bl + nstmts_lists ls.
Proof.
  induction 1 as [|l t Hl _ IH]; intros bl.
  - split; [constructor|]. unfold nstmts_lists. cbn [Cover.ann_lists snd fold_right]. lia.
  - rewrite ann_lists_cons. cbn [fst snd].
    destruct (ann_stmts_ok l bl Hl) as (R1 & _ & M1). destruct (IH (snd (ann_stmts l bl))) as [R2 M2].
    split; [constructor; assumption|].
    rewrite M2, M1. change (nstmts_lists (l :: t)) with (nstmts_list l + nstmts_lists t). lia.
Qed.

Lemma lists_rel_parts ls' ls : Forall2 list_rel ls' ls ->
  map erase_stmts ls' = ls /\ Forall (sok_list sok None) ls'.
Proof.
  induction 1 as [|l' l t' t (R1 & R2 & _) _ [IH1 IH2]]; [split; constructor|].
  split; [cbn [map]; rewrite R1, IH1; reflexivity|constructor; assumption].
Qed.

(* the block-table relation that [thread_lists] and [thread_prog] carry for [Seg] *)
Definition seg_of (bl bl' : list block) (T : list (option Z * pos)) : Prop := Seg bl bl' (marks_of T).

Lemma seg_of_app bl bl1 bl2 a b : seg_of bl bl1 a -> seg_of bl1 bl2 b -> seg_of bl bl2 (a ++ b).
Proof. unfold seg_of. rewrite marks_of_app. apply Seg_app. Qed.

Lemma seg_of_stmts l bl : Forall stmt_ok l -> seg_of bl (snd (ann_stmts l bl)) (tagged (fst (ann_stmts l bl))).
Proof. intros H. apply (ann_stmts_ok l bl H). Qed.

Lemma stmt_ok_all (s : cstmt E) : nocov s = true -> stmt_ok s.
Proof.
  revert s. apply nocov_ind. intros s Hc IH. apply stmt_sat_intro. intros bl.
  destruct (ann_lists_rel _ IH bl) as [Hrel Hsum]. destruct (lists_rel_parts _ _ Hrel) as [Her Hsok].
  pose proof (thread_lists files mode seg_of tagged _ Seg_nil seg_of_app seg_of_stmts _ IH bl) as Hseg.
  pose proof (ann_lists_length files mode (bodies s) bl) as Hlen.
  set (ls' := fst (ann_lists (bodies s) bl)) in *.
  split; [unfold plain; rewrite (proj2 (proj2 (with_bodies_outer s ls'))); exact Hc|].
  split; [rewrite (erase_with_bodies s ls' Hlen), Her; apply with_bodies_same|].
  split; [apply sok_bodies; rewrite (bodies_with_bodies s ls' Hlen); exact Hsok|].
  split; [rewrite tagged_in_bodies, (bodies_with_bodies s ls' Hlen); exact Hseg|].
  rewrite Hsum, (nstmts_bodies s Hc). lia.
Qed.

(* positions are untouched: the tagged list of the annotated tree has the starts of the original *)
Lemma erase_plain (s : cstmt E) : plain s -> plain (erase s) /\ start_of (erase s) = start_of s.
Proof. destruct s; cbn; intros H; split; try reflexivity; discriminate H. Qed.

Lemma tagged_erase_list (l : list (cstmt E)) :
  Forall (fun s => map snd (tagged_in s) = map snd (tagged_in (erase s))) l ->
  forall prev, map snd (tagged_list tagged_in prev l) = map snd (tagged_list tagged_in None (erase_list erase l)).
Proof.
  induction 1 as [|s t Hs _ IH]; intros prev; [reflexivity|].
  destruct (is_cover s) eqn:Hc.
  - destruct s; try discriminate Hc. cbn [tagged_list erase_list]. apply IH.
  - destruct (erase_plain s Hc) as [Hp He].
    rewrite (erase_list_plain_cons s t Hc), !tagged_list_plain by assumption.
    cbn [map snd]. rewrite !map_app, Hs, (IH None), He. reflexivity.
Qed.

Lemma tagged_erase (s : cstmt E) : map snd (tagged_in s) = map snd (tagged_in (erase s)).
Proof.
  induction s as [s IH] using cstmt_bodies_ind.
  rewrite erase_bodies, !tagged_in_bodies, bodies_with_bodies by apply map_length.
  induction IH as [|l ls Hl _ IHls]; [reflexivity|].
  cbn [map concat]. rewrite !map_app, IHls. f_equal. apply (tagged_erase_list l Hl None).
Qed.

Lemma tagged_erase_stmts (l : list (cstmt E)) : map snd (tagged l) = map snd (tagged (erase_stmts l)).
Proof.
  apply tagged_erase_list. apply Forall_forall. intros s _. apply tagged_erase.
Qed.

Lemma lists_rel_tags ls' ls : Forall2 list_rel ls' ls ->
  map snd (concat (map tagged ls')) = map snd (concat (map tagged ls)).
Proof.
  induction 1 as [|l' l t' t (R1 & _) _ IH]; [reflexivity|].
  cbn [map concat]. rewrite !map_app, IH, tagged_erase_stmts, R1. reflexivity.
Qed.

(* how the annotated body relates to the original one: absent stays absent, present stays
   present, and empty exactly when the original is empty *)
Definition body_rel (b' b : option (list (cstmt E))) : Prop :=
  match b, b' with
  | None, None => True
  | Some l, Some l' => (l = [] <-> l' = []) /\ erase_stmts l' = l /\ sok_list sok None l'
  | _, _ => False
  end.
Definition action_rel (a' a : action E) : Prop := a_pat a' = a_pat a /\ body_rel (a_body a') (a_body a).

Definition nocov_body (b : option (list (cstmt E))) : bool :=
  match b with None => true | Some l => forallb nocov l end.
Definition nstmts_body (b : option (list (cstmt E))) : Z :=
  match b with None => 0 | Some l => nstmts_list l end.
Definition nstmts_actions (acts : list (action E)) : Z :=
  fold_right (fun a x => nstmts_body (a_body a) + x) 0 acts.

Lemma ann_body_rel b bl : on_body (Forall stmt_ok) True b ->
  body_rel (fst (ann_body b bl)) b /\ sum_num (snd (ann_body b bl)) = sum_num bl + nstmts_body b.
Proof.
  destruct b as [l|]; intros Hb; [|split; [exact I|cbn [Cover.ann_body snd nstmts_body]; lia]].
  rewrite ann_body_some. cbn [fst snd nstmts_body body_rel].
  destruct (ann_stmts_ok l bl Hb) as ((R1 & R2 & R3 & R4) & _ & M1).
  split; [|exact M1]. split; [split; assumption|]. split; assumption.
Qed.

Lemma ann_actions_rel acts : Forall (fun a => on_body (Forall stmt_ok) True (a_body a)) acts -> forall bl,
  Forall2 action_rel (fst (ann_actions acts bl)) acts
  /\ sum_num (snd (ann_actions acts bl)) = sum_num bl + nstmts_actions acts.
Proof.
  induction 1 as [|a t Ha _ IH]; intros bl.
  - split; [constructor|]. unfold nstmts_actions. cbn [Cover.ann_actions snd fold_right]. lia.
  - rewrite ann_actions_cons. cbn [fst snd].
    destruct (ann_body_rel (a_body a) bl Ha) as [R1 M1].
    destruct (IH (snd (ann_body (a_body a) bl))) as [R2 M2].
    split; [constructor; [split; [reflexivity|exact R1]|exact R2]|].
    rewrite M2, M1. change (nstmts_actions (a :: t)) with (nstmts_body (a_body a) + nstmts_actions t). lia.
Qed.

Lemma actions_rel_tags acts' acts : Forall2 action_rel acts' acts ->
  map snd (concat (map (fun a => tagged_body (a_body a)) acts'))
  = map snd (concat (map (fun a => tagged_body (a_body a)) acts)).
Proof.
  induction 1 as [|a' a t' t [_ Hb] _ IH]; [reflexivity|].
  cbn [map concat]. rewrite !map_app, IH. f_equal. unfold body_rel in Hb.
  destruct (a_body a) as [l|], (a_body a') as [l'|]; try contradiction; [|reflexivity].
  destruct Hb as (_ & He & _). cbn [tagged_body]. rewrite tagged_erase_stmts, He. reflexivity.
Qed.

Definition nocov_prog (P : program E) : bool :=
  forallb (forallb nocov) (p_begin P) && forallb (fun a => nocov_body (a_body a)) (p_actions P)
  && forallb (forallb nocov) (p_end P) && forallb (forallb nocov) (p_funcs P).
Definition nstmts_prog (P : program E) : Z :=
  nstmts_lists (p_begin P) + nstmts_actions (p_actions P) + nstmts_lists (p_end P) + nstmts_lists (p_funcs P).

Lemma nocov_prog_all (Q : cstmt E -> Prop) : (forall s, nocov s = true -> Q s) ->
  forall P, nocov_prog P = true -> all_bodies (Forall Q) P.
Proof.
  intros HQ P Hn. unfold nocov_prog in Hn.
  apply andb_prop in Hn as [Hn H4]. apply andb_prop in Hn as [Hn H3]. apply andb_prop in Hn as [H1 H2].
  assert (L : forall l, forallb nocov l = true -> Forall Q l).
  { intros l. apply Forall_forallb, Forall_forall. intros s _. apply HQ. }
  assert (LL : forall ls, forallb (forallb nocov) ls = true -> Forall (Forall Q) ls).
  { intros ls. apply Forall_forallb, Forall_forall. intros l _. apply L. }
  split; [apply LL; exact H1|]. split; [|split; apply LL; assumption].
  revert H2. apply Forall_forallb, Forall_forall. intros a _.
  destruct (a_body a) as [l|]; cbn [nocov_body on_body]; [apply L|intros _; exact I].
Qed.

Record ann_ok (P A : program E) (B : list block) : Prop := mk_ann_ok {
  ao_begin : Forall2 list_rel (p_begin A) (p_begin P);
  ao_actions : Forall2 action_rel (p_actions A) (p_actions P);
  ao_end : Forall2 list_rel (p_end A) (p_end P);
  ao_funcs : Forall2 list_rel (p_funcs A) (p_funcs P);
  ao_seg : Seg [] B (marks_of (tagged_prog A));
  ao_sum : sum_num B = nstmts_prog P;
  ao_tags : map snd (tagged_prog A) = map snd (tagged_prog P) }.

Theorem annotate_ok P : nocov_prog P = true -> ann_ok P (fst (annotate P)) (snd (annotate P)).
Proof.
  intros Hn. pose proof (nocov_prog_all stmt_ok stmt_ok_all P Hn) as HA.
  pose proof (thread_prog files mode seg_of tagged _ Seg_nil seg_of_app seg_of_stmts P HA) as HS.
  destruct HA as (H1 & H2 & H3 & H4).
  rewrite annotate_eq in *. cbn zeta in *. cbn [fst snd] in *.
  destruct (ann_lists_rel (p_begin P) H1 []) as [R1 M1].
  set (b1 := snd (ann_lists (p_begin P) [])) in *.
  destruct (ann_actions_rel (p_actions P) H2 b1) as [R2 M2].
  set (b2 := snd (ann_actions (p_actions P) b1)) in *.
  destruct (ann_lists_rel (p_end P) H3 b2) as [R3 M3].
  set (b3 := snd (ann_lists (p_end P) b2)) in *.
  destruct (ann_lists_rel (p_funcs P) H4 b3) as [R4 M4].
  constructor; cbn [p_begin p_actions p_end p_funcs]; try assumption.
  - rewrite M4, M3, M2, M1. change (sum_num []) with 0. unfold nstmts_prog. lia.
  - unfold tagged_prog. cbn [p_begin p_actions p_end p_funcs]. rewrite !map_app.
    rewrite (lists_rel_tags _ _ R1), (actions_rel_tags _ _ R2), (lists_rel_tags _ _ R3), (lists_rel_tags _ _ R4).
    reflexivity.
Qed.

End Struct.

(* as many BEGIN blocks, rules, END blocks and functions as before; every rule keeps its pattern
   and has an action body exactly when it had one; a BEGIN / END / function body is empty exactly
   when it was empty.  (So "BEGIN-only program", "has an END block", "rule without action" --
   the facts the interpreter's driver looks at -- are unchanged.) *)
Theorem block_structure {E : Type} files mode (P : program E) : nocov_prog P = true ->
  let A := fst (annotate files mode P) in
  let same_shape := fun (l' l : list (cstmt E)) => l' = [] <-> l = [] in
  Forall2 same_shape (p_begin A) (p_begin P)
  /\ Forall2 same_shape (p_end A) (p_end P)
  /\ Forall2 same_shape (p_funcs A) (p_funcs P)
  /\ Forall2 (fun a' a => a_pat a' = a_pat a
                /\ match a_body a', a_body a with
                   | None, None => True
                   | Some l', Some l => l' = [] <-> l = []
                   | _, _ => False
                   end) (p_actions A) (p_actions P).
Proof.
  intros Hn A same_shape. destruct (annotate_ok files mode P Hn) as [Hb Ha He Hf _ _ _]. fold A in Hb, Ha, He, Hf.
  assert (HL : forall ls' ls, Forall2 (list_rel mode) ls' ls -> Forall2 same_shape ls' ls).
  { induction 1 as [|l' l t' t (_ & _ & R3 & R4) _ IH]; constructor; [split; assumption|exact IH]. }
  split; [apply HL; exact Hb|]. split; [apply HL; exact He|]. split; [apply HL; exact Hf|].
  clear -Ha. induction Ha as [|a' a t' t [Hp Hb] _ IH]; constructor; [|exact IH].
  split; [exact Hp|]. unfold body_rel in Hb.
  destruct (a_body a) as [l|], (a_body a') as [l'|]; try contradiction; [|exact I].
  destruct Hb as (Hemp & _). split; apply Hemp.
Qed.
