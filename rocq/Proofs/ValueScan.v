(* C05: the two string->number routines.  Lexical lemmas shared by the proofs about
   parseFloatPrefix (the scanner), strconv's readFloat and parseFloat; what parseFloat accepts,
   in the scanner's terms ([parse_float_ok_inv]); hence [coherence]: a text parseFloat reads as
   x is read as x by the scanner too. *)
From Verif Require Import Lib.Base Lib.Dyadic Lib.Utf8 Model.Value.

Definition stops (p : Z -> bool) (r : bytes) : Prop :=
  match r with c :: _ => p c = false | [] => True end.

Lemma span_spec p s :
  s = fst (span p s) ++ snd (span p s) /\ forallb p (fst (span p s)) = true /\ stops p (snd (span p s)).
Proof.
  induction s as [|c t IH]; cbn [span].
  - repeat split.
  - destruct (p c) eqn:E.
    + destruct (span p t) as [a b]. cbn [fst snd] in *. destruct IH as [H1 [H2 H3]].
      repeat split; [rewrite H1 at 1; reflexivity| cbn [forallb]; rewrite E, H2; reflexivity | exact H3].
    + cbn [fst snd app forallb stops]. repeat split. exact E.
Qed.

Lemma span_stop p a r : forallb p a = true -> stops p r -> span p (a ++ r) = (a, r).
Proof.
  induction a as [|c a IH]; cbn [app forallb]; intros Ha Hr.
  - destruct r as [|c r]; cbn [span]; [reflexivity|]. cbn [stops] in Hr. rewrite Hr. reflexivity.
  - apply andb_true_iff in Ha as [Hc Ha]. cbn [span]. rewrite Hc, (IH Ha Hr). reflexivity.
Qed.

Lemma span_eq p s a r : span p s = (a, r) -> s = a ++ r /\ forallb p a = true /\ stops p r.
Proof. intro H. pose proof (span_spec p s) as S. rewrite H in S. exact S. Qed.

Lemma span_app_rest p s w : snd (span p s) <> [] -> span p (s ++ w) = (fst (span p s), snd (span p s) ++ w).
Proof.
  induction s as [|c t IH]; cbn [span]; intro H.
  - cbn in H. congruence.
  - cbn [app span]. destruct (p c) eqn:E.
    + destruct (span p t) as [a b] eqn:Et. cbn [fst snd] in *. rewrite (IH H). reflexivity.
    + reflexivity.
Qed.

Lemma stops_app p r w : r <> [] -> stops p r -> stops p (r ++ w).
Proof. destruct r; [congruence|]. cbn. auto. Qed.

Lemma contains_app x a b : contains x (a ++ b) = contains x a || contains x b.
Proof. induction a as [|c a IH]; cbn [app contains]; [reflexivity|]. rewrite IH, orb_assoc. reflexivity. Qed.

Lemma contains_app_r x a b : contains x (a ++ b) = false -> contains x b = false.
Proof. rewrite contains_app. intro H. apply orb_false_iff in H as [_ H]. exact H. Qed.

Lemma contains_false_forall x s : contains x s = false <-> forallb (fun c => negb (c =? x)) s = true.
Proof.
  induction s as [|c s IH]; cbn [contains forallb]; [tauto|].
  rewrite orb_false_iff, andb_true_iff, IH, negb_true_iff. tauto.
Qed.

Lemma lower_cases c : lower c = c \/ lower c = c + 32.
Proof. unfold lower. destruct (Z.testbit c 5); auto. Qed.

Lemma lower_is v c (lo : Z) :
  lo = v - 32 -> Z.testbit v 5 = true -> Z.testbit lo 5 = false ->
  (lower c =? v) = (c =? v) || (c =? lo).
Proof.
  intros -> Hv Hlo.
  destruct (Z.eqb_spec c v) as [->|N1].
  - unfold lower. rewrite Hv, Z.eqb_refl. reflexivity.
  - destruct (Z.eqb_spec c (v - 32)) as [->|N2].
    + unfold lower. rewrite Hlo. cbn [orb]. apply Z.eqb_eq. lia.
    + cbn [orb]. apply Z.eqb_neq. destruct (lower_cases c) as [H|H]; rewrite H; lia.
Qed.

Lemma lower_x c : (lower c =? 120) = (c =? 120) || (c =? 88).
Proof. apply lower_is; reflexivity. Qed.
Lemma lower_e c : (lower c =? 101) = (c =? 101) || (c =? 69).
Proof. apply lower_is; reflexivity. Qed.
Lemma lower_p c : (lower c =? 112) = (c =? 112) || (c =? 80).
Proof. apply lower_is; reflexivity. Qed.

Lemma is_hex_letter_spec c :
  is_hex_letter c = ((97 <=? c) && (c <=? 102)) || ((65 <=? c) && (c <=? 70)).
Proof.
  unfold is_hex_letter.
  destruct ((97 <=? c) && (c <=? 102)) eqn:A.
  - assert (c = 97 \/ c = 98 \/ c = 99 \/ c = 100 \/ c = 101 \/ c = 102) as H by lia.
    destruct H as [->|[->|[->|[->|[->| ->]]]]]; reflexivity.
  - destruct ((65 <=? c) && (c <=? 70)) eqn:B.
    + assert (c = 65 \/ c = 66 \/ c = 67 \/ c = 68 \/ c = 69 \/ c = 70) as H by lia.
      destruct H as [->|[->|[->|[->|[->| ->]]]]]; reflexivity.
    + cbn [orb]. destruct (lower_cases c) as [H|H]; rewrite H; lia.
Qed.

Lemma is_hex_digit_spec c : is_hex_digit c = is_digit c || is_hex_letter c.
Proof. unfold is_hex_digit. rewrite is_hex_letter_spec, orb_assoc. reflexivity. Qed.

(* the digit class of readFloat's mantissa loop *)
Definition mant_digit (hex : bool) (c : Z) : bool := is_digit c || (hex && is_hex_letter c).

Lemma mant_digit_dec c : mant_digit false c = is_digit c.
Proof. unfold mant_digit. cbn [andb]. apply orb_false_r. Qed.
Lemma mant_digit_hex c : mant_digit true c = is_hex_digit c.
Proof. unfold mant_digit. cbn [andb]. symmetry. apply is_hex_digit_spec. Qed.

Lemma mant_digit_not_special hex c : mant_digit hex c = true -> c <> 95 /\ c <> 46.
Proof.
  unfold mant_digit. rewrite is_hex_letter_spec. unfold is_digit. intro H. lia.
Qed.

(* mantissa lexing: digits, optional point, digits *)
Definition lex_mant (p : Z -> bool) (u : bytes) : bytes * bytes * bytes * bytes :=
  let '(d1, r1) := span p u in
  let '(dot, r2) := opt_dot r1 in
  let '(d2, r3) := span p r2 in
  (d1, dot, d2, r3).

Lemma opt_dot_spec r : r = fst (opt_dot r) ++ snd (opt_dot r) /\
  ((fst (opt_dot r) = [46]) \/ (fst (opt_dot r) = [] /\ stops (fun c => c =? 46) r)).
Proof.
  destruct r as [|c t]; cbn [opt_dot].
  - split; [reflexivity|right; split; [reflexivity|exact I]].
  - destruct (Z.eqb_spec c 46) as [->|N]; cbn [fst snd app].
    + split; [reflexivity|left; reflexivity].
    + split; [reflexivity|right; split; [reflexivity|]]. cbn [stops]. apply Z.eqb_neq. exact N.
Qed.

Lemma lex_mant_spec p u d1 dot d2 r3 :
  lex_mant p u = (d1, dot, d2, r3) ->
  u = d1 ++ dot ++ d2 ++ r3 /\ forallb p d1 = true /\ forallb p d2 = true /\
  (dot = [46] \/ dot = []) /\ stops p r3 /\
  (dot = [] -> d2 = [] /\ stops (fun c => c =? 46) r3).
Proof.
  unfold lex_mant. destruct (span p u) as [a r1] eqn:E1. destruct (opt_dot r1) as [dt r2] eqn:E2.
  destruct (span p r2) as [b r] eqn:E3. intro H. injection H as <- <- <- <-.
  pose proof (span_eq _ _ _ _ E1) as [H1 [H2 H3]]. pose proof (span_eq _ _ _ _ E3) as [H4 [H5 H6]].
  pose proof (opt_dot_spec r1) as [H7 H8]. rewrite E2 in H7, H8. cbn [fst snd] in H7, H8.
  split; [rewrite H1, H7, H4; reflexivity|]. split; [exact H2|]. split; [exact H5|].
  split; [destruct H8 as [H8|[H8 _]]; auto|]. split; [exact H6|].
  intro Hd. destruct H8 as [H8|[_ H8]]; [congruence|].
  subst dt. cbn [app] in H7. subst r1.
  (* r2 does not start with a p-character (end of the first span), so the second span is empty *)
  destruct r2 as [|c r2'].
  - cbn [span] in E3. injection E3 as <- <-. split; [reflexivity|exact I].
  - cbn [stops] in H3. cbn [span] in E3. rewrite H3 in E3. injection E3 as <- <-. split; [reflexivity|exact H8].
Qed.

Lemma lex_mant_intro p a dot b w :
  p 46 = false -> forallb p a = true -> forallb p b = true ->
  (dot = [46] \/ (dot = [] /\ b = [])) -> stops p w -> (dot = [] -> stops (fun c => c =? 46) w) ->
  lex_mant p (a ++ dot ++ b ++ w) = (a, dot, b, w).
Proof.
  intros Hp46 Ha Hb Hdot Hw Hw46. unfold lex_mant. destruct Hdot as [-> | [-> ->]].
  - rewrite (span_stop p a ([46] ++ b ++ w) Ha) by (cbn [app stops]; exact Hp46).
    cbn [app opt_dot]. rewrite Z.eqb_refl, (span_stop p b w Hb Hw). reflexivity.
  - cbn [app]. rewrite (span_stop p a w Ha Hw). specialize (Hw46 eq_refl).
    destruct w as [|c t]; [reflexivity|]. cbn [stops] in Hw, Hw46.
    cbn [opt_dot]. rewrite Hw46. cbn [span]. rewrite Hw. reflexivity.
Qed.

Lemma lex_mant_app p u w d1 dot d2 r3 :
  p 46 = false ->
  lex_mant p u = (d1, dot, d2, r3) ->
  (r3 = [] -> stops p w /\ stops (fun c => c =? 46) w) ->
  lex_mant p (u ++ w) = (d1, dot, d2, r3 ++ w).
Proof.
  intros Hp46 H Hw. pose proof (lex_mant_spec p u d1 dot d2 r3 H) as [-> [H1 [H2 [Hd [H3 H4]]]]].
  rewrite <- !app_assoc. apply lex_mant_intro; try assumption.
  - destruct Hd as [-> | ->]; [left; reflexivity|right; split; [reflexivity|exact (proj1 (H4 eq_refl))]].
  - destruct r3; [exact (proj1 (Hw eq_refl))|exact H3].
  - intro Hd0. destruct r3; [exact (proj2 (Hw eq_refl))|exact (proj2 (H4 Hd0))].
Qed.

Lemma span_prefix p a r : forallb p a = true -> span p (a ++ r) = (a ++ fst (span p r), snd (span p r)).
Proof.
  induction a as [|c a IH]; cbn [app forallb]; intro Ha.
  - destruct (span p r); reflexivity.
  - apply andb_true_iff in Ha as [Hc Ha]. cbn [span]. rewrite Hc, (IH Ha). reflexivity.
Qed.

(* readFloat on underscore-free text *)
Lemma rf_loop_run hex run : forall rest sd sg und nd dp digs,
  forallb (mant_digit hex) run = true ->
  exists nd' dp' digs', rf_loop hex (run ++ rest) sd sg und nd dp digs =
                        rf_loop hex rest sd (sg || negb (is_nil run)) und nd' dp' digs'.
Proof.
  induction run as [|c run IH]; intros rest sd sg und nd dp digs Hr.
  - exists nd, dp, digs. cbn [app is_nil negb]. rewrite orb_false_r. reflexivity.
  - cbn [forallb] in Hr. apply andb_true_iff in Hr as [Hc Hr].
    destruct (mant_digit_not_special hex c Hc) as [N95 N46].
    cbn [app rf_loop].
    replace (c =? 95) with false by (symmetry; apply Z.eqb_neq; exact N95).
    replace (c =? 46) with false by (symmetry; apply Z.eqb_neq; exact N46).
    cbn [is_nil negb]. rewrite orb_true_r.
    unfold mant_digit in Hc.
    destruct (is_digit c) eqn:Ed.
    + destruct ((c =? 48) && (nd =? 0)).
      * destruct (IH rest sd true und nd (dp - 1) digs Hr) as [a [b [d H]]]. exists a, b, d. rewrite H. reflexivity.
      * destruct (IH rest sd true und (nd + 1) dp ((c - 48) :: digs) Hr) as [a [b [d H]]]. exists a, b, d. rewrite H. reflexivity.
    + cbn [orb] in Hc. rewrite Hc.
      destruct (IH rest sd true und (nd + 1) dp ((lower c - 97 + 10) :: digs) Hr) as [a [b [d H]]].
      exists a, b, d. rewrite H. reflexivity.
Qed.

Lemma rf_loop_stop hex rest sd sg und nd dp digs :
  stops (mant_digit hex) rest -> stops (fun c => c =? 95) rest ->
  (sd = true \/ stops (fun c => c =? 46) rest) ->
  rf_loop hex rest sd sg und nd dp digs = ((sd, sg, und, nd, dp, digs), rest).
Proof.
  destruct rest as [|c t]; [reflexivity|]. cbn [stops]. intros Hm H95 H46.
  cbn [rf_loop]. rewrite H95.
  unfold mant_digit in Hm. apply orb_false_iff in Hm as [Hd Hh]. rewrite Hd, Hh.
  destruct (c =? 46) eqn:E; [|reflexivity].
  destruct H46 as [-> | H46]; [reflexivity|congruence].
Qed.

Lemma stops_no_underscore r : contains 95 r = false -> stops (fun c => c =? 95) r.
Proof. destruct r as [|c t]; cbn [contains stops]; [auto|]. intro H. apply orb_false_iff in H as [H _]. exact H. Qed.

Lemma rf_loop_lex hex u d1 dot d2 r3 :
  contains 95 u = false -> lex_mant (mant_digit hex) u = (d1, dot, d2, r3) ->
  exists nd dp digs, rf_loop hex u false false false 0 0 [] =
     ((negb (is_nil dot), negb (is_nil d1 && is_nil d2), false, nd, dp, digs), r3).
Proof.
  intros Hu Hl.
  pose proof (lex_mant_spec _ _ _ _ _ _ Hl) as [Eu [H1 [H2 [Hd [H3 H4]]]]].
  assert (H95 : stops (fun c => c =? 95) r3).
  { apply stops_no_underscore. rewrite Eu in Hu. do 3 apply contains_app_r in Hu. exact Hu. }
  subst u.
  destruct (rf_loop_run hex d1 (dot ++ d2 ++ r3) false false false 0 0 [] H1) as [nd1 [dp1 [dg1 E1]]].
  rewrite E1. cbn [orb].
  destruct Hd as [-> | ->].
  - cbn [app rf_loop]. cbn [Z.eqb Pos.eqb].
    destruct (rf_loop_run hex d2 r3 true (negb (is_nil d1)) false nd1 nd1 dg1 H2) as [nd2 [dp2 [dg2 E2]]].
    rewrite E2. rewrite rf_loop_stop by (auto).
    exists nd2, dp2, dg2. cbn [is_nil negb]. f_equal. f_equal. f_equal. f_equal. f_equal.
    destruct d1, d2; reflexivity.
  - destruct (H4 eq_refl) as [-> H46]. cbn [app].
    rewrite rf_loop_stop by (auto).
    exists nd1, dp1, dg1. cbn [is_nil negb]. f_equal. f_equal. f_equal. f_equal. f_equal.
    destruct d1; reflexivity.
Qed.

Lemma rf_exp_digits_span s : forall e und,
  contains 95 s = false -> exists e', rf_exp_digits s e und = (e', und, snd (span is_digit s)).
Proof.
  induction s as [|c t IH]; intros e und H.
  - exists e. reflexivity.
  - cbn [contains] in H. apply orb_false_iff in H as [Hc Ht]. cbn [rf_exp_digits span]. rewrite Hc.
    destruct (is_digit c).
    + destruct (IH (if e <? 10000 then e * 10 + (c - 48) else e) und Ht) as [e' He]. exists e'. rewrite He.
      destruct (span is_digit t); reflexivity.
    + exists e. reflexivity.
Qed.

Definition hex_of (u : bytes) : bool := (2 <? zlen u) && has_hex_prefix u.
Definition body_of (u : bytes) : bytes := if hex_of u then zdrop 2 u else u.

Lemma zlen_ge3 {A} (a b c : A) r : (2 <? zlen (a :: b :: c :: r)) = true.
Proof. apply Z.ltb_lt. rewrite !zlen_cons. pose proof (zlen_nonneg r). lia. Qed.

Lemma zlen_ge3' {A} (a b c : A) r : (3 <=? zlen (a :: b :: c :: r)) = true.
Proof. apply Z.leb_le. rewrite !zlen_cons. pose proof (zlen_nonneg r). lia. Qed.

Lemma hex_split u :
  (match u with
   | a :: b :: ((_ :: _) as r) => if (a =? 48) && (lower b =? 120) then (true, r) else (false, u)
   | _ => (false, u)
   end) = (hex_of u, body_of u).
Proof.
  unfold body_of, hex_of.
  destruct u as [|a [|b [|c r]]]; try reflexivity.
  rewrite zlen_ge3. cbn [andb has_hex_prefix]. rewrite lower_x.
  destruct ((a =? 48) && ((b =? 120) || (b =? 88))); reflexivity.
Qed.

Lemma opt_sign_cons c t : opt_sign (c :: t) = if (c =? 43) || (c =? 45) then ([c], t) else ([], c :: t).
Proof. reflexivity. Qed.

Definition sign_str (sg : bytes) : Prop := sg = [] \/ sg = [43] \/ sg = [45].

Lemma is_sign_str c : is_sign c = true -> sign_str [c].
Proof. unfold is_sign, sign_str. intro H. assert (c = 43 \/ c = 45) as [-> | ->] by lia; auto. Qed.

Lemma opt_sign_inv s es ed : opt_sign s = (es, ed) -> s = es ++ ed /\ sign_str es.
Proof.
  destruct s as [|c t]; cbn [opt_sign].
  - intro H; injection H as <- <-. split; [reflexivity|left; reflexivity].
  - destruct (is_sign c) eqn:E; intro H; injection H as <- <-.
    + split; [reflexivity|exact (is_sign_str c E)].
    + split; [reflexivity|left; reflexivity].
Qed.

(* readFloat skips a sign by this test, at the head and after the exponent letter *)
Lemma opt_sign_snd c t : (if (c =? 43) || (c =? 45) then t else c :: t) = snd (opt_sign (c :: t)).
Proof. rewrite opt_sign_cons. destruct ((c =? 43) || (c =? 45)); reflexivity. Qed.

Lemma contains_zdrop x n s : contains x s = false -> contains x (zdrop n s) = false.
Proof.
  unfold zdrop. generalize (Z.to_nat n) as k. intro k. revert s.
  induction k as [|k IH]; intros s H; [exact H|].
  destruct s as [|c t]; [reflexivity|]. cbn [skipn]. apply IH.
  cbn [contains] in H. apply orb_false_iff in H as [_ H]. exact H.
Qed.

(* the exponent part as readFloat wants it: the marker, an optional sign, digits to the end *)
Definition exp_shape (hex : bool) (r3 : bytes) : Prop :=
  exists c es ed, r3 = c :: es ++ ed /\ (lower c =? (if hex then 112 else 101)) = true /\
    opt_sign (es ++ ed) = (es, ed) /\ ed <> [] /\ forallb is_digit ed = true.

(* what an underscore-free text accepted by readFloat looks like, in terms of the lexing
   functions the scanner uses *)
Lemma read_float_accept s d :
  contains 95 s = false -> read_float s = Some (d, []) ->
  exists sg u d1 dot d2 r3,
    s <> [] /\ opt_sign s = (sg, u) /\
    lex_mant (mant_digit (hex_of u)) (body_of u) = (d1, dot, d2, r3) /\
    is_nil d1 && is_nil d2 = false /\
    ((r3 = [] /\ hex_of u = false) \/
     exp_shape (hex_of u) r3).
Proof.
  intros Hus Hrf. destruct s as [|c0 t0]; [discriminate|].
  unfold read_float in Hrf. rewrite opt_sign_snd in Hrf.
  destruct (opt_sign (c0 :: t0)) as [sg u] eqn:Hos. cbn [snd] in Hrf.
  destruct (opt_sign_inv _ _ _ Hos) as [Es _].
  assert (Huu : contains 95 u = false) by (rewrite Es in Hus; exact (contains_app_r _ _ _ Hus)).
  rewrite hex_split in Hrf.
  assert (Hub : contains 95 (body_of u) = false).
  { unfold body_of. destruct (hex_of u); [apply contains_zdrop|]; exact Huu. }
  destruct (lex_mant (mant_digit (hex_of u)) (body_of u)) as [[[d1 dot] d2] r3] eqn:Hl.
  destruct (rf_loop_lex _ _ _ _ _ _ Hub Hl) as [nd [dp [digs Hloop]]].
  rewrite Hloop in Hrf.
  pose proof (lex_mant_spec _ _ _ _ _ _ Hl) as [Eb _].
  assert (H95 : contains 95 r3 = false).
  { rewrite Eb in Hub. do 3 apply contains_app_r in Hub. exact Hub. }
  destruct (is_nil d1 && is_nil d2) eqn:Hnil; [discriminate|]. cbn [negb andb] in Hrf.
  exists sg, u, d1, dot, d2, r3.
  split; [discriminate|]. split; [reflexivity|]. split; [exact Hl|]. split; [first [exact Hnil|reflexivity]|].
  destruct r3 as [|c r1].
  - left. destruct (hex_of u); [discriminate|]. split; reflexivity.
  - right.
    destruct (lower c =? (if hex_of u then 112 else 101)) eqn:Ec.
    + destruct r1 as [|c1 r2]; [discriminate|].
      apply (contains_app_r 95 [c]) in H95.
      rewrite opt_sign_snd in Hrf. destruct (opt_sign (c1 :: r2)) as [es ed] eqn:Hose. cbn [snd] in Hrf.
      destruct (opt_sign_inv _ _ _ Hose) as [Ee _]. rewrite Ee in H95 |- *. apply contains_app_r in H95.
      destruct ed as [|c2 r4]; [discriminate|].
      destruct (is_digit c2) eqn:Ed2; [|discriminate].
      destruct (rf_exp_digits_span (c2 :: r4) 0 false H95) as [e' He]. rewrite He in Hrf.
      cbn [andb] in Hrf. injection Hrf as _ Hrest.
      change (snd (span is_digit (c2 :: r4)) = []) in Hrest.
      pose proof (span_spec is_digit (c2 :: r4)) as [Hs1 [Hs2 _]]. rewrite Hrest, app_nil_r in Hs1.
      exists c, es, (c2 :: r4).
      split; [reflexivity|]. split; [exact Ec|]. split; [rewrite <- Ee; exact Hose|]. split; [discriminate|rewrite Hs1; exact Hs2].
    + exfalso. destruct (hex_of u); [discriminate|]. cbn [andb] in Hrf. discriminate.
Qed.

(* the scanner, restated over the lexing function *)
Lemma span_ext p q s : (forall c, p c = q c) -> span p s = span q s.
Proof. intro H. induction s as [|c t IH]; cbn [span]; [reflexivity|]. rewrite <- H, IH. reflexivity. Qed.

Lemma lex_mant_ext p q u : (forall c, p c = q c) -> lex_mant p u = lex_mant q u.
Proof.
  intro H. unfold lex_mant. rewrite (span_ext p q u H). destruct (span q u) as [d1 r1].
  destruct (opt_dot r1) as [dot r2]. rewrite (span_ext p q r2 H). reflexivity.
Qed.

Lemma mant_digit_46 hex : mant_digit hex 46 = false.
Proof. destruct hex; reflexivity. Qed.

Definition pre_of (u : bytes) : bytes := if hex_of u then ztake 2 u else [].

Lemma pre_body u : pre_of u ++ body_of u = u.
Proof. unfold pre_of, body_of. destruct (hex_of u); [apply ztake_zdrop|reflexivity]. Qed.

(* past the nan / inf tests, both radixes as one: pre is "0x" or empty, body what follows it *)
Definition scan_num (start : Z) (hex : bool) (sg pre body : bytes) : pscan :=
  let '(d1, dot, d2, r3) := lex_mant (mant_digit hex) body in
  let ex := scan_exp (if hex then 112 else 101) (if hex then 80 else 69) r3 in
  if is_nil d1 && is_nil d2 then PSZero
  else PSNum start (sg ++ pre ++ d1 ++ dot ++ d2 ++ ex) (hex && is_nil ex).

Definition scan_t (start : Z) (t : bytes) : pscan :=
  let '(sg, u) := opt_sign t in
  if (3 <=? zlen u) && has_nan_prefix u then PSNaN
  else if (3 <=? zlen u) && has_inf_prefix u then
    match t with c :: _ => PSInf (c =? 45) | [] => PSPanic end
  else scan_num start (hex_of u) sg (pre_of u) (body_of u).

Lemma scan_prefix_eq s :
  scan_prefix s = scan_t (zlen (fst (span ascii_space s))) (snd (span ascii_space s)).
Proof.
  unfold scan_prefix, scan_t, scan_num, pre_of, body_of, hex_of, lex_mant.
  destruct (span ascii_space s) as [ws t]. cbn [fst snd].
  destruct (opt_sign t) as [sg u].
  destruct ((3 <=? zlen u) && has_nan_prefix u); [reflexivity|].
  destruct ((3 <=? zlen u) && has_inf_prefix u); [reflexivity|].
  destruct ((2 <? zlen u) && has_hex_prefix u).
  - unfold scan_hex. rewrite (span_ext _ _ (zdrop 2 u) mant_digit_hex).
    destruct (span is_hex_digit (zdrop 2 u)) as [d1 r1]. destruct (opt_dot r1) as [dot r2].
    rewrite (span_ext _ _ r2 mant_digit_hex). destruct (span is_hex_digit r2) as [d2 r3]. reflexivity.
  - rewrite (span_ext _ _ u mant_digit_dec).
    destruct (span is_digit u) as [d1 r1]. destruct (opt_dot r1) as [dot r2].
    rewrite (span_ext _ _ r2 mant_digit_dec). destruct (span is_digit r2) as [d2 r3]. reflexivity.
Qed.

(* c [sign] digits+ *)
Definition exponent (lo up : Z) (x : bytes) : Prop :=
  exists c es ed, x = c :: es ++ ed /\ (c = lo \/ c = up) /\ sign_str es /\ ed <> [] /\ forallb is_digit ed = true.

Lemma digit_not_sign c : is_digit c = true -> is_sign c = false.
Proof. unfold is_digit, is_sign. intro H. lia. Qed.

Lemma opt_sign_shape es ed tail :
  sign_str es -> ed <> [] -> forallb is_digit ed = true -> opt_sign (es ++ ed ++ tail) = (es, ed ++ tail).
Proof.
  intros Hes Hne Hd. destruct ed as [|d ed']; [congruence|].
  cbn [forallb] in Hd. apply andb_true_iff in Hd as [Hd _].
  destruct Hes as [-> | [-> | ->]]; cbn [app opt_sign]; try reflexivity.
  rewrite (digit_not_sign d Hd). reflexivity.
Qed.

Lemma exp_shape_exponent hex r3 :
  exp_shape hex r3 <-> exponent (if hex then 112 else 101) (if hex then 80 else 69) r3.
Proof.
  split; intros (c & es & ed & -> & Hc & H); exists c, es, ed; (split; [reflexivity|]).
  - destruct H as (Hos & Hne & Hd). destruct (opt_sign_inv _ _ _ Hos) as [_ Hes].
    split; [|auto]. destruct hex; [rewrite lower_p in Hc|rewrite lower_e in Hc]; lia.
  - destruct H as (Hes & Hne & Hd). split; [destruct hex, Hc as [-> | ->]; reflexivity|].
    pose proof (opt_sign_shape es ed [] Hes Hne Hd) as H. rewrite !app_nil_r in H. auto.
Qed.

Lemma scan_exp_shape lo up c es ed tail :
  (c = lo \/ c = up) -> sign_str es -> ed <> [] -> forallb is_digit ed = true ->
  scan_exp lo up (c :: es ++ ed ++ tail) = c :: es ++ ed ++ fst (span is_digit tail).
Proof.
  intros Hc Hes Hne Hd. unfold scan_exp.
  replace ((c =? lo) || (c =? up)) with true
    by (symmetry; apply orb_true_iff; destruct Hc as [-> | ->]; [left|right]; apply Z.eqb_refl).
  rewrite (opt_sign_shape es ed tail Hes Hne Hd).
  rewrite (span_prefix is_digit ed tail Hd).
  destruct ed as [|d ed']; [congruence|]. cbn [app is_nil]. reflexivity.
Qed.

Lemma scan_exp_spec lo up r :
  (exists r', r = scan_exp lo up r ++ r') /\ (scan_exp lo up r = [] \/ exponent lo up (scan_exp lo up r)).
Proof.
  unfold scan_exp. destruct r as [|c r4]; [split; [exists []; reflexivity|left; reflexivity]|].
  destruct ((c =? lo) || (c =? up)) eqn:Ec; [|split; [eexists; reflexivity|left; reflexivity]].
  destruct (opt_sign r4) as [es r5] eqn:Es. destruct (span is_digit r5) as [ed r6] eqn:Ed.
  destruct (opt_sign_inv _ _ _ Es) as [-> Hes]. destruct (span_eq _ _ _ _ Ed) as [-> [Hd _]].
  destruct ed as [|d ed']; cbn [is_nil]; [split; [eexists; reflexivity|left; reflexivity]|].
  split.
  - exists r6. cbn [app]. rewrite <- !app_assoc. reflexivity.
  - right. exists c, es, (d :: ed'). split; [reflexivity|]. split.
    + apply orb_true_iff in Ec as [E|E]; apply Z.eqb_eq in E; auto.
    + split; [exact Hes|]. split; [discriminate|exact Hd].
Qed.

Lemma scan_exp_blank lo up w :
  stops (fun c => (c =? lo) || (c =? up)) w -> scan_exp lo up w = [].
Proof. destruct w as [|c t]; [reflexivity|]. cbn [stops scan_exp]. intros ->. reflexivity. Qed.

Lemma span_stops_nil p w : stops p w -> span p w = ([], w).
Proof. intro H. exact (span_stop p [] w eq_refl H). Qed.

(* what may follow the number: nothing, or text starting with an ASCII blank *)
Definition blank_led (w : bytes) : Prop := match w with c :: _ => ascii_space c = true | [] => True end.

Lemma blank_led_stops w (p : Z -> bool) :
  (forall c, ascii_space c = true -> p c = false) -> blank_led w -> stops p w.
Proof. intros H Hw. destruct w as [|c t]; [exact I|]. cbn [stops blank_led] in *. auto. Qed.

Lemma blank_not_digit c : ascii_space c = true -> is_digit c = false.
Proof. unfold ascii_space, is_digit. intro H. lia. Qed.
Lemma blank_not_mant_digit hex c : ascii_space c = true -> mant_digit hex c = false.
Proof. unfold ascii_space, mant_digit, is_digit. rewrite is_hex_letter_spec. intro H. lia. Qed.
Lemma blank_not c (x : Z) : 33 <= x -> ascii_space c = true -> (c =? x) = false.
Proof. unfold ascii_space. intros Hx H. lia. Qed.
Lemma blank_not2 c (x y : Z) : 33 <= x -> 33 <= y -> ascii_space c = true -> (c =? x) || (c =? y) = false.
Proof. unfold ascii_space. intros Hx Hy H. lia. Qed.

Lemma opt_sign_app t w sg u : t <> [] -> opt_sign t = (sg, u) -> opt_sign (t ++ w) = (sg, u ++ w).
Proof.
  destruct t as [|c t']; [congruence|]. intros _. cbn [app opt_sign].
  destruct (is_sign c); intro H; injection H as <- <-; reflexivity.
Qed.

Lemma zdrop2_app {A} (a b : A) (r w : list A) : zdrop 2 ((a :: b :: r) ++ w) = zdrop 2 (a :: b :: r) ++ w.
Proof. reflexivity. Qed.
Lemma ztake2_app {A} (a b : A) (r w : list A) : ztake 2 ((a :: b :: r) ++ w) = ztake 2 (a :: b :: r).
Proof. reflexivity. Qed.

Lemma hex_of_true_inv u : hex_of u = true ->
  exists b c r, u = 48 :: b :: c :: r /\ (b = 120 \/ b = 88).
Proof.
  unfold hex_of. intro H. apply andb_true_iff in H as [Hl Hp].
  destruct u as [|a [|b [|c r]]]; try (vm_compute in Hl; discriminate).
  cbn [has_hex_prefix] in Hp. apply andb_true_iff in Hp as [Ha Hb]. apply Z.eqb_eq in Ha. subst a.
  exists b, c, r. split; [reflexivity|]. apply orb_true_iff in Hb as [E|E]; apply Z.eqb_eq in E; auto.
Qed.

Lemma hex_of_intro b c r : b = 120 \/ b = 88 -> hex_of (48 :: b :: c :: r) = true.
Proof. intros [-> | ->]; unfold hex_of; rewrite zlen_ge3; reflexivity. Qed.

Lemma no_special_prefix h u' :
  (is_digit h = true \/ h = 46) ->
  (3 <=? zlen (h :: u')) && has_nan_prefix (h :: u') = false /\
  (3 <=? zlen (h :: u')) && has_inf_prefix (h :: u') = false.
Proof.
  intro Hh.
  assert (N : (h =? 110) || (h =? 78) = false /\ (h =? 105) || (h =? 73) = false).
  { unfold is_digit in Hh. split; lia. }
  destruct N as [N1 N2].
  destruct u' as [|b [|c r]]; cbn [has_nan_prefix has_inf_prefix]; rewrite ?N1, ?N2, ?andb_false_r; split; reflexivity.
Qed.

(* the scanner on a fully lexed number followed by a blank *)
Lemma scan_t_full start t w sg u d1 dot d2 r3 :
  opt_sign t = (sg, u) ->
  lex_mant (mant_digit (hex_of u)) (body_of u) = (d1, dot, d2, r3) ->
  is_nil d1 && is_nil d2 = false ->
  (r3 = [] \/
   exp_shape (hex_of u) r3) ->
  blank_led w ->
  scan_t start (t ++ w) = PSNum start t (hex_of u && is_nil r3).
Proof.
  intros Hos Hl Hnil Hr3 Hw.
  destruct (opt_sign_inv _ _ _ Hos) as [Et Hsg].
  pose proof (lex_mant_spec _ _ _ _ _ _ Hl) as [Eb [Hd1 [Hd2 [Hdot [Hst Hnodot]]]]].
  (* the exponent part the scanner reads from r3 ++ w is r3 *)
  assert (Hexp : scan_exp (if hex_of u then 112 else 101) (if hex_of u then 80 else 69) (r3 ++ w) = r3).
  { destruct Hr3 as [-> | [c [es [ed [-> [Hc [Hose [Hne Hed]]]]]]]].
    - cbn [app]. apply scan_exp_blank. apply (blank_led_stops w); [|exact Hw].
      intros c Hc. destruct (hex_of u); apply blank_not2; try lia; exact Hc.
    - destruct (opt_sign_inv _ _ _ Hose) as [_ Hes].
      cbn [app]. rewrite <- app_assoc. rewrite scan_exp_shape; try assumption.
      + rewrite (span_stops_nil is_digit w) by (apply (blank_led_stops w); [apply blank_not_digit|exact Hw]).
        cbn [fst]. rewrite app_nil_r. reflexivity.
      + destruct (hex_of u); [rewrite lower_p in Hc|rewrite lower_e in Hc];
          apply orb_true_iff in Hc as [E|E]; apply Z.eqb_eq in E; auto. }
  (* u starts with a digit or the point; u ++ w has the radix, prefix and body of u *)
  assert (Hu : exists h u', u = h :: u' /\ (is_digit h = true \/ h = 46) /\
                 hex_of (u ++ w) = hex_of u /\ pre_of (u ++ w) = pre_of u /\ body_of (u ++ w) = body_of u ++ w).
  { destruct (hex_of u) eqn:Hhex.
    - destruct (hex_of_true_inv u Hhex) as (b & c & r & -> & Hb). exists 48, (b :: c :: r).
      unfold pre_of, body_of. cbn [app]. rewrite !(hex_of_intro b c _ Hb). repeat split; auto.
    - unfold body_of in Hl, Eb. rewrite Hhex in Hl, Eb. rewrite (lex_mant_ext _ _ _ mant_digit_dec) in Hl.
      assert (Hhead : exists h u', u = h :: u' /\ (is_digit h = true \/ h = 46)).
      { rewrite Eb. destruct d1 as [|h d1'].
        - destruct d2 as [|h2 d2']; [discriminate|].
          destruct Hdot as [-> | ->]; [|destruct (Hnodot eq_refl) as [H _]; discriminate].
          exists 46, ((h2 :: d2') ++ r3). split; [reflexivity|right; reflexivity].
        - exists h, (d1' ++ dot ++ d2 ++ r3). split; [reflexivity|left].
          cbn [forallb] in Hd1. apply andb_true_iff in Hd1 as [H _]. rewrite mant_digit_dec in H. exact H. }
      destruct Hhead as (h & u' & Eu & Hh).
      assert (Hhexw : hex_of (u ++ w) = false).
      { unfold hex_of in *. destruct u as [|a [|b [|c r]]].
        - discriminate.
        - destruct w as [|x w']; [reflexivity|]. cbn [app has_hex_prefix blank_led] in *.
          rewrite (blank_not2 x 120 88) by (try lia; exact Hw). rewrite !andb_false_r. reflexivity.
        - cbn [app]. destruct (has_hex_prefix (a :: b :: w)) eqn:E; [|apply andb_false_r].
          (* "0x" as a decimal text lexes to "0" with the x left over, which is no exponent *)
          exfalso. assert (E' : has_hex_prefix [a; b] = true) by exact E. clear E.
          cbn [has_hex_prefix] in E'. apply andb_true_iff in E' as [Ea Eb'].
          apply Z.eqb_eq in Ea. subst a.
          assert (Hlex : lex_mant is_digit [48; b] = ([48], [], [], [b])).
          { apply orb_true_iff in Eb' as [E|E]; apply Z.eqb_eq in E; subst b; reflexivity. }
          rewrite Hlex in Hl. injection Hl as <- <- <- <-.
          destruct Hr3 as [H | [c [es [ed [H [Hc _]]]]]]; [discriminate|].
          injection H as <- _. rewrite lower_e in Hc.
          apply orb_true_iff in Eb' as [E|E]; apply Z.eqb_eq in E; subst b; discriminate.
        - rewrite zlen_ge3 in Hhex. cbn [andb] in Hhex. cbn [app]. rewrite zlen_ge3. exact Hhex. }
      unfold pre_of, body_of. rewrite Hhexw, Hhex. eauto 8. }
  destruct Hu as (h & u' & Eu & Hh & Hhexw & Hpre & Hbody).
  assert (Ht : t <> []) by (rewrite Et, Eu; destruct sg; discriminate).
  destruct (no_special_prefix h (u' ++ w) Hh) as [N1 N2].
  change (h :: u' ++ w) with ((h :: u') ++ w) in N1, N2. rewrite <- Eu in N1, N2.
  unfold scan_t. rewrite (opt_sign_app t w sg u Ht Hos), N1, N2, Hhexw, Hpre, Hbody. unfold scan_num.
  rewrite (lex_mant_app _ (body_of u) w d1 dot d2 r3 (mant_digit_46 _) Hl).
  - rewrite Hnil, Hexp. f_equal. rewrite Et, <- Eb, pre_body. reflexivity.
  - intros _. split; apply (blank_led_stops w); try exact Hw; [apply blank_not_mant_digit|intros x; apply blank_not; lia].
Qed.

(* strconv special (inf / infinity / nan) against the scanner's tests *)
Lemma ic_eq c p : 97 <= p <= 122 ->
  ((if (65 <=? c) && (c <=? 90) then c + 32 else c) =? p) = (c =? p) || (c =? p - 32).
Proof. intro Hp. destruct ((65 <=? c) && (c <=? 90)) eqn:E; lia. Qed.

Lemma cpl_nonneg s p : 0 <= common_prefix_len_ic s p.
Proof.
  revert p; induction s as [|c s IH]; intros [|q p]; cbn [common_prefix_len_ic]; try lia.
  destruct (_ =? q); [specialize (IH p)|]; lia.
Qed.

Lemma cpl_cons s p q n :
  97 <= p <= 122 -> 0 < n <= common_prefix_len_ic s (p :: q) ->
  exists a s', s = a :: s' /\ (a =? p) || (a =? p - 32) = true /\ n - 1 <= common_prefix_len_ic s' q.
Proof.
  intros Hp H. destruct s as [|a s']; [cbn in H; lia|]. cbn [common_prefix_len_ic] in H. rewrite ic_eq in H by lia.
  exists a, s'. revert H. destruct ((a =? p) || (a =? p - 32)); intro H; [|lia]. split; [reflexivity|]. split; [reflexivity|lia].
Qed.

Lemma cpl_inf3 s : 3 <= common_prefix_len_ic s str_infinity ->
  exists a b c r, s = a :: b :: c :: r /\ has_inf_prefix s = true.
Proof.
  unfold str_infinity. intro H.
  destruct (cpl_cons s 105 _ 3 ltac:(lia) (conj eq_refl H)) as (a & s1 & -> & Ea & H1).
  destruct (cpl_cons s1 110 _ 2 ltac:(lia) (conj eq_refl H1)) as (b & s2 & -> & Eb & H2).
  destruct (cpl_cons s2 102 _ 1 ltac:(lia) (conj eq_refl H2)) as (c & r & -> & Ec & _).
  exists a, b, c, r. split; [reflexivity|]. cbn [has_inf_prefix].
  change (105 - 32) with 73 in Ea. change (110 - 32) with 78 in Eb. change (102 - 32) with 70 in Ec.
  rewrite Ea, Eb, Ec. reflexivity.
Qed.

Lemma cpl_nan3 s : common_prefix_len_ic s str_nan = 3 ->
  exists a b c r, s = a :: b :: c :: r /\ has_nan_prefix s = true.
Proof.
  unfold str_nan. intro H. symmetry in H. apply Z.eq_le_incl in H.
  destruct (cpl_cons s 110 _ 3 ltac:(lia) (conj eq_refl H)) as (a & s1 & -> & Ea & H1).
  destruct (cpl_cons s1 97 _ 2 ltac:(lia) (conj eq_refl H1)) as (b & s2 & -> & Eb & H2).
  destruct (cpl_cons s2 110 _ 1 ltac:(lia) (conj eq_refl H2)) as (c & r & -> & Ec & _).
  exists a, b, c, r. split; [reflexivity|]. cbn [has_nan_prefix].
  change (110 - 32) with 78 in Ea, Ec. change (97 - 32) with 65 in Eb.
  rewrite Ea, Eb, Ec. reflexivity.
Qed.

Lemma special_inf_some neg nsign s d n : special_inf neg nsign s = Some (d, n) ->
  d = DInf neg /\ 3 <= common_prefix_len_ic s str_infinity.
Proof.
  unfold special_inf. set (k := common_prefix_len_ic s str_infinity).
  destruct ((3 <? k) && (k <? 8)) eqn:E.
  - cbn [Z.eqb orb]. intro H. injection H as <- _. split; [reflexivity|lia].
  - destruct ((k =? 3) || (k =? 8)) eqn:E2; [|discriminate]. intro H. injection H as <- _. split; [reflexivity|lia].
Qed.

Lemma scan_t_nan start t sg a b c r :
  opt_sign t = (sg, a :: b :: c :: r) -> has_nan_prefix [a; b; c] = true -> scan_t start t = PSNaN.
Proof.
  intros Hos Hn. unfold scan_t. rewrite Hos, zlen_ge3'.
  change (has_nan_prefix (a :: b :: c :: r)) with (has_nan_prefix [a; b; c]). rewrite Hn. reflexivity.
Qed.

Lemma scan_t_inf start h t sg a b c r :
  opt_sign (h :: t) = (sg, a :: b :: c :: r) -> has_inf_prefix [a; b; c] = true ->
  scan_t start (h :: t) = PSInf (h =? 45).
Proof.
  intros Hos Hi. unfold scan_t. rewrite Hos, zlen_ge3'.
  change (has_inf_prefix (a :: b :: c :: r)) with (has_inf_prefix [a; b; c]). rewrite Hi.
  replace (has_nan_prefix (a :: b :: c :: r)) with false; [reflexivity|].
  cbn [has_inf_prefix has_nan_prefix] in *. apply andb_true_iff in Hi as [Hi _]. apply andb_true_iff in Hi as [Ha _].
  replace ((a =? 110) || (a =? 78)) with false by lia. reflexivity.
Qed.

(* the scanner's verdict on a text strconv's special accepts, whatever follows it *)
Lemma scan_t_special start t w d n :
  special t = Some (d, n) ->
  (d = DNaN /\ scan_t start (t ++ w) = PSNaN) \/
  (exists neg, d = DInf neg /\ scan_t start (t ++ w) = PSInf neg).
Proof.
  destruct t as [|c t']; [discriminate|]. cbn [special].
  destruct (is_sign c) eqn:Es.
  - intro H. destruct (special_inf_some _ _ _ _ _ H) as [-> H3].
    destruct (cpl_inf3 t' H3) as (a & b & e & r & -> & Hinf).
    right. exists (c =? 45). split; [reflexivity|].
    apply (scan_t_inf start c _ [c] a b e (r ++ w)); [cbn [app opt_sign]; rewrite Es; reflexivity|exact Hinf].
  - destruct ((c =? 105) || (c =? 73)) eqn:Ei.
    + intro H. destruct (special_inf_some _ _ _ _ _ H) as [-> H3].
      destruct (cpl_inf3 _ H3) as (a & b & e & r & E & Hinf). injection E as <- ->.
      right. exists false. split; [reflexivity|]. cbn [app].
      rewrite (scan_t_inf start c _ [] c b e (r ++ w)); [|cbn [app opt_sign]; rewrite Es; reflexivity|exact Hinf].
      f_equal. unfold is_sign in Es. lia.
    + destruct ((c =? 110) || (c =? 78)) eqn:En; [|discriminate].
      destruct (common_prefix_len_ic (c :: t') str_nan =? 3) eqn:E3; [|discriminate].
      intro H. injection H as <- _. apply Z.eqb_eq in E3.
      destruct (cpl_nan3 _ E3) as (a & b & e & r & E & Hnan). injection E as <- ->.
      left. split; [reflexivity|].
      apply (scan_t_nan start _ [] c b e (r ++ w)); [cbn [app opt_sign]; rewrite Es; reflexivity|exact Hnan].
Qed.

(* parseFloat trims with [ascii_trim] (Model/Value.v): the blanks the scanner skips *)
Lemma forallb_rev {A} (p : A -> bool) l : forallb p l = true -> forallb p (rev l) = true.
Proof.
  induction l as [|x l IH]; cbn [rev forallb]; [auto|]. intro H. apply andb_true_iff in H as [Hx Hl].
  rewrite forallb_app. cbn [forallb]. rewrite (IH Hl), Hx. reflexivity.
Qed.

Lemma ascii_trim_decomp s : exists ws2,
  span ascii_space s = (fst (span ascii_space s), ascii_trim s ++ ws2) /\ blank_led ws2.
Proof.
  unfold ascii_trim. destruct (span ascii_space s) as [ws1 r] eqn:E1. cbn [fst snd].
  pose proof (span_spec ascii_space (rev r)) as [H1 [H2 _]].
  destruct (span ascii_space (rev r)) as [a b] eqn:E2. cbn [fst snd] in *.
  exists (rev a). split.
  - f_equal. rewrite <- rev_app_distr, <- H1, rev_involutive. reflexivity.
  - apply forallb_rev in H2. destruct (rev a) as [|c t]; [exact I|]. cbn [forallb] in H2.
    apply andb_true_iff in H2 as [H2 _]. exact H2.
Qed.

Lemma go_parse_desc_nil : go_parse_desc [] = None.
Proof. reflexivity. Qed.

Lemma special_hex_none sg b r : sign_str sg -> special (sg ++ 48 :: b :: r) = None.
Proof. intros [-> | [-> | ->]]; reflexivity. Qed.

Lemma contains_skip x c t : contains x (c :: t) = false -> contains x t = false.
Proof. cbn [contains]. intro H. apply orb_false_iff in H as [_ H]. exact H. Qed.

(* parseFloatPrefix = the scanner, then the value of its verdict *)
Definition pscan_value (r : pscan) : res fnum :=
  match r with
  | PSNaN => Ok FNaN
  | PSInf n => Ok (FInf n)
  | PSZero => Ok (FFin 0 0)
  | PSNum _ txt patch =>
      match go_parse_float (scan_text txt patch) with
      | GSyntax => Ok (FFin 0 0)
      | GVal v _ => Ok v
      end
  | PSPanic => Panic
  end.

Lemma parse_float_prefix_eq s : parse_float_prefix s = pscan_value (scan_prefix s).
Proof. reflexivity. Qed.

Lemma stops_p0 : stops is_hex_digit str_p0 /\ stops (fun c => c =? 46) str_p0.
Proof. split; reflexivity. Qed.

Lemma parse_float_text_eq s sg u :
  let t := ascii_trim s in
  t <> [] -> opt_sign t = (sg, u) ->
  parse_float_text s =
    if negb (is_nil sg) && (zlen t =? 4) && has_nan_prefix u then None
    else Some (if hex_of u && (negb (contains 112 t) && negb (contains 80 t)) then t ++ str_p0 else t).
Proof.
  unfold parse_float_text. set (t := ascii_trim s). cbv zeta. intros Hne Hos.
  destruct t as [|c t'] eqn:Et; [congruence|].
  rewrite opt_sign_cons in Hos. change ((c =? 43) || (c =? 45)) with (is_sign c) in Hos.
  destruct (is_sign c) eqn:Hsc; injection Hos as <- <-.
  - cbn [is_nil negb andb].
    destruct t' as [|a t''].
    + (* a lone sign *)
      cbn [zlen length Z.of_nat Z.ltb Z.compare andb Z.eqb]. reflexivity.
    + assert (1 <? zlen (c :: a :: t'') = true) as ->
        by (apply Z.ltb_lt; rewrite !zlen_cons; pose proof (zlen_nonneg t''); lia).
      cbn [andb]. destruct ((zlen (c :: a :: t'') =? 4) && has_nan_prefix (a :: t'')); [reflexivity|].
      unfold hex_of. rewrite (zlen_cons c (a :: t'')).
      replace (3 <? 1 + zlen (a :: t'')) with (2 <? zlen (a :: t'')) by (destruct (2 <? zlen (a :: t'')) eqn:E; lia).
      match goal with |- context [if ?b then Some _ else Some _] => destruct b end; reflexivity.
  - cbn [is_nil negb andb]. rewrite andb_false_r. cbn [andb]. unfold hex_of.
    match goal with |- context [if ?b then Some _ else Some _] => destruct b end; reflexivity.
Qed.

(* What parseFloat accepts, in the scanner's terms: the "+nan"/"-nan" shortcut; a word strconv's
   special accepts whole; or a text that lexes completely, handed to strconv exactly as the
   scanner would hand it over (with the same "p0" patch). *)
Lemma parse_float_ok_inv s x :
  parse_float s = PFOk x ->
  let t := ascii_trim s in
  (exists c a b e, t = [c; a; b; e] /\ is_sign c = true /\ has_nan_prefix [a; b; e] = true /\ x = FNaN) \/
  (exists d, special t = Some (d, zlen t) /\ x = fst (desc_value d)) \/
  (exists sg u d1 dot d2 r3 rng,
     opt_sign t = (sg, u) /\
     lex_mant (mant_digit (hex_of u)) (body_of u) = (d1, dot, d2, r3) /\ is_nil d1 && is_nil d2 = false /\
     (r3 = [] \/ exp_shape (hex_of u) r3) /\
     go_parse_float (scan_text t (hex_of u && is_nil r3)) = GVal x rng).
Proof.
  intros Hpf t.
  assert (Htne : t <> []).
  { intro Et. unfold parse_float, parse_float_text in Hpf. fold t in Hpf. rewrite Et in Hpf. discriminate. }
  destruct (opt_sign t) as [sg u] eqn:Hos. destruct (opt_sign_inv _ _ _ Hos) as [Etsu Hsg].
  unfold parse_float in Hpf. rewrite (parse_float_text_eq s sg u Htne Hos) in Hpf. fold t in Hpf.
  destruct (negb (is_nil sg) && (zlen t =? 4) && has_nan_prefix u) eqn:Hn.
  { (* the shortcut: a sign and three letters *)
    injection Hpf as <-. left.
    apply andb_true_iff in Hn as [Hn Hnan]. apply andb_true_iff in Hn as [Hsg1 Hlen]. apply Z.eqb_eq in Hlen.
    rewrite Etsu in Hlen |- *.
    destruct Hsg as [-> | [-> | ->]]; [discriminate| |];
      (destruct u as [|a [|b [|e [|f r]]]]; try (vm_compute in Hlen; discriminate);
       [eexists _, a, b, e; repeat split; exact Hnan
       |exfalso; cbn [app] in Hlen; rewrite !zlen_cons in Hlen; pose proof (zlen_nonneg r); lia]). }
  right. set (text := if hex_of u && (negb (contains 112 t) && negb (contains 80 t)) then t ++ str_p0 else t) in Hpf.
  assert (Hc : text = t \/ (text = t ++ str_p0 /\ hex_of u = true /\ contains 112 t = false /\ contains 80 t = false)).
  { unfold text. destruct (hex_of u); [|auto]. destruct (contains 112 t); [auto|]. destruct (contains 80 t); auto. }
  clearbody text.
  destruct (go_parse_float text) as [|v rng] eqn:Hgo; [discriminate|].
  destruct (contains 95 text) eqn:H95; [discriminate|]. injection Hpf as ->.
  pose proof Hgo as Hval. unfold go_parse_float in Hgo. destruct (go_parse_desc text) as [d|] eqn:Hd; [|discriminate].
  unfold go_parse_desc in Hd.
  destruct (special text) as [[d' n]|] eqn:Hsp.
  - (* inf / infinity / nan *)
    destruct (Z.eqb_spec n (zlen text)) as [->|]; [|discriminate]. injection Hd as ->.
    assert (text = t) as ->.
    { destruct Hc as [H | [-> [Hh _]]]; [exact H|exfalso].
      destruct (hex_of_true_inv u Hh) as [b [c [r [Eu _]]]].
      rewrite Etsu, Eu, <- app_assoc in Hsp. cbn [app] in Hsp. rewrite (special_hex_none sg b _ Hsg) in Hsp. discriminate. }
    left. exists d. split; [exact Hsp|]. destruct (desc_value d). injection Hgo as <- _. reflexivity.
  - right. destruct (read_float text) as [[d' rest]|] eqn:Hrf; [|discriminate].
    destruct rest; [|discriminate].
    destruct (read_float_accept text d' H95 Hrf) as (sg' & u' & d1 & dot & d2 & r3 & _ & Hos' & Hl & Hnil & Hr3).
    destruct Hc as [-> | [-> [Hh [N112 N80]]]].
    + (* the text is the trimmed string itself *)
      rewrite Hos in Hos'. injection Hos' as <- <-. exists sg, u, d1, dot, d2, r3, rng.
      split; [reflexivity|]. split; [exact Hl|]. split; [exact Hnil|].
      destruct Hr3 as [[-> ->]|Hr3]; [auto|]. split; [right; exact Hr3|].
      destruct Hr3 as (c & es & ed & -> & _). rewrite andb_false_r. exact Hval.
    + (* "p0" was appended: the trimmed string is a hex mantissa without exponent *)
      rewrite (opt_sign_app t str_p0 sg u Htne Hos) in Hos'. injection Hos' as <- <-.
      destruct (hex_of_true_inv u Hh) as [b [c [r [Eu Hb]]]].
      assert (Hh' : hex_of (u ++ str_p0) = true) by (rewrite Eu; exact (hex_of_intro b c _ Hb)).
      rewrite Hh' in Hl, Hr3.
      assert (Hbody : body_of (u ++ str_p0) = body_of u ++ str_p0).
      { unfold body_of. rewrite Hh', Hh, Eu. reflexivity. }
      rewrite Hbody in Hl. rewrite (lex_mant_ext _ _ _ mant_digit_hex) in Hl.
      destruct (lex_mant is_hex_digit (body_of u)) as [[[a1 adot] a2] r3t] eqn:Hlt.
      rewrite (lex_mant_app is_hex_digit (body_of u) str_p0 a1 adot a2 r3t eq_refl Hlt (fun _ => stops_p0)) in Hl.
      injection Hl as <- <- <- <-.
      assert (r3t = []) as ->.
      { destruct r3t as [|c0 r3t']; [reflexivity|exfalso].
        destruct Hr3 as [[H _]|[c1 [es [ed [H [Hc _]]]]]]; [discriminate|].
        cbn [app] in H. injection H as <- _. rewrite lower_p in Hc.
        pose proof (lex_mant_spec _ _ _ _ _ _ Hlt) as [Eb _].
        assert (Hin : contains 112 (body_of u) = false /\ contains 80 (body_of u) = false).
        { unfold body_of. rewrite Hh. split; apply contains_zdrop.
          - rewrite Etsu in N112. exact (contains_app_r _ _ _ N112).
          - rewrite Etsu in N80. exact (contains_app_r _ _ _ N80). }
        destruct Hin as [I1 I2]. rewrite Eb, !contains_app in I1, I2. cbn [contains] in I1, I2.
        repeat (apply orb_false_iff in I1 as [? I1]). repeat (apply orb_false_iff in I2 as [? I2]).
        lia. }
      exists sg, u, a1, adot, a2, [], rng. rewrite Hh.
      split; [reflexivity|]. split; [rewrite (lex_mant_ext _ _ _ mant_digit_hex); exact Hlt|].
      split; [exact Hnil|]. split; [left; reflexivity|exact Hval].
Qed.

(* the agreement of the two routines: all strings *)
Theorem coherence s x :
  parse_float s = PFOk x -> parse_float_prefix s = Ok x.
Proof.
  intros Hpf.
  destruct (ascii_trim_decomp s) as [ws2 [Hspan Hw]].
  rewrite parse_float_prefix_eq, scan_prefix_eq. rewrite Hspan. cbn [fst snd].
  destruct (parse_float_ok_inv s x Hpf) as
    [(c & a & b & e & -> & Hsc & Hn & ->)|[(d & Hsp & ->)|(sg & u & d1 & dot & d2 & r3 & rng & Hos & Hl & Hnil & Hr3 & Hgo)]].
  - rewrite (scan_t_nan _ _ [c] a b e ws2); [reflexivity|cbn [app opt_sign]; rewrite Hsc; reflexivity|exact Hn].
  - destruct (scan_t_special (zlen (fst (span ascii_space s))) _ ws2 d _ Hsp) as [[-> ->] | [neg [-> ->]]]; reflexivity.
  - rewrite (scan_t_full _ _ ws2 sg u d1 dot d2 r3 Hos Hl Hnil Hr3 Hw). cbn [pscan_value]. rewrite Hgo. reflexivity.
Qed.
