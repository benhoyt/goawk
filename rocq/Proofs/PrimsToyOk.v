(* C01: the toy instance meets [prims_ok]; the state-independent one also [concat_indep]. *)
From Verif Require Import Lib.Base Lib.Dyadic Model.Ast Model.Instr Model.Compiler Model.Prims Model.PrimsToy Proofs.PrimsOk.

Lemma toy_keq cc v w : keq (toy cc) v w.
Proof. repeat split; intros; cbn; try reflexivity. unfold zlen. rewrite !app_length. reflexivity. Qed.

Lemma toy_ok cc : prims_ok (toy cc).
Proof. constructor; intros; cbn; try reflexivity; [destruct b; reflexivity|apply toy_keq]. Qed.

Lemma toy_plain_indep : concat_indep toy_plain.
Proof. intros s s' v w. reflexivity. Qed.
