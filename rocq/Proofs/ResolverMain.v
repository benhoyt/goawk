(* C16: the statements in their last form, with the fuel of the model discharged
   and the precondition reduced to its part about call heads and names: first
   for the resolver with a constant limit ([resolve_cut], the main_ theorems),
   where the limit stays a hypothesis, then for the resolver as it is
   ([resolve], the impl_ theorems). *)
From Verif Require Import Lib.Base Model.Resolver Proofs.Resolver Proofs.ResolverSound Proofs.ResolverExact Proofs.DeterminismSort
  Proofs.ResolverOrder Proofs.ResolverFlat Proofs.ResolverNoPanic Proofs.ResolverTopo Proofs.ResolverBound Proofs.ResolverLoop.
Open Scope Z_scope.

(* the only possible outcomes for a program that meets the precondition *)
Theorem main_outcomes cut pi P :
  perm_oracle pi -> wf0 P = true ->
  (exists F, resolve_cut cut pi P = ROk F) \/
  (exists e, resolve_cut cut pi P = RErr e /\ is_type_error e = true) \/
  resolve_cut cut pi P = RErr ETooManyIter.
Proof.
  intros Hpi Hwf0. pose proof (wf0_wf P Hwf0) as Hwf.
  apply wf_spec in Hwf.
  pose proof (ordered_funcs_total pi P Hpi) as Hof.
  unfold resolve_cut. rewrite (proj2 (first_dup_nil _) (proj1 Hwf)).
  destruct (ordered_funcs pi P) as [order|]; [|congruence].
  pose proof (resolve_order_clean P Hwf cut order) as Hc.
  destruct (resolve_order cut order P) as [F|e| |]; cbn [clean] in Hc; try contradiction.
  - left. eauto.
  - destruct Hc as [Hc| ->]; [right; left; eauto | right; right; reflexivity].
Qed.

Theorem main_exact cut pi P :
  perm_oracle pi -> wf0 P = true ->
  resolve_cut cut pi P <> RErr ETooManyIter ->
  ((exists F, resolve_cut cut pi P = ROk F) <-> sat P).
Proof.
  intros Hpi Hwf0 Hcut. apply resolve_exact; [exact Hpi | apply wf0_wf; exact Hwf0 | exact Hcut|].
  apply resolve_cut_no_fuel. exact Hpi.
Qed.

Theorem main_order_independent cut pi pi' P P' :
  perm_oracle pi -> perm_oracle pi' -> wf0 P = true -> reordered P P' ->
  resolve_cut cut pi P <> RErr ETooManyIter -> resolve_cut cut pi' P' <> RErr ETooManyIter ->
  ((exists F, resolve_cut cut pi P = ROk F) <-> (exists F', resolve_cut cut pi' P' = ROk F')) /\
  (forall F F', resolve_cut cut pi P = ROk F -> resolve_cut cut pi' P' = ROk F' ->
                forall k, rho_of (fin_types F') k = rho_of (fin_types F) k).
Proof.
  intros Hpi Hpi' Hwf0 Hre Hc Hc'.
  apply reorder_independent; try assumption.
  - apply wf0_wf. exact Hwf0.
  - apply resolve_cut_no_fuel. exact Hpi.
  - apply resolve_cut_no_fuel. exact Hpi'.
Qed.

(* in particular: the map iteration order alone never changes verdict or types *)
Theorem main_map_order_irrelevant cut pi pi' P :
  perm_oracle pi -> perm_oracle pi' -> wf0 P = true ->
  resolve_cut cut pi P <> RErr ETooManyIter -> resolve_cut cut pi' P <> RErr ETooManyIter ->
  ((exists F, resolve_cut cut pi P = ROk F) <-> (exists F', resolve_cut cut pi' P = ROk F')) /\
  (forall F F', resolve_cut cut pi P = ROk F -> resolve_cut cut pi' P = ROk F' ->
                forall k, rho_of (fin_types F') k = rho_of (fin_types F) k).
Proof.
  intros Hpi Hpi' Hwf0. apply main_order_independent; try assumption.
  split; [reflexivity|]. split; apply Permutation.Permutation_refl.
Qed.

Lemma pass_loop_mono P order k d s u r :
  pass_loop P order k s u = r -> r <> RErr ETooManyIter -> pass_loop P order (k + d) s u = r.
Proof.
  revert s u. induction k as [|k IH]; intros s u H Hr; rewrite pass_loop_eq in *;
    (destruct (st_updates s =? u); [exact H|]);
    (destruct (walk_ordered P order s); cbn [rbind2] in *; try exact H).
  - congruence.
  - apply IH; assumption.
Qed.

(* any outcome other than "too many iterations" is the outcome for every larger cut-off *)
Theorem cutoff_only cut d pi P r :
  resolve_cut cut pi P = r -> r <> RErr ETooManyIter -> resolve_cut (cut + d) pi P = r.
Proof.
  unfold resolve_cut. destruct (first_dup [] (fnames P)); [auto|].
  destruct (ordered_funcs pi P) as [order|]; [|auto].
  rewrite !resolve_order_eq. unfold finish, passes. destruct (first_dup [] (fnames P)); [auto|].
  destruct (start P) as [s3| | |]; cbn [rbind2]; auto.
  destruct (walk_ordered P order s3) as [s4| | |]; cbn [rbind2]; auto.
  intros H Hr. rewrite (pass_loop_mono P order cut d s4 _ _ eq_refl); [exact H|].
  intros E. apply Hr. rewrite <- H, E. reflexivity.
Qed.

(* small programs: the hypothesis about the limit becomes a count of variables *)

Theorem resolve_cut_no_cutoff cut pi P :
  names_ok P -> 2 * key_count P <= Z.of_nat cut -> resolve_cut cut pi P <> RErr ETooManyIter.
Proof.
  intros Hne Hk. unfold resolve_cut. destruct (first_dup [] (fnames P)) eqn:Ed; [discriminate|].
  destruct (ordered_funcs pi P) as [order|]; [|discriminate].
  apply resolve_order_no_cutoff; [apply (first_dup_none _ _ Ed) | exact Hne | exact Hk].
Qed.

Theorem main_exact_small cut pi P :
  perm_oracle pi -> wf0 P = true -> 2 * key_count P <= Z.of_nat cut ->
  ((exists F, resolve_cut cut pi P = ROk F) <-> sat P).
Proof.
  intros Hpi Hwf0 Hk. apply main_exact; [exact Hpi | exact Hwf0|].
  apply resolve_cut_no_cutoff; [|exact Hk].
  destruct (proj1 (wf0_spec P) Hwf0) as [_ [Hne _]]. exact Hne.
Qed.

Theorem main_order_independent_small cut pi pi' P P' :
  perm_oracle pi -> perm_oracle pi' -> wf0 P = true -> reordered P P' ->
  2 * key_count P <= Z.of_nat cut -> 2 * key_count P' <= Z.of_nat cut ->
  ((exists F, resolve_cut cut pi P = ROk F) <-> (exists F', resolve_cut cut pi' P' = ROk F')) /\
  (forall F F', resolve_cut cut pi P = ROk F -> resolve_cut cut pi' P' = ROk F' ->
                forall k, rho_of (fin_types F') k = rho_of (fin_types F) k).
Proof.
  intros Hpi Hpi' Hwf0 Hre Hk Hk'.
  pose proof (wf0_wf P Hwf0) as Hwf. destruct (proj1 (wf_spec P) Hwf) as [Hnd [Hne _]].
  pose proof (reorder_wf P P' Hre Hnd Hwf) as Hwf'. destruct (proj1 (wf_spec P') Hwf') as [_ [Hne' _]].
  apply main_order_independent; try assumption; apply resolve_cut_no_cutoff; assumption.
Qed.

(* the resolver as it is now: the limit is no longer a hypothesis *)

Theorem impl_sound pi P F :
  perm_oracle pi -> names_ok P -> resolve pi P = ROk F ->
  solution P (rho_of (fin_types F)) /\ compile_check P F = true.
Proof. rewrite resolve_is_cut. apply resolve_sound. Qed.

Theorem impl_complete pi P e :
  names_ok P -> resolve pi P = RErr e -> is_type_error e = true -> ~ sat P.
Proof. rewrite resolve_is_cut. apply resolve_complete. Qed.

(* two outcomes only for a program that meets the precondition *)
Theorem impl_outcomes pi P :
  perm_oracle pi -> wf0 P = true ->
  (exists F, resolve pi P = ROk F) \/ (exists e, resolve pi P = RErr e /\ is_type_error e = true).
Proof.
  intros Hpi Hwf0. pose proof (resolve_never_gives_up pi P) as Hn. rewrite resolve_is_cut in *.
  destruct (main_outcomes (pass_fuel P) pi P Hpi Hwf0) as [H|[H|H]]; [left; exact H | right; exact H | congruence].
Qed.

(* EXACT: accepted exactly when the usage constraints are satisfiable *)
Theorem impl_exact pi P :
  perm_oracle pi -> wf0 P = true -> ((exists F, resolve pi P = ROk F) <-> sat P).
Proof.
  intros Hpi Hwf0. pose proof (resolve_never_gives_up pi P) as Hn. rewrite resolve_is_cut in *.
  apply main_exact; assumption.
Qed.

Theorem impl_accepts_satisfiable pi P :
  perm_oracle pi -> wf0 P = true -> sat P -> exists F, resolve pi P = ROk F.
Proof. intros Hpi Hwf0 Hs. apply impl_exact; assumption. Qed.

Theorem impl_order_independent pi pi' P P' :
  perm_oracle pi -> perm_oracle pi' -> wf0 P = true -> reordered P P' ->
  ((exists F, resolve pi P = ROk F) <-> (exists F', resolve pi' P' = ROk F')) /\
  (forall F F', resolve pi P = ROk F -> resolve pi' P' = ROk F' ->
                forall k, rho_of (fin_types F') k = rho_of (fin_types F) k).
Proof.
  intros Hpi Hpi' Hwf0 Hre.
  pose proof (resolve_never_gives_up pi P) as Hn. pose proof (resolve_never_gives_up pi' P') as Hn'.
  pose proof (resolve_no_fuel pi P Hpi) as Hf. pose proof (resolve_no_fuel pi' P' Hpi') as Hf'.
  rewrite resolve_is_cut in *. rewrite (resolve_is_cut pi' P') in *.
  apply reorder_independent; try assumption. apply wf0_wf. exact Hwf0.
Qed.

Theorem impl_map_order_irrelevant pi pi' P :
  perm_oracle pi -> perm_oracle pi' -> wf0 P = true ->
  ((exists F, resolve pi P = ROk F) <-> (exists F', resolve pi' P = ROk F')) /\
  (forall F F', resolve pi P = ROk F -> resolve pi' P = ROk F' ->
                forall k, rho_of (fin_types F') k = rho_of (fin_types F) k).
Proof.
  intros Hpi Hpi' Hwf0. apply impl_order_independent; try assumption.
  split; [reflexivity|]. split; apply Permutation.Permutation_refl.
Qed.

Lemma name_order_oracle_perm : perm_oracle name_order_oracle.
Proof. intros k l. apply sort_names_perm. Qed.

(* corresponding constraint systems (renaming), for the resolver as it is now *)
Theorem impl_types_correspond (P P' : program) (phi psi : key -> key) :
  (forall k', phi (psi k') = k') -> (forall k, psi (phi k) = k) ->
  (forall rho, solution P rho <-> solution P' (fun k' => rho (psi k'))) ->
  forall order order' F F',
  names_ok P -> names_ok P' -> covers P order -> covers P' order' ->
  resolve_order_impl order P = ROk F -> resolve_order_impl order' P' = ROk F' ->
  forall k, rho_of (fin_types F') (phi k) = rho_of (fin_types F) k.
Proof.
  intros H1 H2 H3 order order' F F' Hn Hn' Hc Hc' H H'.
  destruct (resolve_order_impl_ends P order) as [_ [_ E]]. destruct (resolve_order_impl_ends P' order') as [_ [_ E']].
  rewrite E in H. rewrite E' in H'. eapply types_correspond; eassumption.
Qed.

Theorem impl_verdict_correspond (P P' : program) (phi psi : key -> key) :
  (forall k', phi (psi k') = k') ->
  (forall rho, solution P rho <-> solution P' (fun k' => rho (psi k'))) ->
  forall order order',
  wf P = true -> wf P' = true -> covers P order -> covers P' order' ->
  ((exists F, resolve_order_impl order P = ROk F) <-> (exists F', resolve_order_impl order' P' = ROk F')).
Proof.
  intros H1 H3 order order' Hw Hw' Hc Hc'.
  destruct (resolve_order_impl_ends P order) as [T [_ E]]. destruct (resolve_order_impl_ends P' order') as [T' [_ E']].
  rewrite E in *. rewrite E' in *. eapply verdict_correspond; eassumption.
Qed.
