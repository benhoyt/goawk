(* C17: the two name-sorted index assignments (resolver, interpreter) agree, for every
   set of names and whatever the two map iteration orders are. *)
From Coq Require Import Permutation Sorting.Sorted.
From Verif Require Import Lib.Base Lib.Dyadic Model.Native.

(* ---- Go's string order on byte lists is a strict total order ---- *)
Lemma bytes_ltb_irrefl a : bytes_ltb a a = false.
Proof.
  induction a as [|x a IH]; cbn [bytes_ltb]; [reflexivity|].
  rewrite Z.ltb_irrefl. exact IH.
Qed.

Lemma bytes_ltb_cons x a y b :
  bytes_ltb (x :: a) (y :: b) = true <-> x < y \/ x = y /\ bytes_ltb a b = true.
Proof.
  cbn [bytes_ltb]. destruct (Z.ltb_spec x y) as [Hxy|Hxy]; [split; [left; exact Hxy|reflexivity]|].
  destruct (Z.ltb_spec y x) as [Hyx|Hyx].
  - split; [discriminate|lia].
  - split; [intros H; right; split; [lia|exact H]|intros [H|[_ H]]; [lia|exact H]].
Qed.

Lemma bytes_ltb_trans a : forall b c, bytes_ltb a b = true -> bytes_ltb b c = true -> bytes_ltb a c = true.
Proof.
  induction a as [|x a IH]; intros [|y b] [|z c]; try discriminate; try reflexivity.
  intros H1 H2. apply bytes_ltb_cons in H1, H2. apply bytes_ltb_cons.
  destruct H1 as [H1|[-> H1]], H2 as [H2|[-> H2]].
  - left. lia.
  - left. exact H1.
  - left. exact H2.
  - right. split; [reflexivity|]. exact (IH _ _ H1 H2).
Qed.

Lemma bytes_ltb_total a : forall b, bytes_ltb a b = false -> bytes_ltb b a = false -> a = b.
Proof.
  induction a as [|x a IH]; intros [|y b]; cbn [bytes_ltb]; intros H1 H2;
    try discriminate; try reflexivity.
  destruct (Z.ltb_spec x y) as [Exy|Exy]; [discriminate|].
  destruct (Z.ltb_spec y x) as [Eyx|Eyx]; [discriminate|].
  assert (x = y) by lia; subst y. f_equal. apply IH; assumption.
Qed.

Lemma bytes_ltb_asym a b : bytes_ltb a b = true -> bytes_ltb b a = false.
Proof.
  intros H. destruct (bytes_ltb b a) eqn:E; [|reflexivity].
  pose proof (bytes_ltb_trans _ _ _ H E) as C. rewrite bytes_ltb_irrefl in C. discriminate.
Qed.

(* a <= b *)
Definition ble (a b : bytes) : Prop := bytes_ltb b a = false.

Lemma ble_refl a : ble a a.
Proof. apply bytes_ltb_irrefl. Qed.

Lemma ble_trans a b c : ble a b -> ble b c -> ble a c.
Proof.
  unfold ble. intros H1 H2.
  destruct (bytes_ltb c a) eqn:E; [|reflexivity].
  (* c < a, and not b < a: so c < b or c = b ... *)
  destruct (bytes_ltb a b) eqn:Eab.
  - pose proof (bytes_ltb_trans _ _ _ E Eab) as C. congruence.
  - pose proof (bytes_ltb_total _ _ Eab H1); subst b. congruence.
Qed.

Lemma ble_antisym a b : ble a b -> ble b a -> a = b.
Proof. unfold ble. intros H1 H2. apply bytes_ltb_total; assumption. Qed.

Lemma ble_total a b : ble a b \/ ble b a.
Proof.
  unfold ble. destruct (bytes_ltb b a) eqn:E; [right|left; reflexivity].
  apply bytes_ltb_asym. exact E.
Qed.

(* ---- insertion sort: sorted and a permutation ---- *)
Definition sorted (l : list bytes) : Prop := StronglySorted ble l.

Lemma insert_perm x l : Permutation (x :: l) (insert_name x l).
Proof.
  induction l as [|y l IH]; cbn [insert_name]; [apply Permutation_refl|].
  destruct (bytes_ltb y x); [|apply Permutation_refl].
  eapply Permutation_trans; [apply perm_swap|]. apply perm_skip. exact IH.
Qed.

Lemma sort_perm l : Permutation l (sort_names l).
Proof.
  induction l as [|x l IH]; cbn [sort_names fold_right]; [apply Permutation_refl|].
  eapply Permutation_trans; [apply perm_skip; exact IH|]. apply insert_perm.
Qed.

Lemma insert_sorted x l : sorted l -> sorted (insert_name x l).
Proof.
  unfold sorted. induction l as [|y l IH]; intros Hs; cbn [insert_name].
  - constructor; constructor.
  - inversion Hs as [|? ? Hs' Hall]; subst.
    destruct (bytes_ltb y x) eqn:E.
    + constructor; [apply IH; exact Hs'|].
      assert (Hyx : ble y x) by (apply bytes_ltb_asym; exact E).
      apply (Permutation_Forall (insert_perm x l)). constructor; assumption.
    + constructor; [exact Hs|]. constructor; [exact E|].
      eapply Forall_impl; [|exact Hall]. intros z Hz. eapply ble_trans; [exact E|exact Hz].
Qed.

Lemma sort_sorted l : sorted (sort_names l).
Proof.
  induction l as [|x l IH]; cbn [sort_names fold_right]; [constructor|].
  apply insert_sorted. exact IH.
Qed.

Lemma sorted_perm_unique l1 : forall l2, sorted l1 -> sorted l2 -> Permutation l1 l2 -> l1 = l2.
Proof.
  unfold sorted. induction l1 as [|a l1 IH]; intros l2 H1 H2 P.
  - apply Permutation_nil in P. congruence.
  - destruct l2 as [|b l2]; [apply Permutation_sym, Permutation_nil in P; discriminate|].
    inversion H1 as [|? ? H1' A1]; subst. inversion H2 as [|? ? H2' A2]; subst.
    assert (Hab : a = b).
    { assert (Ia : In a (b :: l2)) by (eapply Permutation_in; [exact P|left; reflexivity]).
      assert (Ib : In b (a :: l1)) by (eapply Permutation_in; [apply Permutation_sym; exact P|left; reflexivity]).
      destruct Ia as [->|Ia]; [reflexivity|]. destruct Ib as [->|Ib]; [reflexivity|].
      rewrite Forall_forall in A1, A2. apply ble_antisym; [apply A1; exact Ib|apply A2; exact Ia]. }
    subst b. f_equal. apply IH; try assumption. eapply Permutation_cons_inv; exact P.
Qed.

(* sort.Strings is characterised by "sorted permutation of its input", so whichever
   algorithm Go uses the result is sort_names *)
Theorem sort_names_characterised l l' : sorted l' -> Permutation l l' -> l' = sort_names l.
Proof.
  intros Hs P. apply sorted_perm_unique; [exact Hs|apply sort_sorted|].
  eapply Permutation_trans; [apply Permutation_sym; exact P|apply sort_perm].
Qed.

Theorem sort_names_perm_invariant l1 l2 : Permutation l1 l2 -> sort_names l1 = sort_names l2.
Proof.
  intros P. apply sorted_perm_unique; try apply sort_sorted.
  eapply Permutation_trans; [apply Permutation_sym, sort_perm|].
  eapply Permutation_trans; [exact P|apply sort_perm].
Qed.

(* ---- lookup in a map is independent of the iteration order ---- *)
Lemma lookup_in name funcs f : lookup name funcs = Some f -> In (name, f) funcs.
Proof.
  induction funcs as [|[n g] rest IH]; cbn [lookup]; [discriminate|].
  destruct (bytes_eqb name n) eqn:E.
  - intros [= ->]. apply bytes_eqb_eq in E; subst. left; reflexivity.
  - intros H. right. apply IH; exact H.
Qed.

Lemma lookup_some_in_names name funcs f : lookup name funcs = Some f -> In name (map fst funcs).
Proof. intros H. exact (in_map fst _ _ (lookup_in _ _ _ H)). Qed.

Lemma in_lookup name f funcs : NoDup (map fst funcs) -> In (name, f) funcs -> lookup name funcs = Some f.
Proof.
  induction funcs as [|[n g] rest IH]; cbn [lookup map fst]; intros ND Hin; [destruct Hin|].
  inversion ND as [|? ? Hnot ND']; subst.
  destruct Hin as [[= -> ->]|Hin].
  - rewrite bytes_eqb_refl. reflexivity.
  - destruct (bytes_eqb name n) eqn:E.
    + apply bytes_eqb_eq in E; subst. exfalso. apply Hnot.
      exact (in_map fst _ _ Hin).
    + apply IH; assumption.
Qed.

Lemma lookup_none name funcs : lookup name funcs = None -> ~ In name (map fst funcs).
Proof.
  induction funcs as [|[n g] rest IH]; cbn [lookup map fst]; intros H; [intros []|].
  destruct (bytes_eqb name n) eqn:E; [discriminate|].
  intros [->|Hin]; [|apply IH; assumption].
  rewrite bytes_eqb_refl in E. discriminate.
Qed.

Theorem lookup_perm_invariant name l1 l2 :
  NoDup (map fst l1) -> Permutation l1 l2 -> lookup name l1 = lookup name l2.
Proof.
  intros ND P. pose proof (Permutation_NoDup (Permutation_map fst P) ND) as ND2.
  destruct (lookup name l1) as [f|] eqn:E1.
  - symmetry. apply in_lookup; [exact ND2|]. eapply Permutation_in; [exact P|]. apply lookup_in; exact E1.
  - destruct (lookup name l2) as [g|] eqn:E2; [|reflexivity].
    exfalso. apply lookup_none in E1. apply E1.
    eapply Permutation_in; [apply Permutation_sym, Permutation_map; exact P|].
    exact (lookup_some_in_names _ _ _ E2).
Qed.

Lemma entries_perm (Q : bytes -> fval -> Prop) l1 l2 : Permutation l1 l2 ->
  (forall n f, In (n, f) l1 -> Q n f) -> forall n f, In (n, f) l2 -> Q n f.
Proof. intros P H n f Hin. exact (H n f (Permutation_in _ (Permutation_sym P) Hin)). Qed.

(* ---- the table built by initNativeFuncs, indexed by the resolver's index ---- *)
Lemma nindex_spec {A} (l : list A) i :
  nindex l i = match (if 0 <=? i then nth_error l (Z.to_nat i) else None) with
               | Some a => NOk a
               | None => NPanic PkIndex
               end.
Proof.
  unfold nindex. destruct (Z.leb_spec 0 i) as [E1|E1]; [|reflexivity].
  destruct (Z.ltb_spec i (zlen l)) as [E2|E2]; [reflexivity|].
  rewrite (proj2 (nth_error_None l (Z.to_nat i))) by (unfold zlen in E2; lia). reflexivity.
Qed.

Lemma nindex_0 {A} (x : A) l : nindex (x :: l) 0 = NOk x.
Proof. rewrite nindex_spec. reflexivity. Qed.

Lemma nindex_succ {A} (x : A) l i : 0 <= i -> nindex (x :: l) (1 + i) = nindex l i.
Proof.
  intros Hi. rewrite !nindex_spec.
  rewrite (proj2 (Z.leb_le 0 i)), (proj2 (Z.leb_le 0 (1 + i))) by lia.
  replace (Z.to_nat (1 + i)) with (S (Z.to_nat i)) by lia. reflexivity.
Qed.

Lemma nindex_nth {A} (l : list A) i d : 0 <= i < zlen l -> nindex l i = NOk (nth (Z.to_nat i) l d).
Proof.
  intros H. rewrite nindex_spec, (proj2 (Z.leb_le 0 i)) by lia.
  rewrite (nth_error_nth' l d) by (unfold zlen in H; lia). reflexivity.
Qed.

Lemma index_of_nonneg x l : 0 <= index_of x l.
Proof. induction l as [|y l IH]; cbn [index_of]; [lia|]. destruct (bytes_eqb x y); lia. Qed.

Lemma index_of_lt x l : In x l -> index_of x l < zlen l.
Proof.
  induction l as [|y l IH]; cbn [index_of]; intros Hin; [destruct Hin|].
  rewrite zlen_cons. pose proof (zlen_nonneg l).
  destruct (bytes_eqb x y) eqn:E; [lia|].
  destruct Hin as [->|Hin].
  - rewrite bytes_eqb_refl in E. discriminate.
  - specialize (IH Hin). lia.
Qed.

Lemma build_table_index funcs names : forall tbl name,
  build_table funcs names = NOk tbl -> In name names ->
  exists s b, lookup name funcs = Some (FFunc s b) /\ nindex tbl (index_of name names) = NOk (s, b).
Proof.
  induction names as [|y names IH]; intros tbl name Hb Hin; [destruct Hin|].
  cbn [build_table] in Hb.
  destruct (lookup y funcs) as [[| |s b]|] eqn:El; cbn [nbind] in Hb; try discriminate.
  destruct (build_table funcs names) as [tl|k] eqn:Et; cbn [nbind] in Hb; [|discriminate].
  injection Hb as <-. cbn [index_of].
  destruct (bytes_eqb name y) eqn:E.
  - apply bytes_eqb_eq in E; subst y. exists s, b. split; [exact El|apply nindex_0].
  - destruct Hin as [->|Hin].
    + rewrite bytes_eqb_refl in E. discriminate.
    + destruct (IH tl name eq_refl Hin) as (s' & b' & L & N). exists s', b'. split; [exact L|].
      rewrite nindex_succ; [exact N|apply index_of_nonneg].
Qed.

Lemma build_table_len funcs names : forall tbl, build_table funcs names = NOk tbl -> zlen tbl = zlen names.
Proof.
  induction names as [|y names IH]; intros tbl Hb; cbn [build_table] in Hb.
  - injection Hb as <-. reflexivity.
  - destruct (lookup y funcs) as [[| |s b]|]; cbn [nbind] in Hb; try discriminate.
    destruct (build_table funcs names) as [tl|k] eqn:Et; cbn [nbind] in Hb; [|discriminate].
    injection Hb as <-. rewrite !zlen_cons. rewrite (IH tl eq_refl). reflexivity.
Qed.

(* indexes_agree: the index the resolver puts into the CallNative instruction selects, in the
   table the interpreter builds from ITS walk of the same map, the function bound to that name. *)
Theorem indexes_agree funcs_r funcs_i name tbl :
  NoDup (map fst funcs_i) -> Permutation funcs_r funcs_i ->
  build_table funcs_i (sort_names (map fst funcs_i)) = NOk tbl ->
  In name (map fst funcs_r) ->
  resolver_index funcs_r name = index_of name (sort_names (map fst funcs_i)) /\
  exists s b, lookup name funcs_r = Some (FFunc s b) /\ lookup name funcs_i = Some (FFunc s b) /\
              nindex tbl (resolver_index funcs_r name) = NOk (s, b).
Proof.
  intros ND P Hb Hin.
  assert (Es : sort_names (map fst funcs_r) = sort_names (map fst funcs_i))
    by (apply sort_names_perm_invariant, Permutation_map; exact P).
  unfold resolver_index. rewrite Es. split; [reflexivity|].
  assert (Hin' : In name (sort_names (map fst funcs_i))).
  { eapply Permutation_in; [apply sort_perm|]. eapply Permutation_in; [apply Permutation_map; exact P|exact Hin]. }
  destruct (build_table_index _ _ _ _ Hb Hin') as (s & b & L & N).
  exists s, b. repeat split; try assumption.
  rewrite <- L. apply lookup_perm_invariant; [|exact P].
  exact (Permutation_NoDup (Permutation_map fst (Permutation_sym P)) ND).
Qed.
