(* C13 proofs: standard output when its sink never fails.  The invariant
   [good] is the invariant [pinv] of StreamsPrefix.v for a writer without
   limit, where "the sink is full" is False. *)
From Verif Require Import Lib.Base Model.Streams Proofs.StreamsBase Proofs.StreamsSpec Proofs.StreamsPrefix.

Lemma good_pinv E s : good E s <-> pinv None E s.
Proof.
  unfold good, pinv, view, fits, full, out_content, nobuf. split.
  - intros (Hl & He & Hc & Hx & Hn). split; [|split].
    + split; [exact Hl|split; [exact I|]]. exists (bw_buf (st_out s)). auto.
    + destruct (e_mode E); auto.
    + intros n o Hin Hcg. rewrite (Hc n o Hin) in Hcg. discriminate.
  - intros ((Hl & _ & rest & Hx & [[He ->]|[]]) & Hm & Hc). split; [exact Hl|split; [exact He|split; [|split; [exact Hx|]]]].
    + intros n o Hin. destruct (os_cgfail o) eqn:Eo; [destruct (Hc n o Hin Eo)|reflexivity].
    + destruct (e_mode E); tauto.
Qed.

Lemma init_good E fs : good E (init_state fs None).
Proof. apply good_pinv, init_pinv. Qed.

Lemma exec_good E ops s : good E s -> good E (fst (exec E s ops)).
Proof. intros Hg. apply good_pinv, exec_pinv, good_pinv, Hg. Qed.

Lemma good_set_overlap E s : good E s -> good E (set_overlap s).
Proof. intros Hg. apply good_pinv. apply (pinv_frame None E s); auto. apply good_pinv, Hg. Qed.

(* closing a stream: the copy of the command's output has not failed *)
Lemma flush_ostream_good E s n o : good E s -> alookup n (st_outs s) = Some o ->
  os_cgfail (snd (flush_ostream E (set_outs s (aremove n (st_outs s))) n o)) = false.
Proof.
  intros Hg El. apply good_pinv in Hg.
  destruct (flush_ostream_pinv None E _ n o (pinv_aremove None E s n Hg)) as (_ & H).
  - exact (pinv_lookup None E s n o Hg El).
  - destruct (os_cgfail _); [destruct (H eq_refl)|reflexivity].
Qed.
