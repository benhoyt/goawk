(* C11: nextLine against its specification.  [plan e s] is the stream of main-input events (file opened, record,
   assignment operand processed, file that cannot be opened) that the operands still to be visited will produce;
   every call of nextLine moves a prefix of that stream into the history ([next_line_plan]).  nextLine itself is
   taken apart once: [walk_ind] is its induction principle, [next_line_moves] carries a predicate back over its
   elementary moves; the frame, counter and delivery statements are instances. *)
From Verif Require Import Lib.Base Model.Input.

(* the projections of [st] on states built with its setters *)
Ltac sst := cbn [argv argc idx had cur stdin NR FNR FILENAME line fields vars rd rdstdin ret status out log
                 set_argv set_argc set_idx set_had set_cur set_stdin set_NR set_FNR set_FILENAME set_linefields
                 set_vars set_rd set_rdstdin set_ret set_status add_out add_log set_file set_line] in *.

Inductive pev :=
| PRec (file : bytes) (r : record)     (* a record of [file] *)
| PFile (name : bytes)                 (* [name] becomes the current file (FILENAME := name, FNR := 0) *)
| PAssign (name val : bytes)           (* the operand name=val is processed *)
| PBad (name : bytes).                 (* the operand names a file that cannot be opened *)

Definition pev_of1 (x : ev) : list pev :=
  match x with
  | EvRec f r => [PRec f r]
  | EvSkip f rs => map (PRec f) rs
  | EvSetFile n => [PFile n]
  | EvAssign n v => [PAssign n v]
  | EvNoFile n => [PBad n]
  | _ => []
  end.
Definition pev_of (l : list ev) : list pev := flat_map pev_of1 l.

Lemma pev_of_app a b : pev_of (a ++ b) = pev_of a ++ pev_of b.
Proof. unfold pev_of. apply flat_map_app. Qed.

(* the history in chronological order *)
Definition hist (s : st) : list ev := rev (log s).

(* is the assignment operand name=val one the model evaluates (NR, FNR with a canonical
   number; any name that is not all upper case) *)
Definition assign_ok (v val : bytes) : bool :=
  if bytes_eqb v b_NR then match parse_canon_nat val with Some _ => true | None => false end
  else if bytes_eqb v b_FNR then match parse_canon_nat val with Some _ => true | None => false end
  else negb (all_upper v).

Definition operand_value (raw : bytes) : option bytes :=
  match unescape raw with UOk u => Some u | UErr => Some raw | UUnmod => None end.

(* what the operands from index [i] on will deliver; [hd] = a file operand was already seen,
   [sin] = what is left of stdin *)
Fixpoint plan_from (e : env) (av : list (Z * bytes)) (ac : Z) (n : nat) (i : Z) (hd : bool) (sin : list record) : list pev :=
  if (ac <=? i) && negb hd then PFile b_dash :: map (PRec b_dash) sin
  else if ac <=? i then []
  else
    match n with
    | O => []
    | S n' =>
      let name := match zlookup av i with Some v => v | None => [] end in
      match (if noargvars e then None else parse_assign name) with
      | Some (v, raw) =>
          match operand_value raw with
          | None => []
          | Some val => if assign_ok v val then PAssign v val :: plan_from e av ac n' (i + 1) hd sin else []
          end
      | None =>
          match name with
          | [] => plan_from e av ac n' (i + 1) hd sin
          | _ =>
            if bytes_eqb name b_dash then PFile b_dash :: map (PRec b_dash) sin ++ plan_from e av ac n' (i + 1) true []
            else match blookup (fs e) name with
                 | None => PBad name :: plan_from e av ac n' (i + 1) hd sin
                 | Some recs => PFile name :: map (PRec name) recs ++ plan_from e av ac n' (i + 1) true sin
                 end
          end
      end
    end.

Definition planF e av ac i hd sin := plan_from e av ac (Z.to_nat (ac - i)) i hd sin.

Definition cur_part (s : st) : list pev :=
  match cur s with Some (name, recs) => map (PRec name) recs | None => [] end.

(* everything the main input will still deliver from state [s] (if the program leaves ARGV, ARGC and stdin alone) *)
Definition plan (e : env) (s : st) : list pev :=
  cur_part s ++ planF e (argv s) (argc s) (idx s) (had s) (stdin s).

Lemma planF_unfold e av ac i hd sin :
  planF e av ac i hd sin =
  if (ac <=? i) && negb hd then PFile b_dash :: map (PRec b_dash) sin
  else if ac <=? i then []
  else
      let name := match zlookup av i with Some v => v | None => [] end in
      match (if noargvars e then None else parse_assign name) with
      | Some (v, raw) =>
          match operand_value raw with
          | None => []
          | Some val => if assign_ok v val then PAssign v val :: planF e av ac (i + 1) hd sin else []
          end
      | None =>
          match name with
          | [] => planF e av ac (i + 1) hd sin
          | _ =>
            if bytes_eqb name b_dash then PFile b_dash :: map (PRec b_dash) sin ++ planF e av ac (i + 1) true []
            else match blookup (fs e) name with
                 | None => PBad name :: planF e av ac (i + 1) hd sin
                 | Some recs => PFile name :: map (PRec name) recs ++ planF e av ac (i + 1) true sin
                 end
          end
      end.
Proof.
  unfold planF.
  destruct (ac <=? i) eqn:Hle.
  - replace (Z.to_nat (ac - i)) with 0%nat by lia. cbn [plan_from]. rewrite Hle. reflexivity.
  - assert (Hn : Z.to_nat (ac - i) = S (Z.to_nat (ac - (i + 1)))) by lia.
    rewrite Hn. cbn [plan_from]. rewrite Hle. reflexivity.
Qed.

(* the history grows by a prefix of the plan *)
Definition advances (e : env) (s s' : st) : Prop :=
  exists new, log s' = new ++ log s /\ pev_of (rev new) ++ plan e s' = plan e s.

Lemma advances_refl e s : advances e s s.
Proof. exists []. split; reflexivity. Qed.

Lemma advances_trans e s1 s2 s3 : advances e s1 s2 -> advances e s2 s3 -> advances e s1 s3.
Proof.
  intros (n1 & L1 & P1) (n2 & L2 & P2). exists (n2 ++ n1). split.
  - rewrite L2, L1, app_assoc. reflexivity.
  - rewrite rev_app_distr, pev_of_app, <- app_assoc, P2, P1. reflexivity.
Qed.

(* the part of the state the plan is a function of *)
Definition same_operands (s s' : st) : Prop :=
  cur s' = cur s /\ argv s' = argv s /\ argc s' = argc s /\ idx s' = idx s /\ had s' = had s.
Definition same_cursor (s s' : st) : Prop := same_operands s s' /\ stdin s' = stdin s.

Lemma plan_ext e s s' : same_cursor s s' -> plan e s' = plan e s.
Proof. intros ((H1 & H2 & H3 & H4 & H5) & H6). unfold plan, cur_part. rewrite H1, H2, H3, H4, H5, H6. reflexivity. Qed.

Lemma advances_quiet e s s' new :
  log s' = new ++ log s -> pev_of (rev new) = [] -> same_cursor s s' -> advances e s s'.
Proof. intros HL HP HC. exists new. split; [exact HL|]. rewrite HP. apply plan_ext, HC. Qed.

Lemma advances_plan_nil e s s' : advances e s s' -> plan e s = [] -> plan e s' = [].
Proof. intros (new & _ & P) H. rewrite H in P. apply app_eq_nil in P. tauto. Qed.

(* what nextLine never touches: $0, the fields, the getline streams, the output, the status *)
Definition nl_frame (s s' : st) : Prop :=
  line s' = line s /\ fields s' = fields s /\ out s' = out s /\ rd s' = rd s /\ rdstdin s' = rdstdin s /\
  ret s' = ret s /\ status s' = status s.

Lemma set_var_by_name_some e v val s s2 :
  set_var_by_name e v val s = Some s2 ->
  assign_ok v val = true /\ log s2 = log s /\ same_cursor s s2 /\ nl_frame s s2 /\ FILENAME s2 = FILENAME s.
Proof.
  unfold set_var_by_name, assign_ok. intros H.
  destruct (bytes_eqb v b_NR).
  { destruct (parse_canon_nat val); [|discriminate]. injection H as <-. repeat split. }
  destruct (bytes_eqb v b_FNR).
  { destruct (parse_canon_nat val); [|discriminate]. injection H as <-. repeat split. }
  destruct (all_upper v); [discriminate|].
  destruct (bmem v (globals e)); injection H as <-; repeat split.
Qed.

Lemma set_var_by_name_none e v val s :
  set_var_by_name e v val s = None -> assign_ok v val = false.
Proof.
  unfold set_var_by_name, assign_ok. intros H.
  destruct (bytes_eqb v b_NR). { destruct (parse_canon_nat val); [discriminate|reflexivity]. }
  destruct (bytes_eqb v b_FNR). { destruct (parse_canon_nat val); [discriminate|reflexivity]. }
  destruct (all_upper v); [reflexivity|].
  destruct (bmem v (globals e)); discriminate.
Qed.

(* the two exits [walk] tests before it looks at its fuel *)
Definition walk_stop (s : st) : option (nlres * st) :=
  if (argc s <=? idx s) && negb (had s) then
    Some (match stdin s with
          | r :: rest => deliver b_dash r rest (set_stdin [] (set_file b_dash s))
          | [] => (NLEof, set_file b_dash s)
          end)
  else if argc s <=? idx s then Some (NLEof, s) else None.

(* the visit of one operand: nextLine returns, or goes on to the next operand from a new state *)
Definition walk_operand (e : env) (s : st) : (nlres * st) + st :=
  let name := argv_get s (idx s) in
  let s1 := set_idx (idx s + 1) s in
  match (if noargvars e then None else parse_assign name) with
  | Some (v, raw) =>
      match operand_value raw with
      | None => inl (NLUnmod, s1)
      | Some val =>
          match set_var_by_name e v val s1 with
          | Some s2 => inr (add_log (EvAssign v val) s2)
          | None => inl (NLUnmod, s1)
          end
      end
  | None =>
      match name with
      | [] => inr s1
      | _ =>
        if bytes_eqb name b_dash then
          match stdin s with
          | r :: rest => inl (deliver b_dash r rest (set_stdin [] (set_file b_dash s1)))
          | [] => inr (set_file b_dash s1)
          end
        else
          match blookup (fs e) name with
          | None => inl (NLErr, add_log (EvNoFile name) s1)
          | Some (r :: rest) => inl (deliver name r rest (set_file name s1))
          | Some [] => inr (set_file name s1)
          end
      end
  end.

Lemma walk_eq e n s :
  walk e n s =
  match walk_stop s with
  | Some r => r
  | None =>
      match n with
      | O => (NLFuel, s)
      | S n' => match walk_operand e s with inl r => r | inr s1 => walk e n' s1 end
      end
  end.
Proof.
  unfold walk_stop, walk_operand, operand_value.
  destruct n; cbn [walk]; change (stdin (set_file b_dash s)) with (stdin s);
    (destruct ((argc s <=? idx s) && negb (had s)); [destruct (stdin s); reflexivity|]);
    (destruct (argc s <=? idx s); [reflexivity|]); [reflexivity|].
  destruct (if noargvars e then None else parse_assign (argv_get s (idx s))) as [[v raw]|].
  - destruct (unescape raw); [| |reflexivity]; destruct (set_var_by_name e v _ _); reflexivity.
  - destruct (argv_get s (idx s)) as [|c name]; [reflexivity|].
    destruct (bytes_eqb (c :: name) b_dash).
    + change (stdin (set_file b_dash (set_idx (idx s + 1) s))) with (stdin s). destruct (stdin s); reflexivity.
    + destruct (blookup (fs e) (c :: name)) as [[|r rest]|]; reflexivity.
Qed.

Lemma walk_stop_shape s :
  match walk_stop s with Some r => fst r <> NLFuel | None => idx s < argc s end.
Proof.
  unfold walk_stop.
  destruct ((argc s <=? idx s) && negb (had s)); [destruct (stdin s); discriminate|].
  destruct (argc s <=? idx s) eqn:Hle; [discriminate|]. apply Z.leb_gt, Hle.
Qed.

Lemma walk_operand_shape e s :
  match walk_operand e s with
  | inl r => fst r <> NLEof /\ fst r <> NLFuel
  | inr s1 => cur s1 = cur s /\ argc s1 = argc s /\ idx s1 = idx s + 1
  end.
Proof.
  unfold walk_operand.
  destruct (if noargvars e then None else parse_assign (argv_get s (idx s))) as [[v raw]|].
  - destruct (operand_value raw) as [val|]; [|split; discriminate].
    destruct (set_var_by_name e v val _) as [s2|] eqn:Hsv; [|split; discriminate].
    apply set_var_by_name_some in Hsv as (_ & _ & ((Hc & _ & Hac & Hi & _) & _) & _). auto.
  - destruct (argv_get s (idx s)) as [|c name]; [sst; auto|].
    destruct (bytes_eqb (c :: name) b_dash).
    + destruct (stdin s); [sst; auto|split; discriminate].
    + destruct (blookup (fs e) (c :: name)) as [[|r rest]|]; [sst; auto|split; discriminate..].
Qed.

(* nextLine gives [walk] fuel for every operand that is left, so the case that it runs out never arises *)
Lemma walk_ind e (P : st -> nlres * st -> Prop) :
  (forall s r, walk_stop s = Some r -> P s r) ->
  (forall s, walk_stop s = None ->
     match walk_operand e s with inl r => P s r | inr s1 => forall r, P s1 r -> P s r end) ->
  forall n s, (Z.to_nat (argc s - idx s) <= n)%nat -> P s (walk e n s).
Proof.
  intros Hstop Hop.
  induction n as [|n IH]; intros s Hn; rewrite walk_eq;
    pose proof (walk_stop_shape s) as Hlt; destruct (walk_stop s) as [r|] eqn:Hs; auto; [lia|].
  specialize (Hop s Hs). pose proof (walk_operand_shape e s) as Hsh.
  destruct (walk_operand e s) as [r|s1]; [exact Hop|].
  destruct Hsh as (_ & Hac & Hi). apply Hop, IH. lia.
Qed.

Lemma next_line_cases e s :
  (exists name r rest, cur s = Some (name, r :: rest) /\ next_line e s = deliver name r rest s) \/
  (cur_part s = [] /\ next_line e s = walk e (Z.to_nat (argc s - idx s)) (set_cur None s)).
Proof.
  unfold next_line, cur_part. destruct (cur s) as [[name [|r rest]]|]; [right|left; exists name, r, rest|right]; auto.
Qed.

(* nextLine is a sequence of elementary moves that ends by delivering a record or by returning without one:
   what holds at the end and is carried back over each move holds of nextLine *)
Section NextLineMoves.
  Variable e : env.
  Variable P : st -> nlres * st -> Prop.
  Hypothesis P_ret : forall s res, (forall r, res <> NLRec r) -> P s (res, s).
  Hypothesis P_deliver : forall name r rest s, P s (deliver name r rest s).
  Hypothesis P_cur : forall s x, P (set_cur None s) x -> P s x.
  Hypothesis P_idx : forall i s x, P (set_idx i s) x -> P s x.
  Hypothesis P_stdin : forall s x, P (set_stdin [] s) x -> P s x.
  Hypothesis P_file : forall name s x, P (set_file name s) x -> P s x.
  Hypothesis P_assign : forall v val s s2 x,
    set_var_by_name e v val s = Some s2 -> P (add_log (EvAssign v val) s2) x -> P s x.
  Hypothesis P_nofile : forall name s x, P (add_log (EvNoFile name) s) x -> P s x.

  Lemma walk_moves n s : (Z.to_nat (argc s - idx s) <= n)%nat -> P s (walk e n s).
  Proof.
    revert n s. apply walk_ind.
    - intros s r. unfold walk_stop.
      destruct ((argc s <=? idx s) && negb (had s)); [destruct (stdin s)|destruct (argc s <=? idx s)]; intros [= <-].
      + eapply P_file, P_ret. discriminate.
      + eapply P_file, P_stdin, P_deliver.
      + apply P_ret. discriminate.
    - intros s _. unfold walk_operand.
      destruct (if noargvars e then None else parse_assign (argv_get s (idx s))) as [[v raw]|].
      { destruct (operand_value raw) as [val|]; [|eapply P_idx, P_ret; discriminate].
        destruct (set_var_by_name e v val _) as [s2|] eqn:Hsv; [|eapply P_idx, P_ret; discriminate].
        intros x Hx. eapply P_idx, P_assign; eassumption. }
      destruct (argv_get s (idx s)) as [|c name]. { intros x. apply P_idx. }
      destruct (bytes_eqb (c :: name) b_dash).
      { destruct (stdin s); [intros x Hx; eapply P_idx, P_file, Hx|eapply P_idx, P_file, P_stdin, P_deliver]. }
      destruct (blookup (fs e) (c :: name)) as [[|r0 rest]|].
      + intros x Hx. eapply P_idx, P_file, Hx.
      + eapply P_idx, P_file, P_deliver.
      + eapply P_idx, P_nofile, P_ret. discriminate.
  Qed.

  Lemma next_line_moves s : P s (next_line e s).
  Proof.
    unfold next_line. destruct (cur s) as [[name [|r rest]]|]; try apply P_deliver; apply P_cur, walk_moves, le_n.
  Qed.
End NextLineMoves.

(* in particular a reflexive, transitive relation on states that each elementary move respects
   holds between the state nextLine starts from and the state it ends in *)
Lemma next_line_rel e (R : st -> st -> Prop) :
  (forall s, R s s) -> (forall a b c, R a b -> R b c -> R a c) ->
  (forall s, R s (set_cur None s)) -> (forall i s, R s (set_idx i s)) -> (forall s, R s (set_stdin [] s)) ->
  (forall name s, R s (set_file name s)) -> (forall name r rest s, R s (snd (deliver name r rest s))) ->
  (forall v val s s2, set_var_by_name e v val s = Some s2 -> R s (add_log (EvAssign v val) s2)) ->
  (forall name s, R s (add_log (EvNoFile name) s)) ->
  forall s, R s (snd (next_line e s)).
Proof.
  intros R_refl R_trans R_cur R_idx R_stdin R_file R_deliver R_assign R_nofile.
  apply (next_line_moves e (fun s x => R s (snd x))); eauto.
Qed.

Definition same_record (s s' : st) : Prop := line s' = line s /\ fields s' = fields s.

Lemma next_line_frame e s res s' :
  next_line e s = (res, s') ->
  line s' = line s /\ fields s' = fields s /\ out s' = out s /\ rd s' = rd s /\ rdstdin s' = rdstdin s /\
  ret s' = ret s /\ status s' = status s.
Proof.
  intros H. change (nl_frame s (snd (res, s'))). rewrite <- H. clear H. revert s.
  apply next_line_rel; try solve [intros; repeat split].
  - intros a b c (A1 & A2 & A3 & A4 & A5 & A6 & A7) (B1 & B2 & B3 & B4 & B5 & B6 & B7). repeat split; congruence.
  - intros v val s s2 H. apply set_var_by_name_some in H as (_ & _ & _ & H & _). exact H.
Qed.

Definition consumes (e : env) (s s' : st) : Prop :=
  argv s' = argv s /\ argc s' = argc s /\ advances e s s'.

Lemma consumes_refl e s : consumes e s s.
Proof. repeat split. apply advances_refl. Qed.

Lemma consumes_trans e s1 s2 s3 : consumes e s1 s2 -> consumes e s2 s3 -> consumes e s1 s3.
Proof.
  intros (V1 & C1 & A1) (V2 & C2 & A2). repeat split; try congruence. eapply advances_trans; eassumption.
Qed.

Lemma plan_cur_none e s :
  cur_part s = [] -> plan e s = planF e (argv s) (argc s) (idx s) (had s) (stdin s).
Proof. unfold plan. intros ->. reflexivity. Qed.

Lemma walk_stop_consumes e s r : walk_stop s = Some r -> cur s = None -> consumes e s (snd r).
Proof.
  unfold walk_stop. intros Hs Hc.
  destruct ((argc s <=? idx s) && negb (had s)) eqn:Hc1.
  - apply andb_true_iff in Hc1 as [Hle Hh]. unfold consumes, advances, plan, cur_part.
    rewrite (planF_unfold e (argv s) (argc s) (idx s)), Hle, Hh, Hc.
    destruct (stdin s) as [|r0 rest] eqn:Hsin; injection Hs as <-; cbn [deliver snd]; sst;
      rewrite ?Hc, ?Hsin, planF_unfold, Hle; repeat split.
    + exists [EvSetFile b_dash]. split; reflexivity.
    + exists [EvRec b_dash r0; EvSetFile b_dash]. split; [reflexivity|]. cbn. rewrite app_nil_r. reflexivity.
  - destruct (argc s <=? idx s); [injection Hs as <-; apply consumes_refl|discriminate].
Qed.

Lemma walk_operand_consumes e s : walk_stop s = None -> cur s = None ->
  match walk_operand e s with
  | inl r => fst r <> NLUnmod -> consumes e s (snd r)
  | inr s1 => consumes e s s1
  end.
Proof.
  intros Hs Hc. pose proof (walk_stop_shape s) as Hlt. rewrite Hs in Hlt. apply Z.leb_gt in Hlt.
  unfold walk_operand, consumes, advances, plan, cur_part, deliver.
  rewrite (planF_unfold e (argv s) (argc s) (idx s)), Hlt, Hc. cbn [andb app]. cbn zeta. fold (argv_get s (idx s)).
  destruct (if noargvars e then None else parse_assign (argv_get s (idx s))) as [[v raw]|].
  { destruct (operand_value raw) as [val|]; [|intros []; reflexivity].
    destruct (set_var_by_name e v val _) as [s2|] eqn:Hsv; [|intros []; reflexivity].
    apply set_var_by_name_some in Hsv as (-> & Hl & ((Hc2 & Hav & Hac & Hi & Hh) & Hsin) & _).
    sst. rewrite Hc2, Hav, Hac, Hi, Hh, Hsin, Hl. sst. rewrite Hc. repeat split. exists [EvAssign v val]. split; reflexivity. }
  destruct (argv_get s (idx s)) as [|c name]. { sst. rewrite Hc. repeat split. exists []. split; reflexivity. }
  destruct (bytes_eqb (c :: name) b_dash).
  { destruct (stdin s) as [|r0 rest] eqn:Hsin; [|intros _]; cbn [snd]; sst; rewrite ?Hc, ?Hsin; repeat split.
    - exists [EvSetFile b_dash]. split; reflexivity.
    - exists [EvRec b_dash r0; EvSetFile b_dash]. split; reflexivity. }
  destruct (blookup (fs e) (c :: name)) as [[|r0 rest]|]; [|intros _..]; cbn [snd]; sst; rewrite ?Hc; repeat split.
  - exists [EvSetFile (c :: name)]. split; reflexivity.
  - exists [EvRec (c :: name) r0; EvSetFile (c :: name)]. split; reflexivity.
  - exists [EvNoFile (c :: name)]. split; reflexivity.
Qed.

Lemma walk_consumes e n s : (Z.to_nat (argc s - idx s) <= n)%nat ->
  cur s = None -> fst (walk e n s) <> NLUnmod -> consumes e s (snd (walk e n s)).
Proof.
  revert n s. apply (walk_ind e (fun s r => cur s = None -> fst r <> NLUnmod -> consumes e s (snd r))).
  - intros s r Hs Hc _. eapply walk_stop_consumes; eassumption.
  - intros s Hs. pose proof (walk_operand_consumes e s Hs) as H. pose proof (walk_operand_shape e s) as Hsh.
    destruct (walk_operand e s) as [r|s1]; [exact H|].
    intros r IH Hc Hun. destruct Hsh as (Hc1 & _). rewrite Hc in Hc1.
    eapply consumes_trans; [apply H, Hc|apply IH; assumption].
Qed.

Lemma walk_no_fuel e n s : (Z.to_nat (argc s - idx s) <= n)%nat -> fst (walk e n s) <> NLFuel.
Proof.
  revert n s. apply (walk_ind e (fun _ r => fst r <> NLFuel)).
  - intros s r Hs. pose proof (walk_stop_shape s) as H. rewrite Hs in H. exact H.
  - intros s _. pose proof (walk_operand_shape e s) as H. destruct (walk_operand e s); [apply H|auto].
Qed.

Lemma next_line_total e s : fst (next_line e s) <> NLUnmod -> fst (next_line e s) <> NLFuel.
Proof.
  intros _. destruct (next_line_cases e s) as [(name & r & rest & _ & ->)|[_ ->]]; [discriminate|apply walk_no_fuel, le_n].
Qed.

Lemma walk_plan e : forall n s res s',
  walk e n s = (res, s') -> cur s = None -> (Z.to_nat (argc s - idx s) <= n)%nat ->
  res <> NLUnmod ->
  res <> NLFuel /\
  exists new, log s' = new ++ log s /\ argv s' = argv s /\ argc s' = argc s /\
    pev_of (rev new) ++ plan e s' = planF e (argv s) (argc s) (idx s) (had s) (stdin s).
Proof.
  intros n s res s' Hw Hc Hn Hun.
  pose proof (walk_no_fuel e n s Hn) as Hf. pose proof (walk_consumes e n s Hn Hc) as H.
  rewrite Hw in Hf, H. split; [exact Hf|]. destruct (H Hun) as (Hav & Hac & new & HL & HP). exists new.
  rewrite <- plan_cur_none by (unfold cur_part; rewrite Hc; reflexivity). auto.
Qed.

Lemma next_line_plan e s res s' :
  next_line e s = (res, s') -> res <> NLUnmod ->
  res <> NLFuel /\
  exists new, log s' = new ++ log s /\ argv s' = argv s /\ argc s' = argc s /\
    pev_of (rev new) ++ plan e s' = plan e s.
Proof.
  intros Hw Hun.
  destruct (next_line_cases e s) as [(name & r & rest & Hc & H)|[Hc H]]; rewrite H in Hw.
  - injection Hw as <- <-. split; [discriminate|]. exists [EvRec name r]. repeat split.
    unfold plan, cur_part. sst. rewrite Hc. reflexivity.
  - apply walk_plan in Hw; [|reflexivity|apply le_n|exact Hun].
    rewrite (plan_cur_none e s Hc). exact Hw.
Qed.

Lemma next_line_advances e s res s' :
  next_line e s = (res, s') -> res <> NLUnmod -> advances e s s'.
Proof.
  intros H Hun. apply next_line_plan in H; [|exact Hun].
  destruct H as (_ & new & HL & _ & _ & HP). exists new. split; assumption.
Qed.

(* at the end of all input nothing is left in the plan *)
Lemma walk_eof_plan e n s : (Z.to_nat (argc s - idx s) <= n)%nat ->
  cur s = None -> forall s', walk e n s = (NLEof, s') -> plan e s' = [].
Proof.
  revert n s. apply (walk_ind e (fun s r => cur s = None -> forall s', r = (NLEof, s') -> plan e s' = [])).
  - unfold walk_stop. intros s r Hs Hc s' ->.
    destruct ((argc s <=? idx s) && negb (had s)) eqn:Hc1.
    + destruct (stdin s); [|discriminate]. injection Hs as <-.
      apply andb_true_iff in Hc1 as [Hle _]. unfold plan, cur_part. sst. rewrite Hc, planF_unfold, Hle. reflexivity.
    + destruct (argc s <=? idx s) eqn:Hle; [|discriminate]. injection Hs as <-.
      unfold plan, cur_part. rewrite Hc, planF_unfold, Hle, Hc1. reflexivity.
  - intros s _. pose proof (walk_operand_shape e s) as H. destruct (walk_operand e s) as [r|s1].
    + intros _ s' ->. destruct H as [[] _]. reflexivity.
    + destruct H as (-> & _). auto.
Qed.

Lemma next_line_eof_plan e s s' : next_line e s = (NLEof, s') -> plan e s' = [].
Proof.
  destruct (next_line_cases e s) as [(name & r & rest & _ & ->)|[_ ->]]; [discriminate|].
  apply walk_eof_plan; [apply le_n|reflexivity].
Qed.
