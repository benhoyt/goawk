(* C20 — the Go printer's parentheses never hurt: if a tree (with its own grouping nodes, i.e. as the
   parser built it) is a writing that respects C04's table, so is the tree [gp e] that Expr.String()
   writes.  Hence, by C04's parse_printed, the TOKENS of the printed text are read back as exactly
   [gp e], which is e up to grouping nodes. *)
From Verif Require Import Lib.Base Gen.Prec Model.ExprAst Model.ExprParser Model.Printer
  Proofs.ExprParserMono Proofs.ExprParserRel Proofs.PrecSpec Proofs.ExprParserPrinted Proofs.ExprParserMin Proofs.PrinterGroup.
Local Open Scope nat_scope.

Lemma okn_pc_irrel : forall e c, okn true e c c = okn false e c c.
Proof.
  induction e using expr_ind'; intros c0; try reflexivity.
  - rewrite !okn_binop, IHe2. reflexivity.
  - cbn [okn]. rewrite IHe3. reflexivity.
  - cbn [okn]. rewrite IHe2. reflexivity.
  - cbn [okn]. rewrite IHe2. reflexivity.
  - destruct pre; [apply IHe | reflexivity].
Qed.

Definition same_cont (t : tok) : Prop := tok_cont true t = tok_cont false t.

Lemma ok_pc_irrel e t : same_cont t -> ok true e t = ok false e t.
Proof. unfold ok, same_cont. intros ->. apply okn_pc_irrel. Qed.

(* of the operator tokens only > continues differently in the print tower (there it is the redirection) *)
Lemma binop_same_cont op : op <> BGt -> same_cont (hd_tok (binop_tok op)).
Proof. destruct op; first [reflexivity | congruence]. Qed.

Lemma concat_start_cont pc t : concat_start t = true -> tok_cont pc t <= 9 ->
  tok_cont true t = 9 /\ tok_cont false t = 9.
Proof.
  destruct t; cbn [concat_start]; try discriminate; intros _ Hle; cbn [tok_cont] in *; try (split; reflexivity); try lia.
  destruct sp; [split; reflexivity | lia].
Qed.

Lemma all_fit_imp (P Q : expr -> Prop) es : Forall (fun x => P x -> Q x) es -> all_fit P es -> all_fit Q es.
Proof. induction 1 as [|x r Hx _ IH]; cbn [all_fit]; [trivial | intros [H1 H2]; split; auto]. Qed.

Definition match_rhs (pc : bool) (r : expr) : Prop :=
  match r with EStrRegex _ => True | _ => fits pc 7 r /\ not_regex_start r end.

Lemma match_rhs_intro pc r : fits pc 7 r -> not_regex_start r -> match_rhs pc r.
Proof. intros H1 H2. destruct r; try exact (conj H1 H2). exact I. Qed.

Lemma match_rhs_inv pc r : match_rhs pc r -> (exists s, r = EStrRegex s) \/ fits pc 7 r /\ not_regex_start r.
Proof. destruct r; intros H; try (right; exact H). left. eexists. reflexivity. Qed.

Lemma not_regex_start_first (r r' : expr) :
  not_regex_start r -> (first_tok r' = first_tok r \/ first_tok r' = TLParen true) -> not_regex_start r'.
Proof. unfold not_regex_start. intros H [-> | ->]; [exact H | exact I]. Qed.

(* the binary row of [fits]: what it asks of the operands is preserved by any change of operands
   (and of tower) that preserves the five facts below *)
Lemma fits_binary_map pc pc' k op l r l' r' :
  (pc' = true -> pc = true) ->
  (forall j, fits pc j l -> fits pc' j l') ->
  (forall j, fits pc j r -> fits pc' j r') ->
  (forall t, (pc = true -> same_cont t) -> ok pc l t = true -> ok pc' l' t = true) ->
  first_tok r' = first_tok r \/ first_tok r' = TLParen true ->
  (forall s, r = EStrRegex s -> r' = r) ->
  fits pc k (EBinary op l r) -> fits pc' k (EBinary op l' r').
Proof.
  intros Hpc Hl Hr Hok Hfirst Hre.
  assert (Hdec : {op = BConcat} + {op <> BConcat}) by decide equality.
  destruct Hdec as [-> | Hc].
  - (* concatenation: the token after l is the first token of r, with continuation number 9 in both towers;
       so is the parenthesis that may come to stand there *)
    cbn [fits]. intros (H1 & H2 & H3 & H4 & H5 & H6).
    destruct (concat_start_cont pc _ H4 H5) as [Ct Cf].
    repeat split; [exact H1 | apply Hl, H2 | apply Hr, H3 | | |]; destruct Hfirst as [-> | ->].
    + exact H4.
    + reflexivity.
    + destruct pc'; lia.
    + destruct pc'; cbn; lia.
    + apply Hok; [intros _; unfold same_cont; congruence | exact H6].
    + apply Hok; [reflexivity|]. unfold ok in *. rewrite Ct, Cf in H6. exact H6.
  - rewrite !(fits_binop _ _ _ _ _ Hc). intros (H1 & Hgt & H2 & H3 & H4).
    refine (conj H1 (conj (fun E => Hgt (Hpc E)) (conj (Hl _ H2) (conj _ _)))).
    + apply Hok; [intros E; apply binop_same_cont, Hgt, E | exact H3].
    + destruct (is_match op); [|apply Hr, H4].
      apply match_rhs_inv in H4 as [[s ->] | [H4 H5]];
        [rewrite (Hre s eq_refl); exact I
        | apply match_rhs_intro; [apply Hr, H4 | exact (not_regex_start_first r r' H5 Hfirst)]].
Qed.

Lemma fits_pc_false : forall e k, fits true k e -> fits false k e.
Proof.
  induction e using expr_ind'; intros k Hf; try exact Hf.
  2: (* binary: > is impossible in the print tower, hence no condition in the other *)
     revert Hf; apply fits_binary_map;
       [discriminate | intros j; apply IHe1 | intros j; apply IHe2
       | intros t Ht; rewrite <- ok_pc_irrel by (apply Ht; reflexivity); trivial | left; reflexivity | reflexivity].
  1: (* in *) destruct idx as [|x [|y r]]; try exact Hf; pose proof (Forall_inv H) as Hx.
  (* the tokens after the first operand continue alike in both towers *)
  all: cbn [fits] in *; rewrite <- ?ok_pc_irrel by reflexivity; intuition auto.
Qed.

Lemma fits_weaken pc k e : fits pc k e -> fits false 0 e.
Proof.
  intros H. destruct pc; [apply fits_pc_false in H|]; (eapply fits_mono; [exact H | lia]).
Qed.

Lemma okn_gpar parent c pc ct cf :
  (okn pc c ct cf = true -> okn pc (gp c) ct cf = true) ->
  okn pc c ct cf = true -> okn pc (gpar parent c (gp c)) ct cf = true.
Proof. intros IH H. unfold gpar. destruct (needs_paren c parent); [reflexivity | auto]. Qed.

Lemma andb_imp (a b b' : bool) : (b = true -> b' = true) -> a && b = true -> a && b' = true.
Proof. destruct a, b, b'; cbn; auto. Qed.

Lemma okn_gp : forall e pc ct cf, okn pc e ct cf = true -> okn pc (gp e) ct cf = true.
Proof.
  induction e using expr_ind'; intros pc ct cf Ho; try exact Ho; try reflexivity.
  10: (* getline: the operand after < decides; else the target, which is printed as it is *)
      destruct f as [y|]; [|destruct t as [x|]; [|exact Ho]]; cbn [gp okn optP] in *;
      [|revert Ho; apply andb_imp, H0].
  9: (* incr *) destruct pre; [|reflexivity].
  5: (* binary *) cbn [gp]; rewrite okn_binop in *.
  3: (* in *) destruct idx as [|x [|y r]]; reflexivity.
  (* the operand that ends the writing, by hypothesis; it may have been parenthesised *)
  all: cbn [gp okn] in *; revert Ho; try apply andb_imp; apply okn_gpar; auto.
Qed.

Lemma ok_gp pc e t : ok pc e t = true -> ok pc (gp e) t = true.
Proof. apply okn_gp. Qed.

Lemma ok_gpar parent pc c t : ok pc c t = true -> ok pc (gpar parent c (gp c)) t = true.
Proof. unfold ok. apply okn_gpar. apply okn_gp. Qed.

(* facts that come from the numbers in Gen/Prec.v *)
Lemma is_lvalue_gp e : is_lvalue (gp e) = is_lvalue e.
Proof. destruct e; try reflexivity. destruct idx as [|x [|y r]]; reflexivity. Qed.

(* an lvalue operand of = , op= , ++ , -- is never parenthesised: it binds at least as tightly as $ *)
Lemma lvalue_no_paren x parent : is_lvalue x = true -> (gprec parent <= 14)%Z -> needs_paren x parent = false.
Proof.
  intros Hx Hp. unfold needs_paren, paren_cmp. apply Z.ltb_ge.
  destruct x; try discriminate Hx; apply (Z.le_trans _ _ _ Hp); vm_compute; discriminate.
Qed.

Lemma strregex_no_paren s op l r : needs_paren (EStrRegex s) (EBinary op l r) = false.
Proof. destruct op; vm_compute; reflexivity. Qed.

Lemma gpar_no_paren parent x : needs_paren x parent = false -> gpar parent x (gp x) = gp x.
Proof. unfold gpar. intros ->. reflexivity. Qed.

Lemma app_nonnil {A} (a b : list A) : a <> [] \/ b <> [] -> a ++ b <> [].
Proof. intros H E. apply app_eq_nil in E as [Ea Eb]. destruct H; auto. Qed.

Lemma flat_nonnil e : flat e <> [].
Proof.
  induction e; cbn [flat]; try discriminate; try (apply app_nonnil; right; discriminate).
  - destruct idx as [|x [|y r]]; try discriminate. apply app_nonnil. right. discriminate.
  - apply app_nonnil. left. exact IHe1.
  - destruct pre; [discriminate | apply app_nonnil; right; discriminate].
Qed.

Lemma hd_flat_app e m : hd_tok (flat e ++ m) = first_tok e.
Proof. unfold first_tok. pose proof (flat_nonnil e) as H. destruct (flat e); [congruence | reflexivity]. Qed.

Definition keeps_first (e : expr) : Prop := first_tok (gp e) = first_tok e \/ first_tok (gp e) = TLParen true.

Lemma first_gpar parent c :
  keeps_first c ->
  first_tok (gpar parent c (gp c)) = first_tok c \/ first_tok (gpar parent c (gp c)) = TLParen true.
Proof. intros H. unfold gpar. destruct (needs_paren c parent); [right; reflexivity | exact H]. Qed.

Lemma first_left parent c m m' :
  keeps_first c ->
  hd_tok (flat (gpar parent c (gp c)) ++ m') = hd_tok (flat c ++ m)
  \/ hd_tok (flat (gpar parent c (gp c)) ++ m') = TLParen true.
Proof. intros H. rewrite !hd_flat_app. apply first_gpar, H. Qed.

Lemma keeps_first_all : forall e, keeps_first e.
Proof.
  induction e using expr_ind'; unfold keeps_first, first_tok; try (left; reflexivity).
  2-5: (* binary, ?:, =, op= begin with their left operand *) cbn [gp flat]; apply first_left, IHe1.
  - (* in *) destruct idx as [|x [|y r]]; try (left; reflexivity).
    inversion H as [|? ? Hx _]. cbn [gp flat]. apply first_left, Hx.
  - destruct pre; [left; reflexivity|]. cbn [gp flat]. apply first_left, IHe.
  - destruct c as [x|]; [|left; reflexivity]. cbn [gp flat]. rewrite <- !app_assoc. apply first_left, H.
Qed.

Lemma fits_gpar parent pc j c : fits pc j (gp c) -> fits pc j (gpar parent c (gp c)).
Proof.
  intros H. unfold gpar. destruct (needs_paren c parent); [|exact H].
  cbn [fits]. eapply fits_weaken. exact H.
Qed.

Lemma all_fit_map (P : expr -> Prop) (g : expr -> expr) es : all_fit P (map g es) = all_fit (fun x => P (g x)) es.
Proof. induction es as [|x r IH]; cbn [all_fit map]; [reflexivity | rewrite IH; reflexivity]. Qed.

Lemma all_fit_map_gp pc k es :
  Forall (fun e => forall pc k, fits pc k e -> fits pc k (gp e)) es ->
  all_fit (fits pc k) es -> all_fit (fits pc k) (map gp es).
Proof.
  intros H. rewrite all_fit_map. apply all_fit_imp. revert H. apply Forall_impl. intros e He. apply He.
Qed.

Theorem fits_gp : forall e pc k, fits pc k e -> fits pc k (gp e).
Proof.
  induction e using expr_ind'; intros pc k Hf; try exact Hf; try (cbn [fits] in Hf; contradiction).
  9: { (* incr: its operand is an lvalue *)
    assert (Hlv : is_lvalue e = true) by (cbn [fits] in Hf; destruct pre, e; try contradiction; reflexivity).
    cbn [gp]. rewrite (gpar_no_paren _ e) by (apply lvalue_no_paren; [exact Hlv | destruct pre; vm_compute; discriminate]).
    destruct e; try discriminate Hlv; destruct pre; cbn [fits gp] in *;
      intuition auto using ok_gpar. }
  7-8: (* an lvalue on the left is not parenthesised *)
    cbn [fits] in Hf; cbn [gp];
    rewrite (gpar_no_paren _ e1) by (apply lvalue_no_paren; [apply Hf | vm_compute; discriminate]);
    cbn [fits]; rewrite is_lvalue_gp.
  5: { (* binary *)
    revert Hf. cbn [gp]. apply fits_binary_map.
    + trivial.
    + intros j Hj. apply fits_gpar, IHe1, Hj.
    + intros j Hj. apply fits_gpar, IHe2, Hj.
    + intros t _. apply ok_gpar.
    + apply first_gpar, keeps_first_all.
    + intros s ->. apply gpar_no_paren, strregex_no_paren. }
  3: (* in *) destruct idx as [|x [|y r]];
       [cbn [fits] in Hf; contradiction | pose proof (Forall_inv H) as Hx
       | cbn [gp map fits] in *; apply (all_fit_map_gp false 0 (x :: y :: r)); assumption].
  2: (* index *) cbn [gp fits] in *;
       (split; [destruct idx; [apply Hf | discriminate] | apply all_fit_map_gp; [assumption | apply Hf]]).
  (* the operands by hypothesis; parentheses around an operand do no harm *)
  all: cbn [gp fits] in *; intuition auto using fits_gpar, ok_gpar, ok_gp, all_fit_map_gp.
Qed.

Lemma all_fit_gp pc k es : all_fit (fits pc k) es -> all_fit (fits pc k) (map gp es).
Proof. apply all_fit_map_gp, Forall_forall. intros e _. apply fits_gp. Qed.

(* token level: what Expr.String() writes for a tree that respects the table is read back by the
   parser as exactly [gp e] = e with the printer's parentheses as grouping nodes *)
Theorem print_parse_tokens : forall e k pc rest,
  fits pc (rk k) e -> ok pc e (hd_tok rest) = true -> (pc = true -> k <> LGetline) ->
  tok_cont pc (hd_tok rest) <= rk k ->
  exists n0, forall n, n0 <= n ->
    p_lv n k pc None (toks (pe e) ++ rest) = POk (gp e, rest) /\ strip (gp e) = strip e.
Proof.
  intros e k pc rest Hf Ho Hpc Hc.
  destruct (parse_printed (gp e) k pc rest (fits_gp _ _ _ Hf) (ok_gp _ _ _ Ho) Hpc Hc) as [n0 H].
  exists n0. intros n Hn. split; [rewrite toks_pe; apply H; exact Hn | apply strip_gp].
Qed.
