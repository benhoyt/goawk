(* C18: the blocks partition the statements.
   In the annotated tree a statement of a list is OWNED by the closest counter statement before
   it in that list.  Every statement has an owner, owners are the indices 1..n of the block
   table, and numStmts of block i = number of statements owned by counter i.  The statements
   (by start position, in order) are those of the original program. *)
From Coq Require Import Permutation.
From Verif Require Import Lib.Base Model.Cover Proofs.CoverBase Proofs.CoverStruct.

Section Own.
Context {E : Type}.

Section OwnLoop.
Variable g : cstmt E -> list (option Z * pos).
Fixpoint owned_list (cur : option Z) (l : list (cstmt E)) : list (option Z * pos) :=
  match l with
  | [] => []
  | SCover _ i :: t => owned_list (Some i) t
  | s :: t => (cur, start_of s) :: g s ++ owned_list cur t
  end.
End OwnLoop.
Fixpoint owned_in (s : cstmt E) : list (option Z * pos) :=
  match s with
  | SIf _ _ _ _ body els => owned_list owned_in None body ++ owned_list owned_in None els
  | SFor _ _ _ _ _ _ body | SForIn _ _ _ _ body | SWhile _ _ _ _ body
  | SDoWhile _ _ _ body | SBlock _ _ body => owned_list owned_in None body
  | _ => []
  end.
Definition owned (l : list (cstmt E)) : list (option Z * pos) := owned_list owned_in None l.
Definition owned_body (b : option (list (cstmt E))) : list (option Z * pos) :=
  match b with None => [] | Some l => owned l end.
Definition owned_prog (p : program E) : list (option Z * pos) :=
  concat (map owned (p_begin p)) ++ concat (map (fun a => owned_body (a_body a)) (p_actions p))
  ++ concat (map owned (p_end p)) ++ concat (map owned (p_funcs p)).

(* number of statements owned by counter j *)
Fixpoint cnt (j : Z) (O : list (option Z * pos)) : Z :=
  match O with
  | [] => 0
  | (Some k, _) :: t => (if k =? j then 1 else 0) + cnt j t
  | (None, _) :: t => cnt j t
  end.

Lemma cnt_app j a b : cnt j (a ++ b) = cnt j a + cnt j b.
Proof. induction a as [|[[k|] p] a IH]; cbn [app cnt]; lia. Qed.

Lemma cnt_perm j a b : Permutation a b -> cnt j a = cnt j b.
Proof.
  induction 1 as [|[[k|] p] a b _ IH|[[k1|] p1] [[k2|] p2] a|a b c _ IH1 _ IH2]; cbn [cnt]; lia.
Qed.

Lemma cnt_top j c (l : list (cstmt E)) :
  cnt j (map (fun s => (Some c, start_of s)) l) = if c =? j then zlen l else 0.
Proof.
  induction l as [|s t IH]; cbn [map cnt]; [destruct (c =? j); reflexivity|].
  rewrite IH, zlen_cons. destruct (c =? j); lia.
Qed.

Lemma cnt_zero j O : (forall k p, In (Some k, p) O -> k <> j) -> cnt j O = 0.
Proof.
  induction O as [|[[k|] p] O IH]; cbn [cnt]; intros H; [reflexivity| |].
  - rewrite IH by (intros k' p' Hin; apply (H k' p'); right; exact Hin).
    destruct (k =? j) eqn:Hk; [|reflexivity]. apply Z.eqb_eq in Hk. exfalso. apply (H k p); [left; reflexivity|exact Hk].
  - apply IH. intros k' p' Hin. apply (H k' p'). right. exact Hin.
Qed.

Lemma owned_list_plain_cons g c (s : cstmt E) t : plain s ->
  owned_list g c (s :: t) = (c, start_of s) :: g s ++ owned_list g c t.
Proof. destruct s; cbn; intros H; try reflexivity; discriminate H. Qed.

Lemma owned_list_app_plain g c (l1 l2 : list (cstmt E)) : Forall plain l1 ->
  owned_list g c (l1 ++ l2) = owned_list g c l1 ++ owned_list g c l2.
Proof.
  induction 1 as [|s t Hs _ IH]; [reflexivity|].
  cbn [app]. rewrite !owned_list_plain_cons by exact Hs. rewrite IH. cbn [app]. rewrite <- app_assoc. reflexivity.
Qed.

Lemma owned_list_plain_perm g c (l : list (cstmt E)) : Forall plain l ->
  Permutation (owned_list g c l) (map (fun s => (c, start_of s)) l ++ concat (map g l)).
Proof.
  induction 1 as [|s t Hs _ IH]; [constructor|].
  rewrite owned_list_plain_cons by exact Hs. cbn [map concat app]. constructor.
  eapply Permutation_trans; [apply Permutation_app_head; exact IH|].
  rewrite !app_assoc. apply Permutation_app_tail. apply Permutation_app_comm.
Qed.

(* the segment of the block table whose numStmts are accounted for by the owners [O] *)
Record OwnOK (bl bl' : list block) (O : list (option Z * pos)) : Prop := mkOwn {
  own_ext : exists new, bl' = bl ++ new;
  own_some : forall o p, In (o, p) O -> exists j, o = Some j /\ zlen bl < j <= zlen bl';
  own_num : forall j b, zlen bl < j -> nth_error bl' (Z.to_nat (j - 1)) = Some b -> b_num b = cnt j O }.

Lemma OwnOK_nil bl : OwnOK bl bl [].
Proof.
  constructor.
  - exists []. rewrite app_nil_r. reflexivity.
  - intros o p [].
  - intros j b Hj Hb. pose proof (zlen_nonneg bl). apply nth_error_z_le in Hb; lia.
Qed.

Lemma OwnOK_perm bl bl' O O' : Permutation O O' -> OwnOK bl bl' O -> OwnOK bl bl' O'.
Proof.
  intros HP [X S N]. constructor; [exact X| |].
  - intros o p Hin. apply (S o p). eapply Permutation_in; [apply Permutation_sym; exact HP|exact Hin].
  - intros j b Hj Hb. rewrite (N j b Hj Hb). apply cnt_perm. exact HP.
Qed.

Lemma OwnOK_app bl bl1 bl2 O1 O2 : OwnOK bl bl1 O1 -> OwnOK bl1 bl2 O2 -> OwnOK bl bl2 (O1 ++ O2).
Proof.
  intros [[n1 E1] S1 N1] [[n2 E2] S2 N2].
  pose proof (zlen_app_le bl n1) as Hz1. pose proof (zlen_app_le bl1 n2) as Hz2. rewrite <- E1 in Hz1. rewrite <- E2 in Hz2.
  constructor.
  - exists (n1 ++ n2). subst. rewrite app_assoc. reflexivity.
  - intros o p Hin. apply in_app_or in Hin as [Hin|Hin].
    + destruct (S1 o p Hin) as (j & Ho & Hj). exists j. split; [exact Ho|lia].
    + destruct (S2 o p Hin) as (j & Ho & Hj). exists j. split; [exact Ho|lia].
  - intros j b Hj Hb. rewrite cnt_app. destruct (Z_le_gt_dec j (zlen bl1)) as [Hle|Hgt].
    + rewrite (cnt_zero j O2).
      * rewrite Z.add_0_r. apply N1; [exact Hj|]. rewrite E2 in Hb.
        rewrite nth_error_app1 in Hb; [exact Hb|].
        pose proof (zlen_nonneg bl). unfold zlen in *. lia.
      * intros k p Hin Hk. destruct (S2 _ _ Hin) as (j' & Ho & Hj'). inversion Ho; subst. lia.
    + rewrite (cnt_zero j O1).
      * apply N2; [lia|exact Hb].
      * intros k p Hin Hk. destruct (S1 _ _ Hin) as (j' & Ho & Hj'). inversion Ho; subst. lia.
Qed.

(* one chunk: counter idx = zlen bl + 1 owns the top-level statements of [l] *)
Lemma OwnOK_chunk bl b (l : list (cstmt E)) : b_num b = zlen l ->
  OwnOK bl (bl ++ [b]) (map (fun s => (Some (zlen bl + 1), start_of s)) l).
Proof.
  intros Hn. constructor.
  - exists [b]. reflexivity.
  - intros o p Hin. apply in_map_iff in Hin as (s & Hs & _). inversion Hs; subst.
    exists (zlen bl + 1). split; [reflexivity|]. rewrite zlen_app, zlen_cons, zlen_nil. lia.
  - intros j b' Hj Hb'.
    pose proof (zlen_nonneg bl). assert (Hle : j <= zlen (bl ++ [b])) by (apply nth_error_z_le in Hb'; lia).
    rewrite zlen_app, zlen_cons, zlen_nil in Hle. assert (j = zlen bl + 1) by lia. subst j.
    rewrite nth_error_snoc_z in Hb'. inversion Hb'; subst b'.
    rewrite cnt_top, Z.eqb_refl. exact Hn.
Qed.

Definition nested_owned (l : list (cstmt E)) : list (option Z * pos) := concat (map owned_in l).

Lemma nested_owned_snoc l (s : cstmt E) : nested_owned (l ++ [s]) = nested_owned l ++ owned_in s.
Proof. unfold nested_owned. rewrite map_app, concat_app. cbn [map concat]. rewrite app_nil_r. reflexivity. Qed.

(* closing a chunk: the counter in front of [l] gets the next index, its block counts [l] *)
Lemma OwnOK_close bl0 bl b (l : list (cstmt E)) : Forall plain l -> b_num b = zlen l ->
  OwnOK bl0 bl (nested_owned l) ->
  OwnOK bl0 (bl ++ [b]) (owned_list owned_in (Some (zlen bl + 1)) l).
Proof.
  intros HP Hn HO.
  eapply OwnOK_perm; [apply Permutation_sym, owned_list_plain_perm; exact HP|].
  eapply OwnOK_perm; [apply Permutation_app_comm|].
  eapply OwnOK_app; [exact HO|apply OwnOK_chunk; exact Hn].
Qed.

Lemma owned_in_bodies (s : cstmt E) : owned_in s = concat (map owned (bodies s)).
Proof. destruct s; cbn [owned_in bodies map concat]; rewrite ?app_nil_r; reflexivity. Qed.

Variable files : ftable.
Variable mode : cmode.
Notation ann_stmts := (@ann_stmts E files mode).

Definition own_step : step_rel := fun s bl s' bl' => plain s' /\ OwnOK bl bl' (owned_in s').
Definition own_stmt : cstmt E -> Prop := stmt_sat files mode own_step.

(* the output of the loop is empty or starts with a counter statement, so the owner in force
   before it does not matter *)
Lemma AL_own ss bl pend out bl' : AL files mode own_step ss bl pend out bl' ->
  forall bl0, Forall plain pend -> OwnOK bl0 bl (nested_owned pend) ->
  (forall c, owned_list owned_in c out = owned_list owned_in None out)
  /\ OwnOK bl0 bl' (owned_list owned_in None out).
Proof.
  induction 1 as [bl | bl p ps b Hb | s t bl pend s' bl1 out bl' Hf HAL IH
                 | s t bl pend s' bl1 b out bl' Hf Hb HAL IH]; intros bl0 HP HO.
  - split; [reflexivity|exact HO].
  - split; [reflexivity|]. destruct Hb as (Hn & _).
    exact (OwnOK_close bl0 bl b (p :: ps) HP Hn HO).
  - destruct Hf as [Hpl Hown].
    apply (IH bl0); [apply Forall_snoc; assumption|].
    rewrite nested_owned_snoc. eapply OwnOK_app; [exact HO|exact Hown].
  - destruct Hf as [Hpl Hown].
    assert (HP' : Forall plain (pend ++ [s'])) by (apply Forall_snoc; assumption).
    destruct (IH (bl1 ++ [b]) (Forall_nil _) (OwnOK_nil _)) as [Hh Ho2].
    split; [reflexivity|]. destruct Hb as (Hn & _).
    change (owned_list owned_in None (SCover mode (zlen bl1 + 1) :: (pend ++ [s']) ++ out))
      with (owned_list owned_in (Some (zlen bl1 + 1)) ((pend ++ [s']) ++ out)).
    rewrite owned_list_app_plain by exact HP'. rewrite Hh.
    eapply OwnOK_app; [|exact Ho2]. apply OwnOK_close; [exact HP'|exact Hn|].
    rewrite nested_owned_snoc. eapply OwnOK_app; [exact HO|exact Hown].
Qed.

Lemma ann_stmts_own body bl : Forall own_stmt body ->
  OwnOK bl (snd (ann_stmts body bl)) (owned (fst (ann_stmts body bl))).
Proof.
  intros HF. unfold Cover.ann_stmts.
  exact (proj2 (AL_own _ _ _ _ _ (ann_loop_AL files mode _ body HF bl []) bl (Forall_nil _) (OwnOK_nil bl))).
Qed.

Lemma own_all (s : cstmt E) : nocov s = true -> own_stmt s.
Proof.
  revert s. apply nocov_ind. intros s Hc IH. apply stmt_sat_intro. intros bl.
  pose proof (ann_lists_length files mode (bodies s) bl) as Hlen.
  split; [unfold plain; rewrite (proj2 (proj2 (with_bodies_outer s _))); exact Hc|].
  rewrite owned_in_bodies, (bodies_with_bodies _ _ Hlen).
  exact (thread_lists files mode OwnOK owned _ OwnOK_nil OwnOK_app ann_stmts_own _ IH bl).
Qed.

(* owners and tags decorate the same statements *)
Lemma owned_tagged_list (l : list (cstmt E)) :
  Forall (fun s => map snd (owned_in s) = map snd (tagged_in s)) l ->
  forall c prev, map snd (owned_list owned_in c l) = map snd (tagged_list tagged_in prev l).
Proof.
  induction 1 as [|s t Hs _ IH]; intros c prev; [reflexivity|].
  destruct s; cbn [owned_list tagged_list]; try (cbn [map snd]; rewrite !map_app, Hs, (IH c None); reflexivity).
  apply IH.
Qed.

Lemma owned_tagged (s : cstmt E) : map snd (owned_in s) = map snd (tagged_in s).
Proof.
  induction s as [s IH] using cstmt_bodies_ind. rewrite owned_in_bodies, tagged_in_bodies.
  induction IH as [|l ls Hl _ IHls]; [reflexivity|].
  cbn [map concat]. rewrite !map_app, IHls. f_equal. apply (owned_tagged_list l Hl None None).
Qed.

Lemma owned_tagged_stmts (l : list (cstmt E)) : map snd (owned l) = map snd (tagged l).
Proof. apply owned_tagged_list. apply Forall_forall. intros s _. apply owned_tagged. Qed.

Lemma owned_tagged_lists (ls : list (list (cstmt E))) :
  map snd (concat (map owned ls)) = map snd (concat (map tagged ls)).
Proof. induction ls as [|l t IH]; [reflexivity|]. cbn [map concat]. rewrite !map_app, IH, owned_tagged_stmts. reflexivity. Qed.

Lemma owned_tagged_prog (p : program E) : map snd (owned_prog p) = map snd (tagged_prog p).
Proof.
  unfold owned_prog, tagged_prog. rewrite !map_app, !owned_tagged_lists. f_equal. f_equal.
  induction (p_actions p) as [|a t IH]; [reflexivity|]. cbn [map concat]. rewrite !map_app, IH.
  destruct (a_body a) as [l|]; [cbn [owned_body tagged_body]; rewrite owned_tagged_stmts|]; reflexivity.
Qed.

Theorem partition (P : program E) : nocov_prog P = true ->
  let A := fst (annotate files mode P) in
  let B := snd (annotate files mode P) in
  (* every statement is owned by a counter whose index is a block of the table *)
  (forall o p, In (o, p) (owned_prog A) -> exists j, o = Some j /\ 1 <= j <= zlen B)
  (* numStmts of block j = number of statements owned by counter j *)
  /\ (forall j b, 1 <= j -> nth_error B (Z.to_nat (j - 1)) = Some b -> b_num b = cnt j (owned_prog A))
  (* and these statements are the statements of P, in order *)
  /\ map snd (owned_prog A) = map snd (tagged_prog P).
Proof.
  intros Hall A B.
  pose proof (thread_prog files mode OwnOK owned _ OwnOK_nil OwnOK_app ann_stmts_own P
                (nocov_prog_all own_stmt own_all P Hall)) as HO.
  change (OwnOK [] B (owned_prog A)) in HO.
  destruct HO as [_ S N]. rewrite zlen_nil in S, N.
  split; [|split].
  - intros o p Hin. destruct (S o p Hin) as (j & Ho & Hj). exists j. split; [exact Ho|lia].
  - intros j b Hj Hb. apply N; [lia|exact Hb].
  - rewrite owned_tagged_prog. exact (ao_tags _ _ _ _ _ (annotate_ok files mode P Hall)).
Qed.

End Own.
