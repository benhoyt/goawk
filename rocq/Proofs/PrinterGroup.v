(* C20 — Go's parenthesize as a tree transformation: [gp e] = e with a grouping node inserted exactly
   where Expr.String() writes the parentheses of parenthesize(child, parent).  For ALL trees: the tokens
   of the printed pieces are C04's verbatim writing [flat] of [gp e], gp only adds grouping nodes, and
   printing [gp e] again gives the same pieces (hence the same text). *)
From Verif Require Import Lib.Base Gen.Prec Model.ExprAst Model.ExprParser Model.Printer
  Proofs.ExprParserMono Proofs.ExprParserRel Proofs.PrecSpec Proofs.ExprParserPrinted.

Definition gpar (parent c gc : expr) : expr := if needs_paren c parent then EGroup gc else gc.

Fixpoint gp (e : expr) : expr :=
  let par (c : expr) := gpar e c (gp c) in
  match e with
  | ENum _ | EStr _ | EStrRegex _ | ERegex _ | EVar _ => e
  | EField i => EField (par i)
  | ENamedField i => ENamedField (par i)
  | EIndex a idx => EIndex a (map gp idx)
  | EIn [x] a => EIn [par x] a
  | EIn idx a => EIn (map gp idx) a
  | EUnary op v => EUnary op (par v)
  | EBinary op l r => EBinary op (par l) (par r)
  | ECond c t f => ECond (par c) (par t) (par f)
  | EAssign l r => EAssign (par l) (par r)
  | EAugAssign op l r => EAugAssign op (par l) (par r)
  | EIncr op pre x => EIncr op pre (par x)
  | ECall f args => ECall f (map gp args)
  | EUserCall n args => EUserCall n (map gp args)
  | EMulti es => EMulti (map gp es)
  | EGetline c t f =>
      EGetline (match c with Some x => Some (par x) | None => None end)
               (match t with Some x => Some (gp x) | None => None end)
               (match f with Some x => Some (par x) | None => None end)
  | EGroup x => EGroup (gp x)
  end.

(* the model's token spellings are C04's *)
Lemma un_tok_eq op : un_tok op = unop_tok op. Proof. destruct op; reflexivity. Qed.
Lemma inc_tk_eq op : inc_tk op = inc_tok op. Proof. destruct op; reflexivity. Qed.
Lemma bin_tok_eq op : bin_tok op = binop_tok op. Proof. destruct op; reflexivity. Qed.
Lemma aug_tk_eq op : aug_tk op = aug_tok op. Proof. destruct op; reflexivity. Qed.

Lemma toks_app a b : toks (a ++ b) = toks a ++ toks b.
Proof. induction a as [|[t|] a IH]; cbn [toks app]; [reflexivity | rewrite IH; reflexivity | exact IH]. Qed.

Lemma toks_map_PT l : toks (map PT l) = l.
Proof. induction l as [|t l IH]; cbn [toks map]; [reflexivity | rewrite IH; reflexivity]. Qed.

Lemma gprec_gp e : gprec (gp e) = gprec e.
Proof.
  destruct e; try reflexivity.
  - destruct idx as [|x [|y r]]; reflexivity.
Qed.

(* nothing is below a grouping node: 16 is the largest precedence *)
Lemma gprec_le16 e : gprec e <= 16.
Proof.
  destruct e; cbn [gprec]; try (vm_compute; discriminate).
  - destruct op; vm_compute; discriminate.
  - destruct pre; vm_compute; discriminate.
Qed.

Lemma group_never_paren x e : needs_paren (EGroup x) e = false.
Proof.
  unfold needs_paren. cbn [gprec]. pose proof (gprec_le16 e) as H.
  unfold paren_cmp, prec_GroupingExpr, precGrouping. apply Z.ltb_ge. exact H.
Qed.

(* pe's local [paren] with the parent as an argument, and the equations of pe through it *)
Definition ppar (parent c : expr) : list piece :=
  if needs_paren c parent then lpar :: pe c ++ [rpar] else pe c.

Lemma pe_field i : pe (EField i) = PT TDollar :: ppar (EField i) i. Proof. reflexivity. Qed.
Lemma pe_namedfield i : pe (ENamedField i) = PT TAt :: ppar (ENamedField i) i. Proof. reflexivity. Qed.
Lemma pe_index a idx : pe (EIndex a idx) = PT (TName a) :: PT TLBracket :: pjoin pe idx ++ [PT TRBracket].
Proof. reflexivity. Qed.
Lemma pe_in1 x a : pe (EIn [x] a) = ppar (EIn [x] a) x ++ [PSp; PT TIn; PSp; PT (TName a)]. Proof. reflexivity. Qed.
Lemma pe_in x y r a :
  pe (EIn (x :: y :: r) a) = lpar :: pjoin pe (x :: y :: r) ++ [rpar; PSp; PT TIn; PSp; PT (TName a)].
Proof. reflexivity. Qed.
Lemma pe_unary op v :
  pe (EUnary op v) =
  PT (un_tok op) :: (if sign_clash op (ch1 (render (ppar (EUnary op v) v))) then [PSp] else []) ++ ppar (EUnary op v) v.
Proof. reflexivity. Qed.
Lemma pe_binary op l r :
  pe (EBinary op l r) =
  ppar (EBinary op l r) l ++ (match op with BConcat => [PSp] | _ => PSp :: map PT (bin_tok op) ++ [PSp] end)
  ++ ppar (EBinary op l r) r.
Proof. reflexivity. Qed.
Lemma pe_cond c t f :
  pe (ECond c t f) = ppar (ECond c t f) c ++ [PSp; PT TQuestion; PSp] ++ ppar (ECond c t f) t
                     ++ [PSp; PT TColon; PSp] ++ ppar (ECond c t f) f.
Proof. reflexivity. Qed.
Lemma pe_assign l r : pe (EAssign l r) = ppar (EAssign l r) l ++ [PSp; PT TAssign; PSp] ++ ppar (EAssign l r) r.
Proof. reflexivity. Qed.
Lemma pe_augassign op l r :
  pe (EAugAssign op l r) = ppar (EAugAssign op l r) l ++ [PSp; PT (aug_tk op); PSp] ++ ppar (EAugAssign op l r) r.
Proof. reflexivity. Qed.
Lemma pe_incr_pre op x : pe (EIncr op true x) = PT (inc_tk op) :: ppar (EIncr op true x) x. Proof. reflexivity. Qed.
Lemma pe_incr_post op x : pe (EIncr op false x) = ppar (EIncr op false x) x ++ [PT (inc_tk op)]. Proof. reflexivity. Qed.
Lemma pe_call f args : pe (ECall f args) = PT (TFunc f) :: PT (TLParen false) :: pjoin pe args ++ [rpar].
Proof. reflexivity. Qed.
Lemma pe_usercall n args : pe (EUserCall n args) = PT (TName n) :: PT (TLParen false) :: pjoin pe args ++ [rpar].
Proof. reflexivity. Qed.
Lemma pe_multi es : pe (EMulti es) = lpar :: pjoin pe es ++ [rpar]. Proof. reflexivity. Qed.
Lemma pe_getline c t f :
  pe (EGetline c t f) =
  (match c with Some x => ppar (EGetline c t f) x ++ [PSp; PT TPipe] | None => [] end)
  ++ PT TGetline
  :: (match t with Some x => PSp :: pe x | None => [] end)
  ++ (match f with Some y => PSp :: PT TLess :: ppar (EGetline c t f) y | None => [] end).
Proof. reflexivity. Qed.
Lemma pe_group x : pe (EGroup x) = lpar :: pe x ++ [rpar]. Proof. reflexivity. Qed.

#[local] Hint Rewrite pe_field pe_namedfield pe_index pe_in1 pe_in pe_unary pe_binary pe_cond pe_assign pe_augassign
  pe_incr_pre pe_incr_post pe_call pe_usercall pe_multi pe_getline pe_group : pe_eq.

Lemma toks_opt_space (b : bool) : toks (if b then [PSp] else []) = []. Proof. destruct b; reflexivity. Qed.
Lemma toks_binop op : toks (match op with BConcat => [PSp] | _ => PSp :: map PT (bin_tok op) ++ [PSp] end) = binop_tok op.
Proof. destruct op; reflexivity. Qed.

Lemma pjoin_cons f x y r : pjoin f (x :: y :: r) = f x ++ PT TComma :: PSp :: pjoin f (y :: r).
Proof. reflexivity. Qed.

Lemma toks_pjoin es :
  Forall (fun x => toks (pe x) = flat (gp x)) es -> toks (pjoin pe es) = commas flat (map gp es).
Proof.
  induction es as [|x r IH]; intros HF; [reflexivity|].
  inversion HF as [|? ? Hx Hr]; subst.
  destruct r as [|y r']; [exact Hx|].
  rewrite pjoin_cons, toks_app. cbn [toks]. rewrite Hx, (IH Hr). reflexivity.
Qed.

Lemma toks_ppar parent c : toks (pe c) = flat (gp c) -> toks (ppar parent c) = flat (gpar parent c (gp c)).
Proof.
  intros H. unfold ppar, gpar. destruct (needs_paren c parent); [|exact H].
  cbn [flat]. unfold lpar, rpar. cbn [toks]. rewrite toks_app, H. reflexivity.
Qed.

Theorem toks_pe : forall e, toks (pe e) = flat (gp e).
Proof.
  induction e using expr_ind'; try reflexivity.
  (* the equation of the node; toks of its pieces (they nest two deep at most); the operands by hypothesis *)
  14: (* getline *) destruct c as [x|], t as [y|], f as [z|]; cbn [optP] in H, H0, H1; rewrite pe_getline;
      rewrite ?toks_app; cbn [toks]; rewrite ?toks_app; cbn [toks]; rewrite ?toks_ppar, ?H0 by assumption; reflexivity.
  10: (* incr *) destruct pre.
  4: (* in *) destruct idx as [|x [|y r]]; [reflexivity | pose proof (Forall_inv H) as Hx |].
  all: (rewrite_strat (topdown (hints pe_eq))); unfold lpar, rpar;
       rewrite ?toks_app; cbn [toks]; rewrite ?toks_app; cbn [toks];
       rewrite ?toks_opt_space, ?toks_binop, ?un_tok_eq, ?inc_tk_eq, ?aug_tk_eq;
       rewrite ?toks_ppar, ?toks_pjoin, ?IHe by assumption; reflexivity.
Qed.

Lemma toks_pjoin_pe es : toks (pjoin pe es) = commas flat (map gp es).
Proof. apply toks_pjoin, Forall_forall. intros x _. apply toks_pe. Qed.

Lemma strip_gpar parent c gc : strip (gpar parent c gc) = strip gc.
Proof. unfold gpar. destruct (needs_paren c parent); reflexivity. Qed.

Lemma map_strip_gp es : Forall (fun x => strip (gp x) = strip x) es -> map strip (map gp es) = map strip es.
Proof. induction 1 as [|x r Hx _ IH]; cbn [map]; [reflexivity | rewrite Hx, IH; reflexivity]. Qed.

Theorem strip_gp : forall e, strip (gp e) = strip e.
Proof.
  induction e using expr_ind'; try reflexivity; cbn [gp strip]; rewrite ?strip_gpar;
    try (rewrite ?IHe, ?IHe1, ?IHe2, ?IHe3; reflexivity);
    try (rewrite (map_strip_gp _ H); reflexivity).
  - destruct idx as [|x [|y r]].
    + reflexivity.
    + inversion H as [|? ? Hx _]; subst. cbn [strip map]. rewrite strip_gpar, Hx. reflexivity.
    + cbn [strip]. rewrite (map_strip_gp _ H). reflexivity.
  - destruct c as [x|], t as [y|], f as [z|]; cbn in H, H0, H1; cbn [option_map]; rewrite ?strip_gpar;
      rewrite ?H, ?H0, ?H1; reflexivity.
Qed.

Lemma ppar_gpar parent parent' c :
  pe (gp c) = pe c -> gprec parent' = gprec parent ->
  ppar parent' (gpar parent c (gp c)) = ppar parent c.
Proof.
  intros H Hp. unfold gpar, ppar at 2. destruct (needs_paren c parent) eqn:E.
  - unfold ppar. rewrite group_never_paren. rewrite pe_group, H. reflexivity.
  - unfold ppar. unfold needs_paren in *. rewrite gprec_gp, Hp, E. exact H.
Qed.

Lemma pjoin_gp es : Forall (fun x => pe (gp x) = pe x) es -> pjoin pe (map gp es) = pjoin pe es.
Proof.
  induction 1 as [|x r Hx Hr IH]; [reflexivity|].
  destruct r as [|y r']; [exact Hx|].
  cbn [map] in *. rewrite (pjoin_cons pe x), (pjoin_cons pe (gp x)), Hx, IH. reflexivity.
Qed.

(* String() is idempotent on what the parser returns *)
Theorem pe_gp : forall e, pe (gp e) = pe e.
Proof.
  induction e using expr_ind'; try reflexivity.
  14: (* getline *) destruct c as [x|], t as [y|], f as [z|]; cbn [optP] in H, H0, H1; cbn [gp]; rewrite !pe_getline;
      rewrite ?ppar_gpar, ?H0 by first [assumption | reflexivity]; reflexivity.
  10: (* incr *) destruct pre.
  4: (* in *) destruct idx as [|x [|y r]];
       [reflexivity | pose proof (Forall_inv H) as Hx
       | cbn [gp map]; rewrite !pe_in; change (gp x :: gp y :: map gp r) with (map gp (x :: y :: r));
         rewrite (pjoin_gp _ H); reflexivity].
  all: cbn [gp]; (rewrite_strat (topdown (hints pe_eq)));
       rewrite ?ppar_gpar, ?pjoin_gp, ?IHe by first [assumption | reflexivity]; reflexivity.
Qed.

Corollary gp_idem_text e : render (pe (gp e)) = render (pe e).
Proof. rewrite pe_gp. reflexivity. Qed.
