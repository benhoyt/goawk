(* C01: simulation, expressions and the other expression-level components (expression lists,
   arguments, subscripts, assignment targets, conditions, concatenation chains).  Straight-line
   code is handled in fragment form ([fragc]): a chain of bind_* (a sub-expression), frag_instr /
   frag_does (one instruction) and postc_nil. *)
From Verif Require Import Lib.Base Lib.Dyadic Model.Ast Model.Instr Model.Compiler Model.Prims Model.VM Model.AstSem
  Proofs.CodeAt Proofs.VMLemmas Proofs.Reach Proofs.PrimsOk Proofs.CompLemmas Proofs.SimDefs Proofs.AstSemEq.

(* generic list facts *)
Lemma Forall2_eq_iff {A} (l l' : list A) : Forall2 eq l l' <-> l = l'.
Proof.
  split; [induction 1; congruence|intros <-; induction l; constructor; auto].
Qed.

Lemma Forall2_zlen {A B} (R : A -> B -> Prop) l l' : Forall2 R l l' -> zlen l = zlen l'.
Proof. intros H. unfold zlen. f_equal. induction H; cbn [length]; congruence. Qed.


Lemma rev_repeat_eq {A} (x : A) k : rev (repeat x k) = repeat x k.
Proof. induction k as [|k IH]; cbn [repeat rev]; [reflexivity|]. rewrite IH. symmetry. apply repeat_cons. Qed.

Section SimExpr.
  Variables value St err : Type.
  Variable P : prims value St err.
  Variable FN : list func.
  Hypothesis OK : prims_ok P.
  Hypothesis CI : concat_indep P.      (* guard of F-C01-3, used only for chains of three or more operands *)

  Notation F := (F FN).
  Notation reaches := (reaches P F).
  Notation stops := (stops P F).
  Notation SimExpr := (SimExpr P FN).
  Notation SimExprs := (SimExprs P FN).
  Notation SimArgs := (SimArgs P FN).
  Notation SimIndex := (SimIndex P FN).
  Notation SimLref := (SimLref P FN).
  Notation SimCat := (SimCat P FN).
  Notation SimStmts := (SimStmts P FN).
  Notation Sim := (Sim P FN).

  Lemma r_simple C p i c stk m stk' m' pe se me :
    code_at C p (i :: c) -> is_control i = false -> exec_simple P i stk m = SOk stk' m' ->
    reaches C (p + isize i) stk' m' pe se me -> reaches C p stk m pe se me.
  Proof.
    intros H Hc He Hr. eapply reaches_trans; [eapply reaches_simple; eassumption|exact Hr].
  Qed.

  Lemma reaches_cast C p s m p' s' m' p'' :
    reaches C p s m p' s' m' -> p' = p'' -> reaches C p s m p'' s' m'.
  Proof. intros H <-. exact H. Qed.

  (* result of an evaluation as seen from the VM: the value lands on top of [base] at [pe] *)
  Definition post (C : code) (p : Z) (s : list value) (m : mstate value St) (pe : Z) (base : list value)
             (r : eres value St err value) : Prop :=
    match r with
    | ENormal v m' => reaches C p s m pe (v :: base) m'
    | EAbort x m' => stops C p s m (VAbort x m')
    | _ => True
    end.

  Lemma post_reaches C p s m p1 s1 m1 pe base r :
    reaches C p s m p1 s1 m1 -> post C p1 s1 m1 pe base r -> post C p s m pe base r.
  Proof.
    intros Hr Hp. destruct r as [v m'|x m'| |]; cbn [post] in *; try exact I.
    - eapply reaches_trans; eassumption.
    - eapply reaches_stops; [eassumption|eassumption|discriminate].
  Qed.

  Lemma reaches_jump C p off c s m : code_at C p (IJump off :: c) -> reaches C p s m (p + 2 + off) s m.
  Proof. intros H. apply reaches_step. erewrite step_at by exact H. reflexivity. Qed.

  Lemma post_jump C p off c s m pe base r :
    code_at C p (IJump off :: c) ->
    post C (p + 2 + off) s m pe base r -> post C p s m pe base r.
  Proof. intros H. apply post_reaches. exact (reaches_jump _ _ _ _ _ _ H). Qed.

  Lemma jump_bool C p c v (inv : bool) off stk m :
    code_at C p ((if inv then IJumpFalse off else IJumpTrue off) :: c) ->
    reaches C p (v :: stk) m (if xorb (p_to_bool P v) inv then p + 2 + off else p + 2) stk m.
  Proof.
    intros H. apply reaches_step. erewrite step_at by exact H.
    destruct inv; cbn [isize xorb]; destruct (p_to_bool P v); reflexivity.
  Qed.

  Lemma post_then C p s m p1 pe base r :
    post C p s m p1 base r ->
    (forall v m', reaches C p1 (v :: base) m' pe (v :: base) m') ->
    post C p s m pe base r.
  Proof.
    intros H Hk. destruct r as [v m'|x m'| |]; cbn [post] in *; try exact I.
    - eapply reaches_trans; [exact H|apply Hk].
    - exact H.
  Qed.

  (* what the expression and the statement simulation share: a predicate saying that the VM does
     what a tree-side result says ([post] here, [spost] for statements), closed under a preceding
     run and following the bind of its result type *)
  Record outcome : Type := {
    o_res : Type;
    o_post : code -> Z -> list value -> mstate value St -> Z -> list value -> o_res -> Prop;
    o_bind : forall A, eres value St err A -> (A -> mstate value St -> o_res) -> o_res;
    o_reaches : forall C p s m p1 s1 m1 pe base r,
      reaches C p s m p1 s1 m1 -> o_post C p1 s1 m1 pe base r -> o_post C p s m pe base r;
    o_bind_intro : forall A C p s m pe base (r : eres value St err A) K,
      match r with
      | ENormal a m1 => o_post C p s m pe base (K a m1)
      | EAbort x m1 => stops C p s m (VAbort x m1)
      | _ => True
      end -> o_post C p s m pe base (o_bind A r K)
  }.

  (* for a fragment c still to be run: it sits at p and the run ends at its end.  Stated this
     way, straight-line code needs no position arithmetic. *)
  Definition fragc (O : outcome) (C : code) (p : Z) (c : code) (s : list value) (m : mstate value St)
             (base : list value) (r : o_res O) : Prop :=
    code_at C p c -> o_post O C p s m (p + csize c) base r.

  Lemma frag_instr O C p i c s m s' m' base r :
    is_control i = false -> exec_simple P i s m = SOk s' m' ->
    fragc O C (p + isize i) c s' m' base r -> fragc O C p (i :: c) s m base r.
  Proof.
    intros Hi He Hk Hc. cbn [csize]. rewrite Z.add_assoc.
    eapply o_reaches; [eapply reaches_simple; eassumption|]. apply Hk. eapply code_at_tail. exact Hc.
  Qed.

  (* the fragment c computes r (with what Q says about its result), then the rest continues *)
  Lemma frag_bind O {A} (Q : A -> mstate value St -> Prop) (r : eres value St err A) c rest C p s m base K :
    (code_at C p c ->
     match r with ENormal a m1 => Q a m1 | EAbort x m1 => stops C p s m (VAbort x m1) | _ => True end) ->
    (forall a m1, Q a m1 -> code_at C (p + csize c) rest ->
                  o_post O C p s m (p + csize c + csize rest) base (K a m1)) ->
    fragc O C p (c ++ rest) s m base (o_bind O A r K).
  Proof.
    intros H HK Hc. apply code_at_app in Hc as [Ha Hb]. rewrite csize_app, Z.add_assoc.
    apply o_bind_intro. specialize (H Ha). destruct r as [a m1|x m1| |]; try exact I.
    - exact (HK a m1 H Hb).
    - exact H.
  Qed.

  Lemma bind_expr O n (SE : SimExpr n) e m C p s rest base K :
    (forall v m1, fragc O C (p + csize (comp_expr e)) rest (v :: s) m1 base (K v m1)) ->
    fragc O C p (comp_expr e ++ rest) s m base (o_bind O _ (eval P FN n e m) K).
  Proof.
    intros HK. eapply frag_bind; [exact (SE e m C p s)|].
    intros v m1 H Hb. eapply o_reaches; [exact H|exact (HK v m1 Hb)].
  Qed.

  Lemma bind_exprs O n (SEs : SimExprs n) es m C p s rest base K :
    (forall vs m1, zlen vs = exprs_len es -> fragc O C (p + csize (comp_exprs es)) rest (rev vs ++ s) m1 base (K vs m1)) ->
    fragc O C p (comp_exprs es ++ rest) s m base (o_bind O _ (eval_exprs P FN n es m) K).
  Proof.
    intros HK. eapply frag_bind; [exact (SEs es m C p s)|].
    intros vs m1 [H Hl] Hb. eapply o_reaches; [exact H|exact (HK vs m1 Hl Hb)].
  Qed.

  Lemma bind_args O n (SA : SimArgs n) a m C p s rest base K :
    (forall vs m1, zlen vs = args_scalars a -> fragc O C (p + csize (comp_args a)) rest (rev vs ++ s) m1 base (K vs m1)) ->
    fragc O C p (comp_args a ++ rest) s m base (o_bind O _ (eval_args P FN n a m) K).
  Proof.
    intros HK. eapply frag_bind; [exact (SA a m C p s)|].
    intros vs m1 [H Hl] Hb. eapply o_reaches; [exact H|exact (HK vs m1 Hl Hb)].
  Qed.

  Lemma bind_index O n (SI : SimIndex n) es m C p s rest base K :
    (forall key key' m1, keq P key key' -> fragc O C (p + csize (comp_index es)) rest (key' :: s) m1 base (K key m1)) ->
    fragc O C p (comp_index es ++ rest) s m base (o_bind O _ (eval_index P FN n es m) K).
  Proof.
    intros HK. eapply frag_bind; [exact (SI es m C p s)|].
    intros key m1 (key' & Hk & H) Hb. eapply o_reaches; [exact H|exact (HK key key' m1 Hk Hb)].
  Qed.

  Lemma bind_cat O n (SCat : SimCat n) e m C p s rest base K :
    (forall v0 vs m1, zlen (v0 :: vs) = cat_count e ->
       fragc O C (p + csize (comp_cat e)) rest (rev (v0 :: vs) ++ s) m1 base (K (fold_left (p_concat P (ms m1)) vs v0) m1)) ->
    fragc O C p (comp_cat e ++ rest) s m base (o_bind O _ (eval P FN n e m) K).
  Proof.
    intros HK. eapply frag_bind; [exact (SCat e m C p s)|].
    intros v m1 (v0 & vs & Hl & -> & H) Hb. eapply o_reaches; [exact H|exact (HK v0 vs m1 Hl Hb)].
  Qed.

  Lemma post_ebind {A} C p s m pe base (r : eres value St err A) K :
    match r with
    | ENormal a m1 => post C p s m pe base (K a m1)
    | EAbort x m1 => stops C p s m (VAbort x m1)
    | _ => True
    end -> post C p s m pe base (ebind r K).
  Proof. destruct r; exact (fun H => H). Qed.

  Definition eo : outcome :=
    {| o_post := post; o_bind := fun A => @ebind value St err A value;
       o_reaches := post_reaches; o_bind_intro := @post_ebind |}.

  Notation postc := (fragc eo).

  Lemma postc_nil C p v base m : postc C p [] (v :: base) m base (ENormal v m).
  Proof. intros _. cbn [csize]. rewrite Z.add_0_r. apply reaches_refl. Qed.

  Lemma postc_err C p i c s m e m' base :
    is_control i = false -> exec_simple P i s m = SErr e m' -> postc C p (i :: c) s m base (EAbort (XError e) m').
  Proof. intros Hi He Hc. eapply stops_simple_err; eassumption. Qed.

  (* leaving the fragment form, for code with jumps *)
  Lemma post_postc C p p' c s m pe base r :
    code_at C p c -> p' = p -> pe = p + csize c -> postc C p c s m base r -> post C p' s m pe base r.
  Proof. intros Hc -> -> H. exact (H Hc). Qed.

  (* lv evaluates to r in the tree and to r' in the VM: same shape, equivalent subscripts *)
  Inductive lref_rel : lval -> lref value -> lref value -> Prop :=
  | LRVar sc i : lref_rel (LVar sc i) (RVar sc i) (RVar sc i)
  | LRField e idx : lref_rel (LField e) (RField idx) (RField idx)
  | LRIndex sc i es k k' : keq P k k' -> lref_rel (LIndex sc i es) (RIndex sc i k) (RIndex sc i k').

  Lemma lref_rel_intro lv r r' : lv_ref lv r -> ref_eq P r r' -> lref_rel lv r r'.
  Proof.
    destruct lv, r; cbn [lv_ref]; try contradiction; destruct r'; cbn [ref_eq]; try contradiction.
    - intros [<- <-] [<- <-]. constructor.
    - intros _ <-. constructor.
    - intros [<- <-] (<- & <- & Hk). constructor. exact Hk.
  Qed.

  Lemma ref_stack_key lv r r' :
    lref_rel lv r r' -> match lv with LVar _ _ => true | _ => false end = false ->
    exists k, forall s, ref_stack r' s = k :: s.
  Proof. destruct 1; [discriminate|eexists; reflexivity|eexists; reflexivity]. Qed.

  Lemma bind_lref O n (SL : SimLref n) lv m C p s rest base K :
    (forall r r' m1, lref_rel lv r r' -> fragc O C (p + csize (lv_code lv)) rest (ref_stack r' s) m1 base (K r m1)) ->
    fragc O C p (lv_code lv ++ rest) s m base (o_bind O _ (eval_lref P FN n lv m) K).
  Proof.
    intros HK. eapply frag_bind; [exact (SL lv m C p s)|].
    intros r m1 (r' & Hlr & Hre & H) Hb. eapply o_reaches; [exact H|].
    exact (HK r r' m1 (lref_rel_intro _ _ _ Hlr Hre) Hb).
  Qed.

  (* i does to (s, m) what r says, leaving the stack [f a] *)
  Definition does {A} (i : instr) (s : list value) (m : mstate value St) (f : A -> list value)
             (r : eres value St err A) : Prop :=
    match r with
    | ENormal a m' => exec_simple P i s m = SOk (f a) m'
    | EAbort (XError e) m' => exec_simple P i s m = SErr e m'
    | EAbort _ _ => False
    | _ => True
    end.

  Lemma does_er {A} i s m f (x : St * er err A) :
    exec_simple P i s m = match x with
                          | (s0, EOk a) => SOk (f a) (with_ms m s0)
                          | (s0, EErr e) => SErr e (with_ms m s0)
                          end ->
    does i s m f (of_er m x).
  Proof. destruct x as [s0 [a|e]]; exact (fun H => H). Qed.

  Lemma does_pure {A} i s m f (x : er err A) :
    exec_simple P i s m = match x with EOk a => SOk (f a) m | EErr e => SErr e m end ->
    does i s m f (of_pure_er m x).
  Proof. destruct x as [a|e]; exact (fun H => H). Qed.

  Lemma frag_does O {A} C p i rest s m base f (r : eres value St err A) K :
    is_control i = false -> does i s m f r ->
    (forall a m', fragc O C (p + isize i) rest (f a) m' base (K a m')) ->
    fragc O C p (i :: rest) s m base (o_bind O A r K).
  Proof.
    intros Hi Hd HK Hc. apply o_bind_intro.
    destruct r as [a m'|[| | |e] m'| |]; cbn [does] in Hd; try contradiction; try exact I.
    - exact (frag_instr O C p i rest s m (f a) m' base (K a m') Hi Hd (HK a m') Hc).
    - eapply stops_simple_err; eassumption.
  Qed.

  Lemma ebind_ret {A} (r : eres value St err A) : ebind r (fun a m => ENormal a m) = r.
  Proof. destruct r; reflexivity. Qed.

  Lemma postc_last C p i s m base (r : eres value St err value) :
    is_control i = false -> does i s m (fun v => v :: base) r -> postc C p [i] s m base r.
  Proof.
    intros Hi Hd. rewrite <- (ebind_ret r).
    eapply (frag_does eo); [exact Hi|exact Hd|intros v m'; apply postc_nil].
  Qed.

  Lemma var_get_exec sc i s m :
    exec_simple P (var_get sc i) s m =
    match var_read P m sc i with Some (m', v) => SOk (v :: s) m' | None => SStuck end.
  Proof.
    destruct sc; cbn [var_get exec_simple var_read]; try reflexivity.
    - destruct (frame_get m i); reflexivity.
    - destruct (p_get_special P (ms m) i); reflexivity.
  Qed.

  Lemma var_set_exec sc i v s m :
    exec_simple P (var_set sc i) (v :: s) m = lift_w s (var_write P m sc i v).
  Proof. destruct sc; reflexivity. Qed.

  Lemma var_set_simple sc i : is_control (var_set sc i) = false.
  Proof. destruct sc; reflexivity. Qed.
  Lemma var_get_simple sc i : is_control (var_get sc i) = false.
  Proof. destruct sc; reflexivity. Qed.

  Lemma set_instr_simple lv : is_control (set_instr lv) = false.
  Proof. destruct lv; [apply var_set_simple|reflexivity|reflexivity]. Qed.

  Lemma postc_read lv r r' m C p s rest base K :
    lref_rel lv r r' ->
    (forall old m', postc C (p + csize (lv_get lv)) rest (old :: ref_stack r' s) m' base (K old m')) ->
    postc C p (lv_get lv ++ rest) (ref_stack r' s) m base (ebind (lref_read P m r) K).
  Proof.
    intros Hrel HK. destruct Hrel as [sc i|e idx|sc i es k k' Hk]; cbn [lv_get app ref_stack lref_read csize] in *.
    - rewrite Z.add_0_r in HK.
      eapply (frag_does eo) with (f := fun v => v :: s); [apply var_get_simple| |exact HK].
      pose proof (var_get_exec sc i s m) as He.
      destruct (var_read P m sc i) as [[m' v]|]; [exact He|exact I].
    - rewrite Z.add_0_r, Z.add_assoc in HK.
      eapply frag_instr; [reflexivity|reflexivity|].
      eapply (frag_does eo) with (f := fun v => v :: idx :: s); [reflexivity| |exact HK].
      destruct (p_get_field P (ms m) idx) as [s0 v] eqn:Eg. cbn [does exec_simple]. rewrite Eg. reflexivity.
    - rewrite Z.add_0_r, Z.add_assoc in HK.
      eapply frag_instr; [reflexivity|reflexivity|].
      eapply (frag_does eo) with (f := fun v => v :: k' :: s); [reflexivity| |exact HK].
      destruct Hk as (Hget & _). rewrite (Hget (ms m) sc i).
      destruct (p_array_get P (ms m) sc i k') as [s0 v] eqn:Eg. cbn [does exec_simple]. rewrite Eg. reflexivity.
  Qed.

  Lemma does_set {A} lv r r' (a : A) v s m :
    lref_rel lv r r' -> does (set_instr lv) (ref_stack r' (v :: s)) m (fun _ => s) (lref_write P a m r v).
  Proof.
    destruct 1 as [sc i|e idx|sc i es k k' Hk]; cbn [set_instr ref_stack lref_write].
    - pose proof (var_set_exec sc i v s m) as He.
      destruct (var_write P m sc i v); [exact He|exact He|exact I].
    - destruct (p_set_field P (ms m) idx v) as [s0 [u|e0]] eqn:Es; cbn [does exec_simple]; rewrite Es; reflexivity.
    - destruct Hk as (_ & Hset & _). cbn [does exec_simple]. rewrite (Hset (ms m) sc i). reflexivity.
  Qed.

  Lemma lref_write_ret {A} (a : A) m r v :
    lref_write P a m r v = ebind (lref_write P tt m r v) (fun _ m' => ENormal a m').
  Proof.
    destruct r as [sc i|idx|sc i k]; cbn [lref_write]; [| |reflexivity].
    - destruct (var_write P m sc i v); reflexivity.
    - destruct (p_set_field P (ms m) idx v) as [s0 [u|e0]]; reflexivity.
  Qed.

  (* the assignment's value a stays beneath the stored value *)
  Lemma postc_write lv r r' a m v C p base :
    lref_rel lv r r' -> postc C p [set_instr lv] (ref_stack r' (v :: a :: base)) m base (lref_write P a m r v).
  Proof.
    intros Hrel. rewrite lref_write_ret.
    eapply (frag_does eo); [apply set_instr_simple|exact (does_set lv r r' tt v (a :: base) m Hrel)|].
    intros u m'. apply postc_nil.
  Qed.

  (* assignRoteIndex: [w; a] above the subscript; stores w and leaves a *)
  Lemma postc_write_rote lv r r' a m w C p base :
    lref_rel lv r r' ->
    postc C p (comp_assign_rote lv) (w :: a :: ref_stack r' base) m base (lref_write P a m r w).
  Proof.
    intros Hrel. pose proof (fun p => postc_write lv r r' a m w C p base Hrel) as Hw.
    destruct Hrel; cbn [comp_assign_rote ref_stack set_instr] in *.
    - apply Hw.
    - eapply frag_instr; [reflexivity|reflexivity|]. apply Hw.
    - eapply frag_instr; [reflexivity|reflexivity|]. apply Hw.
  Qed.

  Definition src_stack (r : redir) (sv : value) (s : list value) : list value :=
    match r with RNone => s | _ => sv :: s end.

  Lemma bind_src O n (SE : SimExpr n) r e m C p s rest base K :
    (forall sv m1, fragc O C (p + csize (src_code r e)) rest (src_stack r sv s) m1 base (K sv m1)) ->
    fragc O C p (src_code r e ++ rest) s m base (o_bind O _ (eval_src P FN n r e m) K).
  Proof.
    intros HK. destruct r; cbn [src_code eval_src src_stack] in *; try (apply bind_expr; assumption).
    intros Hc. apply o_bind_intro. specialize (HK (p_null P) m). cbn [csize] in HK. rewrite Z.add_0_r in HK. exact (HK Hc).
  Qed.

  Lemma do_getline_src r sv s m :
    do_getline P m r (src_stack r sv s) = Some (s, p_getline P (ms m) r (redir_src r sv)).
  Proof. destruct r; reflexivity. Qed.

  Lemma pop_n_rev (l : list value) : forall stk acc, pop_n (length l) (rev l ++ stk) acc = Some (l ++ acc, stk).
  Proof.
    induction l as [|x l IH] using rev_ind; intros stk acc.
    - reflexivity.
    - rewrite rev_app_distr, app_length, Nat.add_comm. cbn [rev app length Nat.add pop_n].
      rewrite IH. rewrite <- app_assoc. reflexivity.
  Qed.

  Lemma pop_n_rev_z (l : list value) n stk : zlen l = n -> pop_n (Z.to_nat n) (rev l ++ stk) [] = Some (l, stk).
  Proof.
    intros <-. unfold zlen. rewrite Nat2Z.id, pop_n_rev, app_nil_r. reflexivity.
  Qed.

  Lemma reaches_end C p s m pe s' m' :
    reaches C p s m pe s' m' -> csize C <= pe -> stops C p s m (VDone s' m').
  Proof. intros H Hle. eapply reaches_stops; [exact H|apply stops_end; exact Hle|discriminate]. Qed.

  Lemma does_getline_lv lv ref ref' red sv s m :
    lref_rel lv ref ref' ->
    does (getline_instr lv red) (src_stack red sv (ref_stack ref' s)) m (fun ret => ret :: s)
      (ebind (of_er m (p_getline P (ms m) red (redir_src red sv))) (fun rl m2 =>
         match rl with
         | (ret, Some line) => lref_write P ret m2 ref line
         | (ret, None) => ENormal ret m2
         end)).
  Proof.
    intros Hrel. pose proof (do_getline_src red sv (ref_stack ref' s) m) as Hdg.
    destruct (p_getline P (ms m) red (redir_src red sv)) as [s0 [[ret [line|]]|e0]] eqn:Eg; cbn [of_er ebind].
    - destruct Hrel as [sc i|e idx|sc i es k k' Hk]; cbn [getline_instr ref_stack lref_write ms with_ms] in *.
      + destruct (var_write P (with_ms m s0) sc i line) eqn:Ew; cbn [of_w does exec_simple]; [| |exact I];
          rewrite Hdg, Ew; reflexivity.
      + destruct (p_set_field P s0 idx line) as [s1 [u|e0]] eqn:Es; cbn [does exec_simple]; rewrite Hdg, Es; reflexivity.
      + destruct Hk as (_ & Hset & _). cbn [does exec_simple]. rewrite Hdg, (Hset s0 sc i). reflexivity.
    - destruct Hrel; cbn [getline_instr ref_stack does exec_simple] in *; rewrite Hdg; reflexivity.
    - destruct Hrel; cbn [getline_instr ref_stack does exec_simple] in *; rewrite Hdg; reflexivity.
  Qed.

  (* the last instruction of sub / gsub on a field or an array element *)
  Lemma postc_sub_store lv r r' cnt out m C p base :
    lref_rel lv r r' -> match lv with LVar _ _ => true | _ => false end = false ->
    postc C p (match lv with LIndex sc i _ => [IAssignArray sc i] | _ => [IAssignFieldSub] end)
          (ref_stack r' (out :: cnt :: base)) m base
          (match r with
           | RField _ => if p_num_pos P cnt then lref_write P cnt m r out else ENormal cnt m
           | _ => lref_write P cnt m r out
           end).
  Proof.
    destruct 1 as [sc i|e idx|sc i es k k' Hk]; [discriminate| |]; intros _.
    - cbn [ref_stack lref_write]. destruct (p_num_pos P cnt) eqn:Epos.
      + destruct (p_set_field P (ms m) idx out) as [s0 [u|e0]] eqn:Es.
        * eapply frag_instr; [reflexivity|cbn [exec_simple]; rewrite Epos, Es; reflexivity|apply postc_nil].
        * eapply postc_err; [reflexivity|cbn [exec_simple]; rewrite Epos, Es; reflexivity].
      + eapply frag_instr; [reflexivity|cbn [exec_simple]; rewrite Epos; reflexivity|apply postc_nil].
    - exact (postc_write (LIndex sc i es) _ _ cnt m out C p base (LRIndex sc i es k k' Hk)).
  Qed.

  (* Nulls, if any, completes the callee's frame *)
  Lemma postc_nulls vs nsc k C p rest stk m base r :
    zlen vs = k -> zlen vs <= nsc ->
    postc C (p + csize (if k <? nsc then [INulls (nsc - k)] else [])) rest (rev (pad_nulls P vs nsc) ++ stk) m base r ->
    postc C p ((if k <? nsc then [INulls (nsc - k)] else []) ++ rest) (rev vs ++ stk) m base r.
  Proof.
    intros <- Hle H. unfold pad_nulls in H. rewrite rev_app_distr, rev_repeat_eq, <- app_assoc in H.
    destruct (zlen vs <? nsc) eqn:El; cbn [app csize] in *; rewrite Z.add_0_r in H.
    - eapply frag_instr; [reflexivity|reflexivity|exact H].
    - apply Z.ltb_ge in El. replace (nsc - zlen vs) with 0 in H by lia. exact H.
  Qed.

  Lemma call_sim n (SS : SimStmts n) C p fi arrs stk m1 fn padded :
    0 <= fi -> nth_error FN (Z.to_nat fi) = Some fn ->
    zlen padded = f_nscalars fn ->
    (Gen.Consts.maxCallDepth <=? depth m1) = false ->
    let m2 := {| ms := p_push_arrays P (ms m1) arrs (f_narrays fn); frame := padded; depth := depth m1 + 1 |} in
    postc C p [ICallUser fi arrs] (rev padded ++ stk) m1 stk
      (match exec_stmts P FN n false (f_body fn) m2 with
       | RNormal m3 => ENormal (p_null P) (restore P m1 m3)
       | RReturn v m3 => ENormal v (restore P m1 m3)
       | RAbort x m3 => EAbort x (restore P m1 m3)
       | RBreak _ | RContinue _ | RWrong => EWrong
       | RFuel => EFuel
       end).
  Proof.
    intros Hfi Hnth Hlen Hdepth m2 Hc. cbn [csize]. rewrite Z.add_0_r.
    set (body := comp_block (f_body fn)).
    assert (Hstep : step P F C p (rev padded ++ stk) m1 =
                    ACall (comp_func fn) m2 m1 (p + isize (ICallUser fi arrs)) (rev padded ++ stk)).
    { erewrite step_at by exact Hc. cbv zeta.
      destruct (fi <? 0) eqn:E; [apply Z.ltb_lt in E; lia|].
      unfold F. rewrite nth_error_map, Hnth. cbn [option_map]. rewrite Hdepth.
      cbn [comp_func cf_nscalars cf_narrays].
      rewrite (pop_n_rev_z padded _ stk Hlen). rewrite ?E. reflexivity. }
    pose proof (SS (f_body fn) LNone m2 body 0 (rev padded ++ stk) (code_at_whole body)) as Hb.
    cbn [inl] in Hb. unfold stmt_post in Hb.
    assert (Hpop : pop_n (Z.to_nat (cf_nscalars (comp_func fn))) (rev padded ++ stk) [] = Some (padded, stk)).
    { cbn [comp_func cf_nscalars]. apply pop_n_rev_z. exact Hlen. }
    destruct (exec_stmts P FN n false (f_body fn) m2) as [m3|m3|m3|v m3|x m3| |]; cbn [post]; try exact I.
    - (* normal completion *)
      intros k r Hr Hf.
      destruct (reaches_end _ _ _ _ _ _ _ Hb ltac:(unfold body, comp_block; lia)) as [kb Hkb].
      exists (S (Nat.max kb k)). rewrite run_S, Hstep. cbv zeta. cbn [comp_func cf_body]. fold body.
      rewrite (run_max_l kb k Hkb), Hpop by discriminate. apply run_max_r; assumption.
    - (* return *)
      intros k r Hr Hf. destruct Hb as [kb Hkb].
      exists (S (Nat.max kb k)). rewrite run_S, Hstep. cbv zeta. cbn [comp_func cf_body]. fold body.
      rewrite (run_max_l kb k Hkb), Hpop by discriminate. apply run_max_r; assumption.
    - (* abort *)
      destruct Hb as [kb Hkb]. exists (S kb). rewrite run_S, Hstep. cbv zeta. cbn [comp_func cf_body]. fold body.
      rewrite Hkb. reflexivity.
  Qed.

  Lemma aug_assign_rote n (SE : SimExpr n) (SL : SimLref n) lv op e m C p stk :
    match lv with LVar _ _ => true | _ => false end = false ->
    postc C p (comp_expr (EAugAssign lv op e)) stk m stk (eval P FN (S n) (EAugAssign lv op e) m).
  Proof.
    intros Hlv. rewrite (ce_augassign _ _ _ Hlv). cbn [eval].
    eapply (bind_expr eo); [exact SE|intros rv m1].
    eapply (bind_lref eo); [exact SL|intros r r' m2 Hrel].
    eapply postc_read; [exact Hrel|intros old m3].
    destruct (ref_stack_key _ _ _ Hrel Hlv) as [k Hk]. rewrite !Hk. cbn [app].
    eapply frag_instr; [reflexivity|reflexivity|].
    eapply (frag_does eo) with (f := fun nv => nv :: k :: stk); [reflexivity|apply does_pure; reflexivity|intros nv m4].
    eapply frag_instr; [reflexivity|reflexivity|].
    rewrite <- Hk. exact (postc_write_rote lv r r' nv m4 nv C _ stk Hrel).
  Qed.

  (* one simple instruction whose effect is computed by cbn *)
  Ltac one := eapply frag_instr; [reflexivity|cbn [exec_simple]; reflexivity|].
  Ltac one_with E := eapply frag_instr; [reflexivity|cbn [exec_simple]; rewrite ?E; reflexivity|].
  Ltac wrong := exact (fun _ => I).

  (* && (inv = true) and ||: when the left value decides, the jump skips the right operand and
     Boolean converts the copy kept by Dupe *)
  Lemma short_circuit n (SE : SimExpr n) (inv : bool) vl r m C p stk :
    postc C p ([IDupe; if inv then IJumpFalse (1 + csize (comp_expr r)) else IJumpTrue (1 + csize (comp_expr r)); IDrop] ++
               comp_expr r ++ [IBoolean]) (vl :: stk) m stk
      (if xorb (p_to_bool P vl) inv then ENormal (p_of_bool P (p_to_bool P vl)) m
       else ebind (eval P FN n r m) (fun vr m2 => ENormal (p_of_bool P (p_to_bool P vr)) m2)).
  Proof.
    cbn [app]. one. intros Hc. eapply post_reaches; [exact (jump_bool C _ _ vl inv _ _ m Hc)|].
    apply code_at_tail in Hc. set (j := if inv then _ else _) in *.
    assert (Ej : isize j = 2) by (destruct inv; reflexivity).
    destruct (xorb (p_to_bool P vl) inv).
    - apply code_at_tail in Hc. apply code_at_app_r in Hc.
      eapply post_postc; [exact Hc| | |one; apply postc_nil]; cbn [csize]; rewrite ?csize_app; cbn [csize isize]; lia.
    - eapply post_postc; [exact Hc|lia|cbn [csize]; lia|].
      one. eapply (bind_expr eo); [exact SE|intros vr m2]. one. apply postc_nil.
  Qed.

  Lemma sim_expr_S n : Sim n -> SimExpr (S n).
  Proof.
    intros (SE & SEs & SA & SI & SL & SC & SCat & _ & SS & _).
    intros e m C p stk.
    change (postc C p (comp_expr e) stk m stk (eval P FN (S n) e m)).
    destruct e; cbn [eval].
    - (* ENum *) one. apply postc_nil.
    - (* EStr *) one. apply postc_nil.
    - (* ERegex *) one. apply postc_nil.
    - (* EField *)
      assert (Hgen : postc C p (comp_expr e ++ [IField]) stk m stk
                (ebind (eval P FN n e m) (fun idx m1 => let '(s, v) := p_get_field P (ms m1) idx in ENormal v (with_ms m1 s)))).
      { eapply (bind_expr eo); [exact SE|intros v m1].
        destruct (p_get_field P (ms m1) v) as [s v0] eqn:Eg. one_with Eg. apply postc_nil. }
      destruct e; try exact Hgen.
      destruct (fieldint_of bits) as [k|] eqn:Ef; [|rewrite (ce_field_num _ Ef); exact Hgen].
      rewrite (ce_field_int _ _ Ef). destruct n as [|n']; [wrong|]. cbn [eval ebind].
      rewrite <- (ok_fieldint OK _ _ (ms m) Ef).
      destruct (p_get_field_int P (ms m) k) as [s v0] eqn:Eg. one_with Eg. apply postc_nil.
    - (* ENamedField *)
      assert (Hgen : postc C p (comp_expr e ++ [IFieldByName]) stk m stk
                (ebind (eval P FN n e m) (fun nm m1 => of_er m1 (p_get_named P (ms m1) nm)))).
      { eapply (bind_expr eo); [exact SE|intros v m1].
        apply postc_last; [reflexivity|apply does_er; reflexivity]. }
      destruct e; try exact Hgen.
      destruct n as [|n']; [wrong|]. cbn [eval ebind]. rewrite <- (ok_named_str OK).
      apply postc_last; [reflexivity|apply does_er; reflexivity].
    - (* EVar *)
      apply postc_last; [apply var_get_simple|].
      pose proof (var_get_exec sc i stk m) as He.
      destruct (var_read P m sc i) as [[m' v]|]; [exact He|exact I].
    - (* EIndex *)
      rewrite ce_index. eapply (bind_index eo); [exact SI|intros key key' m1 Hk].
      destruct Hk as (Hget & _). rewrite (Hget (ms m1) sc i).
      destruct (p_array_get P (ms m1) sc i key') as [s v] eqn:Eg. one_with Eg. apply postc_nil.
    - (* EIn *)
      rewrite ce_in. eapply (bind_index eo); [exact SI|intros key key' m1 Hk].
      destruct Hk as (_ & _ & Hin & _). rewrite (Hin (ms m1) sc i).
      one. apply postc_nil.
    - (* EBin *)
      rewrite ce_bin.
      eapply (bind_expr eo); [exact SE|intros vl m1].
      eapply (bind_expr eo); [exact SE|intros vr m2].
      destruct op; cbn [binop_instr].
      + apply postc_last; [reflexivity|apply does_pure; reflexivity].
      + one. apply postc_nil.
      + eapply (frag_does eo) with (f := fun b => p_of_bool P b :: stk);
          [reflexivity|apply does_er; reflexivity|intros b m3; apply postc_nil].
      + eapply (frag_does eo) with (f := fun b => p_of_bool P (negb b) :: stk);
          [reflexivity|apply does_er; reflexivity|intros b m3; apply postc_nil].
    - (* EAnd *)
      rewrite ce_and. eapply (bind_expr eo); [exact SE|intros vl m1].
      pose proof (short_circuit n SE true vl e2 m1 C (p + csize (comp_expr e1)) stk) as H.
      destruct (p_to_bool P vl); exact H.
    - (* EOr *)
      rewrite ce_or. eapply (bind_expr eo); [exact SE|intros vl m1].
      pose proof (short_circuit n SE false vl e2 m1 C (p + csize (comp_expr e1)) stk) as H.
      destruct (p_to_bool P vl); exact H.
    - (* EConcat *)
      rewrite ce_concat.
      eapply (bind_cat eo); [exact SCat|intros v0 vs m1 Hl].
      eapply (bind_expr eo); [exact SE|intros vr m2].
      destruct (cat_count e1 + 1 =? 2) eqn:E2.
      + apply Z.eqb_eq in E2. destruct vs as [|w vs'].
        * cbn [fold_left rev app]. one. apply postc_nil.
        * exfalso. rewrite !zlen_cons in Hl. pose proof (zlen_nonneg vs'). lia.
      + apply Z.eqb_neq in E2. destruct vs as [|w vs'].
        * exfalso. rewrite zlen_cons, zlen_nil in Hl. lia.
        * assert (Hpop : pop_n (Z.to_nat (cat_count e1 + 1)) (vr :: rev (v0 :: w :: vs') ++ stk) [] =
                         Some ((v0 :: w :: vs') ++ [vr], stk)).
          { replace (vr :: rev (v0 :: w :: vs') ++ stk) with (rev ((v0 :: w :: vs') ++ [vr]) ++ stk)
              by (rewrite rev_app_distr; reflexivity).
            apply pop_n_rev_z. rewrite zlen_app, Hl. reflexivity. }
          one_with Hpop.
          cbn [app]. rewrite (ok_concat_multi OK), fold_left_app. cbn [fold_left].
          rewrite (fold_concat_indep CI (ms m1) (ms m2)), ?(CI (ms m1) (ms m2)). apply postc_nil.
    - (* EUnary *)
      rewrite ce_unary. eapply (bind_expr eo); [exact SE|intros v m1].
      destruct op; cbn [unop_instr]; one; apply postc_nil.
    - (* ECond *)
      rewrite ce_cond. intros Hc.
      apply code_at_app in Hc as [Hcc Hc]. apply code_at_app in Hc as [Ht Hc]. apply code_at_app in Hc as [Hj Hf].
      pose proof (SC e1 true _ m C p stk Hcc) as H1.
      destruct (eval P FN n e1 m) as [vc m1|x m1| |]; cbn [ebind post]; try exact I; [|exact H1].
      cbv zeta in H1. rewrite xorb_true_r in H1.
      destruct (p_to_bool P vc); cbn [negb] in H1; (eapply post_reaches; [exact H1|]).
      + eapply post_then; [exact (SE e2 m1 C _ stk Ht)|].
        intros v m'. eapply reaches_cast; [exact (reaches_jump _ _ _ _ _ _ Hj)|].
        rewrite !csize_app. cbn [csize isize]. lia.
      + eapply post_postc; [exact Hf| | |exact (SE e3 m1 C _ stk)].
        * cbn [csize isize]. lia.
        * rewrite !csize_app. cbn [csize isize]. lia.
    - (* EAssign *)
      rewrite ce_assign, comp_assign_eq.
      eapply (bind_expr eo); [exact SE|intros v m1]. cbn [app]. one.
      eapply (bind_lref eo); [exact SL|intros r r' m2 Hrel].
      exact (postc_write lv r r' v m2 v C _ stk Hrel).
    - (* EAugAssign *)
      destruct lv as [sc i|e1|sc i idx];
        [|exact (aug_assign_rote n SE SL (LField e1) op e m C p stk eq_refl)
         |exact (aug_assign_rote n SE SL (LIndex sc i idx) op e m C p stk eq_refl)].
      rewrite ce_augassign_var.
      eapply (bind_expr eo); [exact SE|intros rv m1].
      destruct n as [|n']; [wrong|]. cbn [eval_lref ebind].
      eapply (postc_read _ _ _ m1 C _ (rv :: stk) _ stk _ (LRVar sc i)); intros old m3. one.
      eapply (frag_does eo) with (f := fun nv => nv :: stk); [reflexivity|apply does_pure; reflexivity|intros nv m4].
      one. exact (postc_write (LVar sc i) _ _ nv m4 nv C _ stk (LRVar sc i)).
    - (* EIncr *)
      rewrite ce_incr.
      eapply (bind_lref eo); [exact SL|intros r r' m1 Hrel].
      eapply postc_read; [exact Hrel|intros old m2].
      destruct pre; cbn [app].
      + one.
        eapply (frag_does eo) with (f := fun nv => nv :: ref_stack r' stk);
          [reflexivity|apply does_pure; reflexivity|intros nv m3].
        one. exact (postc_write_rote lv r r' nv m3 nv C _ stk Hrel).
      + one. one. one.
        eapply (frag_does eo) with (f := fun nv => nv :: p_plus P old :: ref_stack r' stk);
          [reflexivity|apply does_pure; reflexivity|intros nv m3].
        exact (postc_write_rote lv r r' (p_plus P old) m3 nv C _ stk Hrel).
    - (* EGroup *)
      exact (SE e m C p stk).
    - (* ECall *)
      rewrite ce_call. eapply (bind_exprs eo); [exact SEs|intros vs m1 Hl].
      destruct (Nat.eqb (length vs) (p_builtin_arity P b)) eqn:Ear; cbn [negb]; [|wrong].
      apply Nat.eqb_eq in Ear.
      eapply (frag_does eo) with (f := fun rs => rev rs ++ stk); [reflexivity| |].
      + apply does_er. cbn [exec_simple]. rewrite <- Ear, pop_n_rev, app_nil_r. reflexivity.
      + intros [|v [|? ?]] m2; try wrong. apply postc_nil.
    - (* ELengthArray *) one. apply postc_nil.
    - (* ESplit *)
      rewrite ce_split. eapply (bind_expr eo); [exact SE|intros sv m1].
      apply postc_last; [reflexivity|apply does_er; reflexivity].
    - (* ESplitSep *)
      rewrite ce_splitsep.
      eapply (bind_expr eo); [exact SE|intros sv m1].
      eapply (bind_expr eo); [exact SE|intros sepv m2].
      apply postc_last; [reflexivity|apply does_er; reflexivity].
    - (* ESubVar *)
      destruct (Nat.eqb (p_builtin_arity P (if g then BGsub else BSub)) 3) eqn:Ear; cbn [negb]; [|wrong].
      apply Nat.eqb_eq in Ear. rewrite ce_subvar.
      eapply (bind_expr eo); [exact SE|intros rev_ m1].
      eapply (bind_expr eo); [exact SE|intros replv m2].
      eapply (postc_read _ _ _ m2 C _ (replv :: rev_ :: stk) _ stk _ (LRVar sc i)); intros inv m3.
      eapply (frag_does eo) with (f := fun rs => rev rs ++ stk); [reflexivity| |].
      + apply does_er. cbn [exec_simple]. rewrite Ear. reflexivity.
      + intros [|cnt [|out [|? ?]]] m4; try wrong.
        exact (postc_write (LVar sc i) _ _ cnt m4 out C _ stk (LRVar sc i)).
    - (* ESubLv *)
      destruct (Nat.eqb (p_builtin_arity P (if g then BGsub else BSub)) 3) eqn:Ear; cbn [negb]; [|wrong].
      apply Nat.eqb_eq in Ear.
      destruct (match lv with LVar _ _ => true | _ => false end) eqn:Elv; [wrong|].
      rewrite ce_sublv.
      eapply (bind_lref eo); [exact SL|intros r r' m0 Hrel].
      eapply postc_read; [exact Hrel|intros inv m1].
      eapply (bind_expr eo); [exact SE|intros rev_ m2].
      eapply (bind_expr eo); [exact SE|intros replv m3].
      destruct (ref_stack_key _ _ _ Hrel Elv) as [k Hk]. rewrite Hk. cbn [app]. one.
      eapply (frag_does eo) with (f := fun rs => rev rs ++ k :: stk); [reflexivity| |].
      + apply does_er. cbn [exec_simple]. rewrite Ear. reflexivity.
      + intros [|cnt [|out [|? ?]]] m4; try wrong.
        cbn [rev app]. one. rewrite <- Hk. exact (postc_sub_store lv r r' cnt out m4 C _ stk Hrel Elv).
    - (* ESprintf *)
      rewrite ce_sprintf. eapply (bind_exprs eo); [exact SEs|intros vs m1 Hl].
      apply postc_last; [reflexivity|apply does_er; cbn [exec_simple]; rewrite (pop_n_rev_z vs _ stk Hl); reflexivity].
    - (* EUserCall *)
      rewrite ce_usercall. eapply (bind_args eo); [exact SA|intros vs m1 Hl].
      destruct ((fi <? 0) || (nsc <? zlen vs)) eqn:Echk; [wrong|].
      apply orb_false_iff in Echk as [Efi Ensc]. apply Z.ltb_ge in Efi. apply Z.ltb_ge in Ensc.
      destruct (nth_error FN (Z.to_nat fi)) as [fn|] eqn:Enth; [|wrong].
      destruct (f_nscalars fn =? nsc) eqn:Ensc2; cbn [negb]; [|wrong]. apply Z.eqb_eq in Ensc2.
      assert (Hpad : zlen (pad_nulls P vs nsc) = f_nscalars fn).
      { unfold pad_nulls. rewrite zlen_app, zlen_repeat. pose proof (zlen_nonneg vs). lia. }
      eapply postc_nulls; [exact Hl|exact Ensc|].
      destruct (Gen.Consts.maxCallDepth <=? depth m1) eqn:Ed.
      + (* call depth exceeded *)
        intros Hcall. cbn [post]. apply stops_step. erewrite step_at by exact Hcall. cbv zeta.
        destruct (fi <? 0) eqn:E; [apply Z.ltb_lt in E; lia|].
        unfold F. rewrite nth_error_map, Enth. cbn [option_map]. rewrite Ed, ?E. reflexivity.
      + exact (call_sim n SS C _ fi (args_arrays a) stk m1 fn _ Efi Enth Hpad Ed).
    - (* ENativeCall *)
      rewrite ce_native. eapply (bind_exprs eo); [exact SEs|intros vs m1 Hl].
      apply postc_last; [reflexivity|apply does_er; cbn [exec_simple]; rewrite (pop_n_rev_z vs _ stk Hl); reflexivity].
    - (* EGetline *)
      rewrite ce_getline. eapply (bind_src eo n SE r e); intros sv m1.
      apply postc_last; [reflexivity|]. pose proof (do_getline_src r sv stk m1) as Hdg.
      destruct (p_getline P (ms m1) r (redir_src r sv)) as [s0 [[ret [line|]]|e0]];
        cbn [of_er ebind does exec_simple]; rewrite Hdg; reflexivity.
    - (* EGetlineLv *)
      rewrite ce_getline_lv.
      eapply (bind_lref eo); [exact SL|intros ref ref' m0 Hrel].
      eapply (bind_src eo n SE r e); intros sv m1.
      apply postc_last; [destruct lv; reflexivity|exact (does_getline_lv lv ref ref' r sv stk m1 Hrel)].
  Qed.

End SimExpr.

Arguments post {value St err}.
Arguments outcome {value St err}.
Arguments fragc {value St err P FN}.
Arguments bind_expr {value St err P FN}.
Arguments bind_exprs {value St err P FN}.
Arguments bind_index {value St err P FN}.
Arguments bind_lref {value St err P FN}.
Arguments bind_src {value St err P FN}.
Arguments frag_does {value St err P FN} O {A}.
Arguments does {value St err} P {A}.
Arguments lref_rel {value St err}.
Arguments src_stack {value}.
Arguments does_set {value St err P A}.
Arguments reaches_jump {value St err P FN C p off c} s m _.

Section SimParts.
  Variables value St err : Type.
  Variable P : prims value St err.
  Variable FN : list func.
  Hypothesis OK : prims_ok P.
  Hypothesis CI : concat_indep P.

  Notation F := (F FN).
  Notation reaches := (reaches P F).
  Notation stops := (stops P F).
  Notation Sim := (Sim P FN).

  (* values pushed left to right; the VM may hold R-related ones *)
  Definition pushes (R : value -> value -> Prop) C p stk m (c : code) (len : Z)
             (r : eres value St err (list value)) : Prop :=
    match r with
    | ENormal vs m' =>
        exists vs', Forall2 R vs vs' /\ zlen vs = len /\ reaches C p stk m (p + csize c) (rev vs' ++ stk) m'
    | EAbort x m' => stops C p stk m (VAbort x m')
    | _ => True
    end.

  Lemma pushes_nil R C p stk m : pushes R C p stk m [] 0 (ENormal [] m).
  Proof.
    exists []. split; [constructor|]. split; [reflexivity|].
    cbn [csize rev app]. rewrite Z.add_0_r. apply reaches_refl.
  Qed.

  Lemma pushes_cons R C p stk m c1 c2 len (r1 : eres value St err value) r2 :
    match r1 with
    | ENormal v m1 => exists v', R v v' /\ reaches C p stk m (p + csize c1) (v' :: stk) m1
    | EAbort x m1 => stops C p stk m (VAbort x m1)
    | _ => True
    end ->
    (forall v' m1, pushes R C (p + csize c1) (v' :: stk) m1 c2 len (r2 m1)) ->
    pushes R C p stk m (c1 ++ c2) (1 + len)
      (ebind r1 (fun v m1 => ebind (r2 m1) (fun vs m2 => ENormal (v :: vs) m2))).
  Proof.
    intros H1 H2. destruct r1 as [v m1|x m1| |]; cbn [ebind]; try exact I; [|exact H1].
    destruct H1 as (v' & Hv & H1). specialize (H2 v' m1).
    destruct (r2 m1) as [vs m2|x m2| |]; cbn [ebind pushes] in *; try exact I.
    - destruct H2 as (vs' & Hf & Hl & H2). exists (v' :: vs'). split; [constructor; assumption|]. split.
      + rewrite zlen_cons, Hl. lia.
      + rewrite rev_cons_app, csize_app, Z.add_assoc. eapply reaches_trans; [exact H1|exact H2].
    - eapply reaches_stops; [exact H1|exact H2|discriminate].
  Qed.

  (* with R := eq this is the form of SimExprs and SimArgs *)
  Lemma pushes_eq C p stk m c len r :
    pushes eq C p stk m c len r <->
    match r with
    | ENormal vs m' => reaches C p stk m (p + csize c) (rev vs ++ stk) m' /\ zlen vs = len
    | EAbort x m' => stops C p stk m (VAbort x m')
    | _ => True
    end.
  Proof.
    destruct r as [vs m'|x m'| |]; cbn [pushes]; try reflexivity. split.
    - intros (vs' & Hf & Hl & H). apply Forall2_eq_iff in Hf as <-. split; assumption.
    - intros [H Hl]. exists vs. split; [apply Forall2_eq_iff; reflexivity|]. split; assumption.
  Qed.

  Lemma expr_head (R : value -> value -> Prop) (Hrefl : forall v, R v v) n (SE : SimExpr P FN n) e m C p stk :
    code_at C p (comp_expr e) ->
    match eval P FN n e m with
    | ENormal v m1 => exists v', R v v' /\ reaches C p stk m (p + csize (comp_expr e)) (v' :: stk) m1
    | EAbort x m1 => stops C p stk m (VAbort x m1)
    | _ => True
    end.
  Proof.
    intros Hc. pose proof (SE e m C p stk Hc) as H.
    destruct (eval P FN n e m) as [v m1|x m1| |]; try exact H. exists v. split; [apply Hrefl|exact H].
  Qed.

  Lemma sim_exprs_S n : Sim n -> SimExprs P FN (S n).
  Proof.
    intros (SE & SEs & _) es m C p stk Hc. apply pushes_eq.
    destruct es as [|e es']; [rewrite eval_exprs_nil; apply pushes_nil|rewrite eval_exprs_cons].
    cbn [comp_exprs exprs_len] in *. apply code_at_app in Hc as [Ha Hb].
    apply pushes_cons; [exact (expr_head eq (@eq_refl _) n SE e m C p stk Ha)|].
    intros v' m1. apply pushes_eq. exact (SEs es' m1 C _ (v' :: stk) Hb).
  Qed.

  Lemma sim_args_S n : Sim n -> SimArgs P FN (S n).
  Proof.
    intros (SE & _ & SA & _) a m C p stk Hc.
    destruct a as [|e a'|sc i a']; [| |exact (SA a' m C p stk Hc)]; apply pushes_eq;
      [rewrite eval_args_nil; apply pushes_nil|rewrite eval_args_s].
    cbn [comp_args args_scalars] in *. apply code_at_app in Hc as [Ha Hb].
    apply pushes_cons; [exact (expr_head eq (@eq_refl _) n SE e m C p stk Ha)|].
    intros v' m1. apply pushes_eq. exact (SA a' m1 C _ (v' :: stk) Hb).
  Qed.

  (* one subscript item: an integral constant is pushed as its decimal string *)
  Lemma sim_item n (SE : SimExpr P FN n) e m C p stk :
    let c := match e with
             | ENum b => match int_index_str b with Some s => [IStr s] | None => comp_expr e end
             | _ => comp_expr e
             end in
    code_at C p c ->
    match eval P FN n e m with
    | ENormal v m1 => exists v', keq P v v' /\ reaches C p stk m (p + csize c) (v' :: stk) m1
    | EAbort x m1 => stops C p stk m (VAbort x m1)
    | _ => True
    end.
  Proof.
    pose proof (expr_head (keq P) (keq_refl P) n SE e m C p stk) as Hgen.
    destruct e; try exact Hgen.
    destruct (int_index_str bits) as [t|] eqn:Ei; [|exact Hgen].
    intros c Ha. destruct n as [|n']; [exact I|]. cbn [eval].
    exists (p_str P t). split; [apply (ok_key OK); exact Ei|].
    eapply reaches_simple; [exact Ha|reflexivity|reflexivity].
  Qed.

  Lemma sim_items_S n : Sim n -> SimItems P FN (S n).
  Proof.
    intros (SE & _ & _ & _ & _ & _ & _ & _ & _ & _ & _ & SIt) es m C p stk Hc.
    change (pushes (keq P) C p stk m (comp_index_items es) (exprs_len es) (eval_exprs P FN (S n) es m)).
    destruct es as [|e es']; [rewrite eval_exprs_nil; apply pushes_nil|rewrite eval_exprs_cons].
    cbn [comp_index_items exprs_len] in *. apply code_at_app in Hc as [Ha Hb].
    apply pushes_cons; [exact (sim_item n SE e m C p stk Ha)|].
    intros v' m1. exact (SIt es' m1 C _ (v' :: stk) Hb).
  Qed.

  Lemma index_multi_congr s : forall vs ws, Forall2 (keq P) vs ws ->
    forall pre, p_index_multi P s (pre ++ vs) = p_index_multi P s (pre ++ ws).
  Proof.
    induction 1 as [|v w vs ws Hk Hf IH]; intros pre; [reflexivity|].
    destruct Hk as (_ & _ & _ & _ & Him).
    rewrite (Him s pre vs).
    replace (pre ++ w :: vs) with ((pre ++ [w]) ++ vs) by (rewrite <- app_assoc; reflexivity).
    rewrite IH. rewrite <- app_assoc. reflexivity.
  Qed.

  Lemma sim_index_S n : Sim n -> SimIndex P FN (S n).
  Proof.
    intros (_ & _ & _ & _ & _ & _ & _ & _ & _ & _ & _ & SIt) es m C p stk Hc.
    rewrite eval_index_S. rewrite comp_index_eq in Hc |- *.
    apply code_at_app in Hc as [Ha Hb]. rewrite csize_app, Z.add_assoc.
    pose proof (SIt es m C p stk Ha) as H1.
    destruct (eval_exprs P FN n es m) as [vs m1|x m1| |]; cbn [ebind]; try exact I; [|exact H1].
    destruct H1 as (vs' & Hf & Hl & H1). unfold index_multi_tail in *. rewrite <- Hl in *.
    pose proof (Forall2_zlen _ _ _ Hf) as Hlen. pose proof (index_multi_congr (ms m1) _ _ Hf []) as Hmulti.
    destruct Hf as [|v v' vs vs' Hk Hf]; [exact I|]. destruct Hf as [|v2 v2' vs vs' Hk2 Hf].
    - exists v'. split; [exact Hk|]. change (1 <? zlen [v]) with false. cbn [csize]. rewrite Z.add_0_r. exact H1.
    - exists (p_index_multi P (ms m1) (v :: v2 :: vs)). split; [apply keq_refl|].
      assert (Hgt : (1 <? zlen (v :: v2 :: vs)) = true).
      { apply Z.ltb_lt. rewrite !zlen_cons. pose proof (zlen_nonneg vs). lia. }
      rewrite Hgt in *. cbn [csize]. rewrite Z.add_0_r.
      eapply reaches_trans; [exact H1|]. eapply reaches_simple; [exact Hb|reflexivity|].
      cbn [exec_simple]. rewrite (@pop_n_rev_z _ _ _ stk (eq_sym Hlen)). cbn [app] in Hmulti. rewrite Hmulti. reflexivity.
  Qed.

  Lemma sim_lref_S n : Sim n -> SimLref P FN (S n).
  Proof.
    intros (SE & _ & _ & SI & _) lv m C p stk Hc.
    destruct lv as [sc i|e|sc i idx]; [rewrite eval_lref_var|rewrite eval_lref_field|rewrite eval_lref_index];
      cbn [lv_code] in *.
    - exists (RVar sc i). cbn [ref_stack csize]. rewrite Z.add_0_r. repeat split. apply reaches_refl.
    - pose proof (SE e m C p stk Hc) as H.
      destruct (eval P FN n e m) as [v m1|x m1| |]; cbn [ebind]; try exact H.
      exists (RField v). repeat split. exact H.
    - pose proof (SI idx m C p stk Hc) as H.
      destruct (eval_index P FN n idx m) as [key m1|x m1| |]; cbn [ebind]; try exact H.
      destruct H as (key' & Hk & H). exists (RIndex sc i key').
      split; [split; reflexivity|]. split; [|exact H]. split; [reflexivity|split; [reflexivity|exact Hk]].
  Qed.

  (* the unfused form of a condition: value, then JumpTrue / JumpFalse *)
  Lemma cond_unfused n (SE : SimExpr P FN n) e (inv : bool) off m C p stk :
    let c := comp_expr e ++ [if inv then IJumpFalse off else IJumpTrue off] in
    code_at C p c ->
    match eval P FN n e m with
    | ENormal v m' => reaches C p stk m (if xorb (p_to_bool P v) inv then p + csize c + off else p + csize c) stk m'
    | EAbort x m' => stops C p stk m (VAbort x m')
    | _ => True
    end.
  Proof.
    intros c Hc. apply code_at_app in Hc as [Ha Hb]. pose proof (SE e m C p stk Ha) as H.
    destruct (eval P FN n e m) as [v m1|x m1| |]; try exact I; [|exact H].
    eapply reaches_cast; [eapply reaches_trans; [exact H|eapply jump_bool; exact Hb]|].
    unfold c. rewrite csize_app. destruct inv; cbn [csize isize]; destruct (xorb _ _); lia.
  Qed.

  Lemma cmp_neg_ok c s l r : is_ordering c = false -> p_cmp P (cmp_neg c) s l r = negb (p_cmp P c s l r).
  Proof.
    destruct c; try discriminate; intros _; cbn [cmp_neg]; [apply (ok_ne OK)|].
    rewrite (ok_ne OK), negb_involutive. reflexivity.
  Qed.

  Lemma sim_cond_S n : Sim n -> SimCond P FN (S n).
  Proof.
    intros HS. pose proof (cond_unfused (S n) (@sim_expr_S _ _ _ P FN OK CI n HS)) as Hgen. destruct HS as (SE & _).
    intros e inv off m C p stk Hc. unfold comp_cond, cond_code in Hc |- *.
    destruct e; try exact (Hgen _ inv off m C p stk Hc).
    destruct op; try exact (Hgen _ inv off m C p stk Hc).
    destruct (inv && is_ordering c) eqn:Eord; [destruct inv; [|discriminate]; exact (Hgen _ true off m C p stk Hc)|].
    (* fused compare-and-branch *)
    cbn [eval].
    apply code_at_app in Hc as [Hl Hc]. apply code_at_app in Hc as [Hr Hj].
    pose proof (SE e1 m C p stk Hl) as H1.
    destruct (eval P FN n e1 m) as [vl m1|x m1| |]; cbn [ebind]; try exact I; [|exact H1].
    pose proof (SE e2 m1 C _ (vl :: stk) Hr) as H2.
    destruct (eval P FN n e2 m1) as [vr m2|x m2| |]; cbn [ebind]; try exact I;
      [|eapply reaches_stops; [exact H1|exact H2|discriminate]].
    cbv zeta. rewrite (ok_bool OK).
    assert (Hcmp : p_cmpj P (if inv then cmp_neg c else c) (ms m2) vl vr = xorb (p_cmp P c (ms m2) vl vr) inv).
    { rewrite (ok_cmpj OK). destruct inv; [|symmetry; apply xorb_false_r]. rewrite xorb_true_r. apply cmp_neg_ok. exact Eord. }
    eapply reaches_trans; [exact H1|]. eapply reaches_trans; [exact H2|].
    eapply reaches_cast; [apply reaches_step; erewrite step_at by exact Hj; reflexivity|].
    rewrite Hcmp, !csize_app. cbn [csize isize]. destruct (xorb _ inv); lia.
  Qed.

  (* an operand that is not itself a concatenation is a chain of one *)
  Lemma cat_single n (SE : SimExpr P FN n) e m C p stk :
    (forall l r, e <> EConcat l r) -> code_at C p (comp_cat e) ->
    match eval P FN n e m with
    | ENormal v m' =>
        exists v0 vs, zlen (v0 :: vs) = cat_count e /\
          v = fold_left (p_concat P (ms m')) vs v0 /\
          reaches C p stk m (p + csize (comp_cat e)) (rev (v0 :: vs) ++ stk) m'
    | EAbort x m' => stops C p stk m (VAbort x m')
    | _ => True
    end.
  Proof.
    intros Hne Hc. rewrite (cc_other e Hne) in Hc |- *. pose proof (SE e m C p stk Hc) as H.
    destruct (eval P FN n e m) as [v m1|x m1| |]; try exact I; [|exact H].
    exists v, []. split; [destruct e; try reflexivity; exfalso; eapply Hne; reflexivity|].
    split; [reflexivity|exact H].
  Qed.

  Lemma sim_cat_S n : Sim n -> SimCat P FN (S n).
  Proof.
    intros HS. pose proof (cat_single (S n) (@sim_expr_S _ _ _ P FN OK CI n HS)) as Hgen.
    destruct HS as (SE & _ & _ & _ & _ & _ & SCat & _).
    intros e m C p stk Hc.
    destruct e; try (apply Hgen; [discriminate|exact Hc]).
    rewrite cc_concat in Hc |- *. cbn [eval cat_count].
    apply code_at_app in Hc as [Hl Hr]. rewrite csize_app, Z.add_assoc.
    pose proof (SCat e1 m C p stk Hl) as H1.
    destruct (eval P FN n e1 m) as [vl m1|x m1| |]; cbn [ebind]; try exact I; [|exact H1].
    destruct H1 as (v0 & vs & Hlen & -> & H1).
    pose proof (SE e2 m1 C _ (rev (v0 :: vs) ++ stk) Hr) as H2.
    destruct (eval P FN n e2 m1) as [vr m2|x m2| |]; cbn [ebind]; try exact I;
      [|eapply reaches_stops; [exact H1|exact H2|discriminate]].
    exists v0, (vs ++ [vr]). split; [|split].
    - rewrite zlen_cons in Hlen. rewrite zlen_cons, zlen_app. change (zlen [vr]) with 1. lia.
    - rewrite fold_left_app. cbn [fold_left]. f_equal. apply (fold_concat_indep CI).
    - replace (rev (v0 :: vs ++ [vr]) ++ stk) with (vr :: rev (v0 :: vs) ++ stk)
        by (change (v0 :: vs ++ [vr]) with ((v0 :: vs) ++ [vr]); rewrite rev_app_distr; reflexivity).
      eapply reaches_trans; [exact H1|exact H2].
  Qed.

End SimParts.
