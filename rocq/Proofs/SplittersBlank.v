(* blankLineSplitter (RS = ""): closed form (no slice panics), stability of ($0, RT), and
   the reconstruction  leading newlines ++ concat (record ++ RT) = input. *)
From Verif Require Import Lib.Base Model.Scanner Model.Splitters Proofs.Scanner Proofs.Splitters.

Definition is_nl (c : Z) : bool := (c =? 10) || (c =? 13).

Lemma skip_nl_bounds l : 0 <= skip_nl l <= zlen l.
Proof.
  induction l as [|c l IH]; [cbn; lia|].
  cbn [skip_nl]. rewrite zlen_cons. destruct ((c =? 10) || (c =? 13)); lia.
Qed.

Lemma skip_nl_run l : Forall (fun c => is_nl c = true) (ztake (skip_nl l) l).
Proof.
  induction l as [|c l IH]; [constructor|].
  cbn [skip_nl]. fold (is_nl c). destruct (is_nl c) eqn:E; [|constructor].
  rewrite ztake_succ_cons by apply skip_nl_bounds. constructor; [exact E|exact IH].
Qed.

Lemma skip_nl_all d : zlen d <= skip_nl d -> Forall (fun c => is_nl c = true) d.
Proof.
  induction d as [|c x IH]; [constructor|].
  cbn [skip_nl]. rewrite zlen_cons. destruct ((c =? 10) || (c =? 13)) eqn:E.
  - intros H. constructor; [exact E|]. apply IH. lia.
  - pose proof (zlen_nonneg x). lia.
Qed.

Lemma skip_nl_app l d' : skip_nl (l ++ d') = skip_nl l + skip_nl (zdrop (skip_nl l) (l ++ d')).
Proof.
  induction l as [|c l IH]; [reflexivity|].
  cbn [app skip_nl]. destruct ((c =? 10) || (c =? 13)) eqn:E.
  - rewrite zdrop_succ_cons by apply skip_nl_bounds. rewrite IH. lia.
  - rewrite zdrop_0. cbn [skip_nl]. rewrite E. reflexivity.
Qed.

Lemma skip_nl_app_lt d d' : skip_nl d < zlen d -> skip_nl (d ++ d') = skip_nl d.
Proof.
  induction d as [|c x IH]; [cbn; lia|].
  cbn [app skip_nl]. rewrite zlen_cons. destruct ((c =? 10) || (c =? 13)); [|reflexivity].
  intros H. rewrite IH by lia. reflexivity.
Qed.

Lemma skip_nl_idem l : skip_nl (zdrop (skip_nl l) l) = 0.
Proof.
  induction l as [|c l IH]; [reflexivity|]. cbn [skip_nl].
  destruct ((c =? 10) || (c =? 13)) eqn:E.
  - rewrite zdrop_succ_cons by apply skip_nl_bounds. exact IH.
  - rewrite zdrop_0. cbn [skip_nl]. rewrite E. reflexivity.
Qed.

(* length of the terminator "\n\n" or "\n\r\n" that l starts with, 0 if there is none *)
Definition blank_len (l : bytes) : Z :=
  match l with
  | c :: c1 :: l2 =>
    if (c =? 10) && (c1 =? 10) then 2
    else match l2 with
         | c2 :: _ => if (c =? 10) && (c1 =? 13) && (c2 =? 10) then 3 else 0
         | [] => 0
         end
  | _ => 0
  end.

Lemma find_blank_cons c l i :
  find_blank (c :: l) i =
    if blank_len (c :: l) =? 0 then find_blank l (i + 1)
    else Some (i, i + blank_len (c :: l) + skip_nl (zdrop (blank_len (c :: l)) (c :: l))).
Proof.
  destruct l as [|c1 [|c2 l3]]; cbn [find_blank blank_len];
    (destruct (c =? 10); [cbn [andb]|reflexivity]).
  - reflexivity.
  - destruct (c1 =? 10); reflexivity.
  - destruct (c1 =? 10); [reflexivity|]. destruct ((c1 =? 13) && (c2 =? 10)); reflexivity.
Qed.

Lemma blank_len_bounds l : blank_len l <> 0 -> 2 <= blank_len l <= zlen l.
Proof.
  destruct l as [|c [|c1 l2]]; cbn [blank_len]; try congruence.
  rewrite !zlen_cons. pose proof (zlen_nonneg l2).
  destruct ((c =? 10) && (c1 =? 10)); [lia|].
  destruct l2 as [|c2 l3]; [congruence|]. rewrite zlen_cons. pose proof (zlen_nonneg l3).
  destruct ((c =? 10) && (c1 =? 13) && (c2 =? 10)); [lia|congruence].
Qed.

(* a terminator at the head stays; its absence stays once three bytes are there *)
Lemma blank_len_app l d' : blank_len l <> 0 \/ 3 <= zlen l -> blank_len (l ++ d') = blank_len l.
Proof.
  destruct l as [|c [|c1 [|c2 l3]]]; cbn [app blank_len].
  - intros [H|H]; [congruence|cbn in H; lia].
  - intros [H|H]; [congruence|cbn in H; lia].
  - destruct ((c =? 10) && (c1 =? 10)); [reflexivity|]. intros [H|H]; [congruence|cbn in H; lia].
  - reflexivity.
Qed.

Lemma blank_len_0 c l : blank_len (c :: l) = 0 -> c <> 10 \/ forall t, l <> 10 :: t.
Proof.
  intros H. destruct (Z.eq_dec c 10) as [->|Hc]; [right|left; exact Hc].
  intros t ->. discriminate H.
Qed.

Lemma blank_len_nocr l : ~ In 13 l -> blank_len l <> 0 -> exists l2, l = 10 :: 10 :: l2.
Proof.
  intros Hcr. destruct l as [|c [|c1 l2]]; cbn [blank_len]; try congruence.
  destruct ((c =? 10) && (c1 =? 10)) eqn:E.
  - apply andb_true_iff in E as [Ec E1]. apply Z.eqb_eq in Ec, E1. subst c c1. intros _. exists l2. reflexivity.
  - destruct l2 as [|c2 l3]; [congruence|].
    destruct ((c =? 10) && (c1 =? 13) && (c2 =? 10)) eqn:E2; [|congruence].
    apply andb_true_iff in E2 as [E2 _]. apply andb_true_iff in E2 as [_ E2]. apply Z.eqb_eq in E2. subst c1.
    exfalso. apply Hcr. right. left. reflexivity.
Qed.

Definition shift2 (j : Z) (o : option (Z * Z)) : option (Z * Z) :=
  match o with Some (a, b) => Some (a + j, b + j) | None => None end.

Lemma find_blank_shift l : forall i j, find_blank l (i + j) = shift2 j (find_blank l i).
Proof.
  induction l as [|c l IH]; intros i j; [reflexivity|]. rewrite !find_blank_cons.
  destruct (blank_len (c :: l) =? 0).
  - replace (i + j + 1) with (i + 1 + j) by lia. apply IH.
  - cbn [shift2]. f_equal. f_equal; lia.
Qed.

Lemma find_blank_bounds l : forall i en i', find_blank l i = Some (en, i') ->
  i <= en /\ en + 2 <= i' /\ i' <= i + zlen l.
Proof.
  induction l as [|c l IH]; intros i en i' H; [discriminate|]. rewrite find_blank_cons in H.
  destruct (blank_len (c :: l) =? 0) eqn:E.
  - apply IH in H. rewrite zlen_cons. lia.
  - apply Z.eqb_neq, blank_len_bounds in E. set (n := blank_len (c :: l)) in *.
    injection H as <- <-. pose proof (skip_nl_bounds (zdrop n (c :: l))) as Hs.
    rewrite zlen_zdrop in Hs by lia. lia.
Qed.

Lemma find_blank_rest l : forall i en i', find_blank l i = Some (en, i') ->
  skip_nl (zdrop (i' - i) l) = 0.
Proof.
  induction l as [|c l IH]; intros i en i' H; [discriminate|]. rewrite find_blank_cons in H.
  destruct (blank_len (c :: l) =? 0) eqn:E.
  - pose proof (find_blank_bounds _ _ _ _ H) as Hb.
    replace (i' - i) with (1 + (i' - (i + 1))) by lia. rewrite zdrop_succ_cons by lia. exact (IH _ _ _ H).
  - apply Z.eqb_neq, blank_len_bounds in E. set (n := blank_len (c :: l)) in *. injection H as <- <-.
    pose proof (skip_nl_bounds (zdrop n (c :: l))).
    replace (i + n + skip_nl (zdrop n (c :: l)) - i) with (n + skip_nl (zdrop n (c :: l))) by lia.
    rewrite zdrop_zdrop by lia. apply skip_nl_idem.
Qed.

(* more data behind: a blank line found stays found where it is, and the newlines skipped after
   it are those of the longer data *)
Lemma find_blank_app_skip l d' : forall i en i', find_blank l i = Some (en, i') ->
  find_blank (l ++ d') i = Some (en, i' + skip_nl (zdrop (i' - i) (l ++ d'))).
Proof.
  induction l as [|c l IH]; intros i en i' H; [discriminate|].
  pose proof (find_blank_bounds _ _ _ _ H) as Hb. rewrite zlen_cons in Hb.
  rewrite find_blank_cons in H. cbn [app]. rewrite find_blank_cons.
  change (c :: l ++ d') with ((c :: l) ++ d').
  destruct (blank_len (c :: l) =? 0) eqn:E.
  - pose proof (find_blank_bounds _ _ _ _ H) as Hb'.
    rewrite blank_len_app, E by (right; rewrite zlen_cons; lia). rewrite (IH _ _ _ H).
    replace (i' - i) with (1 + (i' - (i + 1))) by lia. cbn [app]. rewrite zdrop_succ_cons by lia. reflexivity.
  - pose proof E as E'. apply Z.eqb_neq in E'. rewrite blank_len_app, E by (left; exact E').
    apply blank_len_bounds in E'. set (n := blank_len (c :: l)) in *. injection H as <- <-.
    pose proof (skip_nl_bounds (zdrop n (c :: l))).
    replace (i + n + skip_nl (zdrop n (c :: l)) - i) with (n + skip_nl (zdrop n (c :: l))) by lia.
    rewrite zdrop_zdrop, (zdrop_app_le n), (skip_nl_app (zdrop n (c :: l)) d') by lia.
    f_equal. f_equal. lia.
Qed.

Lemma find_blank_app l d' : forall i en i', find_blank l i = Some (en, i') ->
  exists k, 0 <= k /\ find_blank (l ++ d') i = Some (en, i' + k) /\
    Forall (fun c => is_nl c = true) (ztake k (zdrop (i' - i) (l ++ d'))).
Proof.
  intros i en i' H. exists (skip_nl (zdrop (i' - i) (l ++ d'))).
  split; [apply skip_nl_bounds|]. split; [exact (find_blank_app_skip l d' i en i' H)|apply skip_nl_run].
Qed.

Lemma find_blank_app_lt l d' : forall i en i', find_blank l i = Some (en, i') ->
  i' < i + zlen l -> find_blank (l ++ d') i = Some (en, i').
Proof.
  intros i en i' H Hlt. pose proof (find_blank_bounds _ _ _ _ H) as Hb.
  rewrite (find_blank_app_skip l d' i en i' H), zdrop_app_le by lia.
  rewrite skip_nl_app_lt; rewrite (find_blank_rest l i en i' H).
  - rewrite Z.add_0_r. reflexivity.
  - rewrite zlen_zdrop by lia. lia.
Qed.

Definition blank_pure (d : bytes) (e : bool) : raw :=
  if e && nilb d then (0, None, None) else
  let i := skip_nl d in
  if zlen d <=? i then (i, None, None) else
  match find_blank (zdrop i d) i with
  | Some (en, i') =>
      if (zlen d <=? i') && negb e then (0, None, None) else
      (i', Some (strip_last 13 (ztake (en - i) (zdrop i d))), Some (ztake (i' - en) (zdrop en d)))
  | None =>
      if e then
        let tok := strip_last 13 (strip_last 10 (zdrop i d)) in
        (zlen d, Some tok, Some (zdrop (i + zlen tok) d))
      else (0, None, None)
  end.

Lemma blank_scan_closed d e : blank_scan d e = Ok (blank_pure d e).
Proof.
  unfold blank_scan, blank_pure. rewrite zlen_eqb_0.
  destruct (e && nilb d); [reflexivity|].
  pose proof (skip_nl_bounds d) as Hi.
  destruct (zlen d <=? skip_nl d) eqn:Hall; [reflexivity|]. apply Z.leb_gt in Hall.
  destruct (find_blank (zdrop (skip_nl d) d) (skip_nl d)) as [[en i']|] eqn:Hf.
  - apply find_blank_bounds in Hf. rewrite zlen_zdrop in Hf by lia.
    destruct ((zlen d <=? i') && negb e); [reflexivity|].
    rewrite slice_ok by lia. cbn [rbind]. rewrite slice_ok by lia. cbn [rbind].
    unfold drop_cr. rewrite drop_last_ok. reflexivity.
  - destruct e; [|reflexivity].
    rewrite slice_ok by lia. cbn [rbind].
    rewrite ztake_all by (rewrite zlen_zdrop by lia; lia).
    unfold drop_lf, drop_cr. rewrite drop_last_ok. cbn [rbind]. rewrite drop_last_ok. cbn [rbind].
    set (tok := strip_last 13 (strip_last 10 (zdrop (skip_nl d) d))).
    assert (skip_nl d + zlen tok <= zlen d).
    { unfold tok. pose proof (zlen_strip_last 13 (strip_last 10 (zdrop (skip_nl d) d))).
      pose proof (zlen_strip_last 10 (zdrop (skip_nl d) d)). rewrite zlen_zdrop in * by lia. lia. }
    pose proof (zlen_nonneg tok).
    rewrite slice_ok by lia. cbn [rbind].
    rewrite ztake_all by (rewrite zlen_zdrop by lia; lia).
    reflexivity.
Qed.

(* RS = "" as goawk sees it: tokens ($0, RT); RT default "" is always overwritten *)
Definition blank_full : splitfn unit record := to_split [] blank_scan.

Definition full_of (st : unit) (r : raw) : sres unit record :=
  match r with
  | (adv, tok, rtw) => SOk adv (option_map (fun t => (t, match rtw with Some r => r | None => [] end)) tok) st
  end.

Lemma blank_full_closed st d e : blank_full st d e = full_of st (blank_pure d e).
Proof.
  unfold blank_full, to_split. rewrite blank_scan_closed.
  destruct (blank_pure d e) as [[adv tok] rtw]. reflexivity.
Qed.

Notation fshift := (shift unit record).

Lemma blank_full_nl st c x : is_nl c = true -> blank_full st (c :: x) true = fshift 1 (blank_full st x true).
Proof.
  (* e stands for atEOF = true and is kept abstract, so that both sides keep the shape of blank_pure *)
  intros Hc. set (e := true). rewrite !blank_full_closed. unfold blank_pure.
  cbn [nilb skip_nl]. unfold is_nl in Hc. rewrite Hc. rewrite andb_false_r.
  replace (negb e) with false by reflexivity.
  pose proof (skip_nl_bounds x) as Hi. rewrite zlen_cons.
  destruct (e && nilb x) eqn:Hex.
  - apply andb_true_iff in Hex as [_ Hx]. apply nilb_true in Hx. subst x.
    cbn [skip_nl]. rewrite zlen_nil. reflexivity.
  - assert (Hleb : (1 + zlen x <=? 1 + skip_nl x) = (zlen x <=? skip_nl x))
      by (destruct (Z.leb_spec (zlen x) (skip_nl x)); [apply Z.leb_le|apply Z.leb_gt]; lia).
    rewrite Hleb. destruct (Z.leb_spec (zlen x) (skip_nl x)) as [_|Hall]; [reflexivity|].
    rewrite zdrop_succ_cons by lia.
    replace (1 + skip_nl x) with (skip_nl x + 1) by lia. rewrite find_blank_shift.
    destruct (find_blank (zdrop (skip_nl x) x) (skip_nl x)) as [[en i']|] eqn:Hf; cbn [shift2].
    + apply find_blank_bounds in Hf. rewrite !andb_false_r.
      cbn [full_of option_map shift].
      replace (i' + 1 - (en + 1)) with (i' - en) by lia.
      replace (i' + 1) with (1 + i') by lia.
      replace (en + 1 - (skip_nl x + 1)) with (en - skip_nl x) by lia.
      replace (en + 1) with (1 + en) by lia. rewrite zdrop_succ_cons by lia. reflexivity.
    + subst e. cbn [full_of option_map shift].
      set (tok := strip_last 13 (strip_last 10 (zdrop (skip_nl x) x))). pose proof (zlen_nonneg tok).
      replace (skip_nl x + 1 + zlen tok) with (1 + (skip_nl x + zlen tok)) by lia.
      rewrite zdrop_succ_cons by lia. reflexivity.
Qed.

Lemma blank_full_skips st p : Forall (fun c => is_nl c = true) p -> skips unit record blank_full st p.
Proof.
  induction 1 as [|c p Hc Hp IH]; [apply skips_nil|].
  intros x. cbn [app]. rewrite blank_full_nl by exact Hc. rewrite IH, shift_shift.
  rewrite zlen_cons. reflexivity.
Qed.

Lemma full_of_ok st (d : bytes) adv tok rtw : 0 <= adv <= zlen d -> (tok <> None -> 0 < adv) ->
  exists adv' tok' st', full_of st (adv, tok, rtw) = SOk adv' tok' st' /\
    0 <= adv' <= zlen d /\ (tok' <> None -> 0 < adv').
Proof.
  intros Hb Hp. eexists _, _, _. split; [reflexivity|]. split; [exact Hb|].
  intros Ht. apply Hp. destruct tok; [discriminate|]. exfalso. apply Ht. reflexivity.
Qed.

Lemma blank_full_wb : wb unit record blank_full.
Proof.
  split.
  - intros st d e. rewrite blank_full_closed. unfold blank_pure.
    pose proof (skip_nl_bounds d) as Hi.
    destruct (e && nilb d); [apply full_of_ok; [lia|congruence]|].
    destruct (zlen d <=? skip_nl d) eqn:Hall; [apply full_of_ok; [lia|congruence]|].
    apply Z.leb_gt in Hall.
    destruct (find_blank (zdrop (skip_nl d) d) (skip_nl d)) as [[en i']|] eqn:Hf.
    + apply find_blank_bounds in Hf. rewrite zlen_zdrop in Hf by lia.
      destruct ((zlen d <=? i') && negb e); apply full_of_ok; try congruence; lia.
    + destruct e; apply full_of_ok; try congruence; lia.
  - intros st. rewrite blank_full_closed. reflexivity.
Qed.

Lemma blank_full_tok st d adv t st' : blank_full st d false = SOk adv (Some t) st' ->
  forall d', blank_full st (d ++ d') true = SOk adv (Some t) st'.
Proof.
  intros Hs d'. rewrite blank_full_closed in Hs. rewrite blank_full_closed.
  unfold blank_pure in *. cbn [andb negb] in Hs.
  pose proof (skip_nl_bounds d) as Hi.
  destruct (zlen d <=? skip_nl d) eqn:Hall; [discriminate|]. apply Z.leb_gt in Hall.
  destruct (find_blank (zdrop (skip_nl d) d) (skip_nl d)) as [[en i']|] eqn:Hf; [|discriminate].
  rewrite andb_true_r in Hs.
  destruct (zlen d <=? i') eqn:Htouch; [discriminate|]. apply Z.leb_gt in Htouch.
  cbn [full_of option_map] in Hs. injection Hs as <- <- <-.
  assert (Hnn : nilb (d ++ d') = false) by (destruct d; [cbn in Hall; lia|reflexivity]).
  rewrite Hnn. cbn [andb negb]. rewrite skip_nl_app_lt by exact Hall.
  rewrite zlen_app. pose proof (zlen_nonneg d').
  replace (zlen d + zlen d' <=? skip_nl d) with false by (symmetry; apply Z.leb_gt; lia).
  rewrite zdrop_app_le by lia.
  rewrite (find_blank_app_lt _ d' _ _ _ Hf) by (rewrite zlen_zdrop by lia; lia).
  apply find_blank_bounds in Hf. rewrite zlen_zdrop in Hf by lia.
  rewrite andb_false_r.
  cbn [full_of option_map].
  rewrite (ztake_app_le (en - skip_nl d)) by (rewrite zlen_zdrop by lia; lia).
  rewrite (zdrop_app_le en) by lia.
  rewrite (ztake_app_le (i' - en)) by (rewrite zlen_zdrop by lia; lia).
  reflexivity.
Qed.

Lemma blank_full_more st d adv st' : blank_full st d false = SOk adv None st' ->
  forall d', blank_full st (d ++ d') true = fshift adv (blank_full st' (zdrop adv d ++ d') true).
Proof.
  intros Hs d'. rewrite blank_full_closed in Hs.
  unfold blank_pure in Hs. cbn [andb negb] in Hs.
  pose proof (skip_nl_bounds d) as Hi.
  destruct (zlen d <=? skip_nl d) eqn:Hall.
  - apply Z.leb_le in Hall. cbn [full_of option_map] in Hs. injection Hs as <- <-.
    replace (skip_nl d) with (zlen d) by lia.
    rewrite (blank_full_skips st d (skip_nl_all d Hall)).
    rewrite zdrop_all by lia. reflexivity.
  - destruct (find_blank (zdrop (skip_nl d) d) (skip_nl d)) as [[en i']|] eqn:Hf.
    + rewrite andb_true_r in Hs. destruct (zlen d <=? i'); [|discriminate].
      cbn [full_of option_map] in Hs. injection Hs as <- <-. rewrite shift_0, zdrop_0. reflexivity.
    + cbn [full_of option_map] in Hs. injection Hs as <- <-. rewrite shift_0, zdrop_0. reflexivity.
Qed.

Theorem blank_full_stable : stable unit record blank_full.
Proof. exact (stable_exact _ _ _ blank_full_wb blank_full_tok blank_full_more). Qed.

Lemma to_split_rec_map rs f : forall st d e,
  to_split_rec f st d e = map_sres unit record bytes fst (to_split rs f st d e).
Proof.
  intros st d e. unfold to_split_rec, to_split.
  destruct (f d e) as [[[adv tok] rtw]| | |]; try reflexivity.
  destruct tok; reflexivity.
Qed.

Definition blank_rec : splitfn unit bytes := to_split_rec blank_scan.

Theorem blank_rec_stable : stable unit bytes blank_rec.
Proof.
  exact (stable_map unit record bytes fst blank_full blank_rec (to_split_rec_map [] blank_scan) blank_full_stable).
Qed.

Lemma wb_of_rec rs f : wb unit bytes (to_split_rec f) -> wb unit record (to_split rs f).
Proof. exact (proj2 (wb_map unit record bytes fst _ _ (to_split_rec_map rs f))). Qed.

(* the token loop over the whole remaining input: it passes over a newline character, and at a
   record byte cuts at the first blank line *)
Notation blank_drain := (drainF unit record blank_full true tt).

Lemma blank_drain_nil : blank_drain [] = ([], DMore tt []).
Proof. rewrite (drainF_wb _ _ _ blank_full_wb), blank_full_closed. reflexivity. Qed.

Lemma blank_drain_nl c x : is_nl c = true -> blank_drain (c :: x) = blank_drain x.
Proof.
  intros Hc. apply (skips_drain _ _ _ blank_full_wb tt [c]).
  apply blank_full_skips. constructor; [exact Hc|constructor].
Qed.

Lemma blank_drain_skip l : blank_drain (zdrop (skip_nl l) l) = blank_drain l.
Proof.
  pose proof (skips_drain _ _ _ blank_full_wb tt _ (blank_full_skips tt _ (skip_nl_run l))
                (zdrop (skip_nl l) l)) as H.
  rewrite ztake_zdrop in H. symmetry. exact H.
Qed.

Lemma blank_drain_head c x : is_nl c = false ->
  blank_drain (c :: x) =
    match find_blank (c :: x) 0 with
    | Some (en, i') =>
        tcons unit record (strip_last 13 (ztake en (c :: x)), ztake (i' - en) (zdrop en (c :: x)))
          (blank_drain (zdrop i' (c :: x)))
    | None =>
        let t := strip_last 13 (strip_last 10 (c :: x)) in ([(t, zdrop (zlen t) (c :: x))], DMore tt [])
    end.
Proof.
  intros Hc. rewrite (drainF_wb _ _ _ blank_full_wb), blank_full_closed. unfold blank_pure.
  cbn [nilb skip_nl negb]. unfold is_nl in Hc. rewrite Hc. rewrite !andb_false_r.
  pose proof (zlen_nonneg x).
  replace (zlen (c :: x) <=? 0) with false by (symmetry; apply Z.leb_gt; rewrite zlen_cons; lia).
  rewrite zdrop_0. destruct (find_blank (c :: x) 0) as [[en i']|].
  - rewrite andb_false_r. cbn [full_of option_map]. rewrite Z.sub_0_r. reflexivity.
  - cbn [full_of option_map]. rewrite (zdrop_all (zlen (c :: x))) by lia. rewrite blank_drain_nil. reflexivity.
Qed.

Lemma blank_full_consumes d : ~ In 13 d ->
  concat (map (fun t => fst t ++ snd t) (fst (blank_drain d))) = zdrop (skip_nl d) d.
Proof.
  induction d as [d IH] using list_len_ind. intros Hcr.
  destruct d as [|c x]; [rewrite blank_drain_nil; reflexivity|].
  cbn [skip_nl]. fold (is_nl c). destruct (is_nl c) eqn:Hc.
  - rewrite (blank_drain_nl c x Hc). rewrite zdrop_succ_cons by apply skip_nl_bounds.
    apply IH; [cbn [length]; lia|]. intro Hx. apply Hcr. right. exact Hx.
  - rewrite (blank_drain_head c x Hc), zdrop_0.
    destruct (find_blank (c :: x) 0) as [[en i']|] eqn:Hf.
    + pose proof (find_blank_bounds _ _ _ _ Hf) as Hb.
      pose proof (find_blank_rest _ _ _ _ Hf) as Hrest. rewrite Z.sub_0_r in Hrest.
      cbn [tcons fst snd map concat]. rewrite IH.
      * rewrite Hrest, zdrop_0.
        rewrite strip_last_notin by (intro Hx; apply Hcr; exact (in_ztake _ _ _ Hx)).
        rewrite <- ztake_add by lia. replace (en + (i' - en)) with i' by lia.
        apply ztake_zdrop.
      * apply length_zdrop_lt; lia.
      * intro Hx. apply Hcr. exact (in_zdrop _ _ _ Hx).
    + cbn [fst snd map concat]. rewrite app_nil_r.
      rewrite (strip_last_notin 13) by (intro Hx; apply Hcr; exact (in_strip_last _ _ _ Hx)).
      apply strip_last_zdrop.
Qed.

(* RS = "", whole input at once, no CR: the leading newlines, then each record followed by its
   RT, reproduce the input *)
Theorem blank_reconstruct find data : ~ In 13 data ->
  ztake (skip_nl data) data ++
  concat (map (fun t => fst t ++ snd t) (fst (reference unit record (goawk_split [] find) tt data))) = data.
Proof.
  intros Hcr. unfold reference, finish. change (goawk_split [] find) with blank_full. cbn [fst].
  rewrite (blank_full_consumes data Hcr). apply ztake_zdrop.
Qed.
