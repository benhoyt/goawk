(* C09: parseFmtTypes is total; the run-time errors; sprintf never panics and
   the modelled fmt.Sprintf never runs out of fuel. *)
From Verif Require Import Lib.Base Lib.Dyadic Lib.Utf8 Model.Printf
  Proofs.PrintfSpec Proofs.Utf8Facts Proofs.PrintfBase Proofs.PrintfDir Proofs.PrintfScan.

(* what parseFmtTypes guarantees about the recorded '*' precisions:
   each TyP has its offset, the offsets point at two bytes inside the format, they
   increase by at least 2, and a TyP is always followed by the type of its conversion *)
Fixpoint stars_ok (ts : list ty) (st : list Z) (lo len : Z) : Prop :=
  match ts with
  | [] => st = []
  | TyP :: ts' =>
      match st with
      | [] => False
      | off :: st' => lo <= off /\ off + 2 <= len /\ ts' <> [] /\ stars_ok ts' st' (off + 2) len
      end
  | _ :: ts' => stars_ok ts' st lo len
  end.

Lemma stars_ok_weaken ts : forall st lo lo' len, stars_ok ts st lo len -> lo' <= lo -> stars_ok ts st lo' len.
Proof.
  induction ts as [|t r IH]; intros st lo lo' len H L; [exact H|].
  destruct t; cbn [stars_ok] in *; try (eapply IH; eassumption).
  destruct st as [|off st']; [exact H|]. destruct H as (A & B & C & D). repeat split; try assumption. lia.
Qed.

Definition lo_of (m : pmode) (pos : Z) : Z := match m with PDot => pos - 1 | _ => pos end.

Definition pft_post (m : pmode) (pos : Z) (r : res pres) : Prop :=
  match r with
  | Ok (g, ts, st) => stars_ok ts st (lo_of m pos) (pos + zlen g) /\ (m = PPrecDone -> ts <> [])
  | Err e => e = err_expected \/ exists c, e = err_invalid c
  | Panic | Unmod => False
  end.

Lemma verb_info_not_p c c' t' : verb_info c = Some (c', t') -> t' <> TyP.
Proof.
  unfold verb_info. intros H.
  repeat match type of H with (if ?b then _ else _) = _ => destruct b end; try discriminate;
    injection H as _ <-; discriminate.
Qed.

Lemma lo_of_bounds m pos : pos - 1 <= lo_of m pos <= pos.
Proof. destruct m; cbn [lo_of]; lia. Qed.

(* what one byte can record: nothing, or the int of a '*' width; the '*' of a precision,
   right after the '.'; the type of the conversion, which ends the specification *)
Lemma pft_step_kinds m pos c m' l tys sts : pft_step m pos c = Some (m', l, tys, sts) ->
  1 <= zlen l /\
  ((tys = [] \/ tys = [TyD]) /\ sts = [] /\ m <> PPrecDone
   \/ m = PDot /\ m' = PPrecDone /\ zlen l = 1 /\ tys = [TyP] /\ sts = [pos - 1]
   \/ exists t', tys = [t'] /\ t' <> TyP /\ sts = [] /\ m' = PLit).
Proof.
  assert (V : forall hp, verb_step hp c = Some (m', l, tys, sts) ->
              1 <= zlen l /\ exists t', tys = [t'] /\ t' <> TyP /\ sts = [] /\ m' = PLit).
  { intros hp. unfold verb_step. destruct (verb_info c) as [[c' t']|] eqn:Hv; [|discriminate].
    intros [= <- <- <- <-]. split; [destruct (_ && _); cbn; lia|].
    exists t'. pose proof (verb_info_not_p _ _ _ Hv). auto. }
  destruct m; cbn [pft_step]; intros H;
    repeat match type of H with (if ?b then _ else _) = _ => destruct b end;
    try (destruct (V _ H) as [L K]; split; [exact L | right; right; exact K]);
    injection H as <- <- <- <-; (split; [reflexivity|]);
    try (left; split; [auto | split; [reflexivity | discriminate]]).
  right; left. repeat split; reflexivity.
Qed.

Lemma pft_post_step m pos c m' l tys sts r : pft_step m pos c = Some (m', l, tys, sts) ->
  pft_post m' (pos + zlen l) r -> pft_post m pos (prepend l tys sts r).
Proof.
  intros Hs H. destruct (pft_step_kinds _ _ _ _ _ _ _ Hs) as [Hl K].
  destruct r as [[[g ts] st]|e| |]; cbn [prepend pft_post] in *; try exact H.
  destruct H as [H Q]. rewrite zlen_app, Z.add_assoc.
  pose proof (lo_of_bounds m pos). pose proof (lo_of_bounds m' (pos + zlen l)).
  assert (S : stars_ok ts st (lo_of m pos) (pos + zlen l + zlen g))
    by (apply (stars_ok_weaken _ _ _ _ _ H); lia).
  destruct K as [(Ht & -> & Hm) | [(-> & -> & L1 & -> & ->) | (t' & -> & Ht' & -> & ->)]].
  - split; [destruct Ht as [-> | ->]; exact S | intros E; contradiction].
  - split; [|discriminate]. cbn [app stars_ok lo_of] in *. pose proof (zlen_nonneg g).
    repeat split; try lia; [exact (Q eq_refl)|].
    replace (pos - 1 + 2) with (pos + zlen l) by lia. exact H.
  - split; [destruct t'; try exact S; congruence | discriminate].
Qed.

Lemma pft_inv s : forall m pos, pft_post m pos (pft m pos s).
Proof.
  induction s as [|c t IH]; intros m pos.
  - destruct m; cbn [pft pft_post stars_ok]; auto. split; [reflexivity | discriminate].
  - rewrite pft_cons. destruct (pft_step m pos c) as [[[[m' l] tys] sts]|] eqn:Hs.
    + apply (pft_post_step _ _ _ _ _ _ _ _ Hs), IH.
    + right. exists c. reflexivity.
Qed.

(* parseFmtTypes is total: one of two format errors, or a translated format with consistent bookkeeping *)
Theorem fmt_parse_total s :
  (exists e, parse_fmt_types s = Err e /\ (e = err_expected \/ exists c, e = err_invalid c)) \/
  (exists g ts st, parse_fmt_types s = Ok (g, ts, st) /\ stars_ok ts st 0 (zlen g)).
Proof.
  unfold parse_fmt_types. pose proof (pft_inv s PLit 0) as H.
  destruct (pft PLit 0 s) as [[[g ts] st]|e| |]; cbn [pft_post lo_of] in H; try contradiction.
  - right. exists g, ts, st. split; [reflexivity|]. rewrite Z.add_0_l in H. exact (proj1 H).
  - left. exists e. auto.
Qed.

Theorem too_few_args_error chars ffmt s g ts st args :
  parse_fmt_types s = Ok (g, ts, st) -> zlen args < zlen ts ->
  sprintf chars ffmt s args = Err (err_args (zlen args) (zlen ts)).
Proof.
  intros H L. unfold sprintf. rewrite H.
  replace (zlen ts >? zlen args) with true by lia. reflexivity.
Qed.

(* parsing is compositional after a complete prefix *)
Lemma pft_app a : forall m pos b ga ta sa, pft m pos a = Ok (ga, ta, sa) ->
  pft m pos (a ++ b) = prepend ga ta sa (pft PLit (pos + zlen ga) b).
Proof.
  induction a as [|c t IH]; intros m pos b ga ta sa H.
  - destruct m; cbn [pft] in H; try discriminate. injection H as <- <- <-. cbn [app].
    rewrite zlen_nil, Z.add_0_r, prepend_nil. reflexivity.
  - cbn [app]. rewrite pft_cons in H |- *.
    destruct (pft_step m pos c) as [[[[m' l] tys] sts]|]; [|discriminate].
    destruct (pft m' (pos + zlen l) t) as [[[g0 t0] s0]| | |] eqn:E; try discriminate.
    injection H as <- <- <-. rewrite (IH _ _ b _ _ _ E), prepend_prepend, zlen_app, Z.add_assoc. reflexivity.
Qed.

Lemma pft_pct pre gp tp sp X : pft PLit 0 pre = Ok (gp, tp, sp) ->
  pft PLit 0 (pre ++ 37 :: X) = prepend (gp ++ [37]) tp sp (pft PPct (zlen gp + 1) X).
Proof.
  intros Hp. rewrite (pft_app pre PLit 0 _ gp tp sp Hp), pft_cons. cbn [pft_step Z.eqb Pos.eqb].
  rewrite prepend_prepend, !app_nil_r. reflexivity.
Qed.

(* the byte after a specification prefix is no conversion character: a run-time error,
   after any accepted prefix of the format.  [is_verb_pos] says that the byte cannot
   continue the specification (it is not a further flag / digit / '*' / '.' where one
   may stand): this covers the unknown conversions as well as flags, '*' and '.' that
   come after the width or the precision (%5-d, %.3.2f, %*5d, %5*d) *)
Theorem unknown_verb_error chars ffmt pre gp tp sp fl w p c rest args :
  parse_fmt_types pre = Ok (gp, tp, sp) ->
  forallb is_flag fl = true -> wf_w w = true -> wf_p p = true ->
  verb_info c = None -> is_verb_pos (mode_wp w p) c = true ->
  (fl = [] -> w = WNone -> p = PrNone -> (c =? 37) = false) ->
  sprintf chars ffmt (pre ++ 37 :: spec_text fl w p ++ c :: rest) args = Err (s_fmterr ++ err_invalid c).
Proof.
  intros Hp Hfl Hw Hpp Hv Hpos H37. unfold sprintf, parse_fmt_types in *. rewrite (pft_pct _ _ _ _ _ Hp).
  rewrite pft_pct_flags by (apply spec_head; assumption).
  rewrite (pft_spec _ _ _ _ _ Hfl Hw Hpp), pft_cons, (pft_step_verb _ _ _ Hpos). unfold verb_step. rewrite Hv. reflexivity.
Qed.

(* a format ending inside a conversion specification: a run-time error *)
Theorem incomplete_spec_error chars ffmt pre gp tp sp fl w p args :
  parse_fmt_types pre = Ok (gp, tp, sp) ->
  forallb is_flag fl = true -> wf_w w = true -> wf_p p = true ->
  sprintf chars ffmt (pre ++ 37 :: spec_text fl w p) args = Err (s_fmterr ++ err_expected).
Proof.
  intros Hp Hfl Hw Hpp. unfold sprintf, parse_fmt_types in *. rewrite (pft_pct _ _ _ _ _ Hp).
  rewrite <- (app_nil_r (spec_text fl w p)).
  rewrite pft_pct_flags by (apply spec_head; try assumption; intros; exact I).
  rewrite (pft_spec _ _ _ _ _ Hfl Hw Hpp).
  assert (E : mode_wp w p <> PLit) by (destruct p as [|[|? ?]|]; try discriminate; destruct w; discriminate).
  destruct (mode_wp w p); try reflexivity. congruence.
Qed.

Lemma print_arg_ok f a verb : (exists o, print_arg f a verb = Ok o) \/ print_arg f a verb = Unmod.
Proof.
  destruct a; cbn [print_arg]; eauto.
  repeat match goal with |- context [if ?b then _ else _] => destruct b end; eauto.
Qed.

Lemma go_flags_len s : forall f, (length (snd (go_flags s f)) <= length s)%nat.
Proof.
  induction s as [|c t IH]; intros f; cbn [go_flags]; [cbn; lia|].
  repeat match goal with |- context [if ?b then _ else _] => destruct b end;
    try (etransitivity; [apply IH|cbn [length]; lia]); cbn [snd length]; lia.
Qed.

Lemma parsenum_len s : forall n b, (length (snd (parsenum s n b)) <= length s)%nat.
Proof.
  induction s as [|c t IH]; intros n b; cbn [parsenum]; [cbn; lia|].
  destruct (is_digit c); [|cbn; lia]. destruct (too_large n); [cbn; lia|].
  etransitivity; [apply IH|cbn [length]; lia].
Qed.

Definition not_bad {A} (r : res A) : Prop := match r with Panic | Err _ => False | _ => True end.

Lemma go_directive_shape s args :
  match go_directive s args with
  | Ok (_, rest, _, _) => (length rest <= length s)%nat
  | Unmod => True
  | Err _ | Panic => False
  end.
Proof.
  unfold go_directive. pose proof (go_flags_len s f0) as H1. destruct (go_flags s f0) as [f s1]. cbn [snd] in H1.
  destruct (starts_bracket s1); [exact I|].
  assert (H2 : (length (snd (fst (go_width f s1 args))) <= length s1)%nat).
  { destruct s1 as [|c t]; [cbn; lia|].
    destruct (Z.eq_dec c 42) as [->|N].
    - rewrite go_width_star. destruct (int_from_arg args) as [[n o] a']. cbn [fst snd length]. lia.
    - rewrite go_width_other by exact N. pose proof (parsenum_len (c :: t) 0 false) as P.
      destruct (parsenum (c :: t) 0 false) as [[num ok] r]. cbn [fst snd] in *. exact P. }
  destruct (go_width f s1 args) as [[[out1 f2] s2] args2]. cbn [fst snd] in H2.
  assert (H3 : match go_prec f2 s2 args2 with Ok (_, _, s3, _) => (length s3 <= length s2)%nat | Unmod => True | _ => False end).
  { destruct s2 as [|c t]; [cbn; lia|]. destruct (Z.eq_dec c 46) as [->|N].
    - destruct t as [|c1 t1]; [cbn; lia|]. destruct (Z.eq_dec c1 42) as [->|N42].
      + rewrite go_prec_star. destruct (int_from_arg args2) as [[n o] a']. destruct (n <? 0); cbn [length]; lia.
      + destruct (Z.eq_dec c1 91) as [->|N91]; [exact I|].
        rewrite go_prec_lit by assumption. pose proof (parsenum_len (c1 :: t1) 0 false) as P.
        destruct (parsenum (c1 :: t1) 0 false) as [[num ok] r]. cbn [snd] in P. cbn [length] in *. lia.
    - rewrite go_prec_none by exact N. lia. }
  destruct (go_prec f2 s2 args2) as [[[[out2 f3] s3] args3]| | |]; try contradiction; [|exact I].
  unfold go_verb. destruct (starts_bracket s3); [exact I|]. destruct s3 as [|verb rest]; [cbn; lia|].
  destruct (128 <=? verb); [exact I|]. destruct (verb =? 37); [cbn [length] in *; lia|].
  destruct args3 as [|a args']; [cbn [length] in *; lia|].
  destruct (print_arg_ok f3 a verb) as [[o ->]| ->]; [cbn [length] in *; lia | exact I].
Qed.

Lemma go_extra_ok args : not_bad (go_extra args).
Proof.
  assert (H : forall l, not_bad (extra_items l)).
  { induction l as [|a r IH]; cbn [extra_items]; [exact I|].
    destruct (print_arg_ok f0 a 118) as [[o ->]| ->]; [|exact I].
    destruct (extra_items r); try contradiction; exact I. }
  unfold go_extra. destruct args as [|a r]; [exact I|]. specialize (H (a :: r)).
  destruct (extra_items (a :: r)); try contradiction; exact I.
Qed.

Lemma span_lit_len s : (length (snd (span_lit s)) <= length s)%nat.
Proof.
  induction s as [|c t IH]; cbn [span_lit]; [cbn; lia|]. destruct (c =? 37); [cbn; lia|].
  destruct (span_lit t) as [l r]. cbn [snd length] in *. lia.
Qed.

Lemma go_printf_ok fuel : forall s args, (length s < fuel)%nat -> not_bad (go_printf fuel s args).
Proof.
  induction fuel as [|k IH]; intros s args Hf; [lia|]. cbn [go_printf].
  pose proof (span_lit_len s) as HL. destruct (span_lit s) as [lit r]. cbn [snd] in HL.
  destruct r as [|c r1].
  - pose proof (go_extra_ok args) as E. destruct (go_extra args); try contradiction; exact I.
  - pose proof (go_directive_shape r1 args) as D.
    destruct (go_directive r1 args) as [[[[out rest] args'] stop]| | |]; try contradiction; [|exact I].
    destruct stop.
    + pose proof (go_extra_ok args') as E. destruct (go_extra args'); try contradiction; exact I.
    + assert (Hk : (length rest < k)%nat) by (cbn [length] in HL; lia).
      specialize (IH rest args' Hk). destruct (go_printf k rest args'); try contradiction; exact I.
Qed.

(* fmt.Sprintf as modelled returns a string or declines (float text): never a
   panic, never out of fuel *)
Theorem go_sprintf_total s args : (exists o, go_sprintf s args = Ok o) \/ go_sprintf s args = Unmod.
Proof.
  unfold go_sprintf. pose proof (go_printf_ok (S (length s)) s args ltac:(lia)) as H.
  destruct (go_printf (S (length s)) s args); try contradiction; eauto.
Qed.

Definition no_panic {A} (r : res A) : Prop := match r with Panic => False | _ => True end.

(* both at once: no panic, and no error either unless [e] allows one *)
Definition res_ok (e : bool) {A} (r : res A) : Prop :=
  match r with Panic => False | Err _ => e = true | _ => True end.

Lemma res_ok_no_panic {A} (r : res A) : res_ok true r <-> no_panic r.
Proof. destruct r; cbn; tauto. Qed.

Lemma res_ok_not_bad {A} (r : res A) : res_ok false r <-> not_bad r.
Proof. destruct r; cbn; intuition discriminate. Qed.

Lemma res_ok_bind e {A B} (r : res A) (k : A -> res B) :
  res_ok e r -> (forall a, res_ok e (k a)) -> res_ok e (rbind r k).
Proof. destruct r; cbn [rbind res_ok]; auto. Qed.

Lemma conv_arg_ok e chars ffmt t a : (forall x, res_ok e (ffmt x)) -> res_ok e (conv_arg chars ffmt t a).
Proof.
  intros Hf.
  assert (Hs : res_ok e (v_str ffmt a)).
  { destruct a; cbn [v_str]; try exact I. unfold num_str. destruct x as [|[]|m e0]; try exact I.
    destruct (feq _ _); [exact I | apply Hf]. }
  destruct t; cbn [conv_arg]; try exact I.
  - apply res_ok_bind; [exact Hs | intros; exact I].
  - apply res_ok_bind; [|intros; exact I]. unfold conv_c. destruct (v_is_true_str a) as [n isstr].
    destruct isstr; [|destruct chars; exact I]. apply res_ok_bind; [exact Hs|]. intros [|b0 t0]; [exact I|].
    destruct chars; [|exact I].
    pose proof (decode_rune_width (b0 :: t0) ltac:(discriminate)) as W. rewrite slice_ok by lia. exact I.
Qed.

Lemma slice_ok_len {A} (s : list A) lo hi : 0 <= lo -> lo <= hi -> hi <= zlen s ->
  exists r, slice s lo hi = Ok r /\ zlen r = hi - lo.
Proof.
  intros A0 A1 A2. eexists. split; [apply slice_ok; assumption|].
  rewrite zlen_ztake; [lia|]. rewrite zlen_zdrop by lia. lia.
Qed.

Lemma cons_arg_ok e g r : res_ok e r -> res_ok e (cons_arg g r).
Proof. destruct r as [[fm gs]| | |]; intros H; exact H. Qed.

Lemma conv_args_ok e chars ffmt ts : forall args i fm st rm lo len, (forall x, res_ok e (ffmt x)) ->
  0 <= i -> i + zlen ts <= zlen args ->
  stars_ok ts st lo len -> 0 <= rm <= lo -> zlen fm = len - rm ->
  res_ok e (conv_args chars ffmt ts args i fm st rm).
Proof.
  induction ts as [|t r IH]; intros args i fm st rm lo len Hf Hi Hl Hs Hrm Hfm; cbn [conv_args]; [exact I|].
  rewrite zlen_cons in Hl. pose proof (zlen_nonneg r).
  destruct (index_ok args i ltac:(lia)) as (a & -> & _). cbn [rbind].
  assert (Other : stars_ok r st lo len ->
            res_ok e (do g <- conv_arg chars ffmt t a; cons_arg g (conv_args chars ffmt r args (i + 1) fm st rm))).
  { intros Hs'. apply res_ok_bind; [apply conv_arg_ok; exact Hf|]. intros g.
    apply cons_arg_ok. apply (IH args (i + 1) fm st rm lo len Hf); try assumption; lia. }
  destruct t; try (apply Other; exact Hs).
  cbn [stars_ok] in Hs. destruct st as [|off st']; [contradiction|]. destruct Hs as (A & B & C & D).
  destruct (f2i64 (v_num a) <? 0).
  - destruct r as [|t2 r2]; [congruence|].
    assert (Hslice : res_ok e (do f1 <- slice fm 0 (off - rm); do f2 <- slice fm (off - rm + 2) (zlen fm);
                               conv_args chars ffmt (t2 :: r2) args (i + 1) (f1 ++ f2) st' (rm + 2))).
    { destruct (slice_ok_len fm 0 (off - rm) ltac:(lia) ltac:(lia) ltac:(lia)) as (f1 & -> & L1).
      destruct (slice_ok_len fm (off - rm + 2) (zlen fm) ltac:(lia) ltac:(lia) ltac:(lia)) as (f2 & -> & L2).
      cbn [rbind]. apply (IH args (i + 1) (f1 ++ f2) st' (rm + 2) (off + 2) len Hf); try assumption; try lia.
      rewrite zlen_app. lia. }
    destruct t2; try exact Hslice.
    apply cons_arg_ok. apply (IH args (i + 1) fm st' rm (off + 2) len Hf); try assumption; lia.
  - apply cons_arg_ok. apply (IH args (i + 1) fm st' rm (off + 2) len Hf); try assumption; lia.
Qed.

(* sprintf never panics, and its only errors are the format errors *)
Lemma sprintf_ok e chars ffmt format args : (forall x, res_ok e (ffmt x)) ->
  match sprintf chars ffmt format args with
  | Panic => False
  | Err m => e = true \/ (exists c, m = s_fmterr ++ err_invalid c) \/ m = s_fmterr ++ err_expected \/
             exists got want, got < want /\ m = err_args got want
  | _ => True
  end.
Proof.
  intros Hf. unfold sprintf. pose proof (pft_inv format PLit 0) as T. unfold parse_fmt_types.
  destruct (pft PLit 0 format) as [[[g ts] st]|e0| |]; cbn [pft_post lo_of] in T; try contradiction.
  2:{ right. destruct T as [->|[c ->]]; eauto. }
  destruct T as [T _]. rewrite Z.add_0_l in T.
  destruct (zlen ts >? zlen args) eqn:E; rewrite Z.gtb_ltb in E.
  { apply Z.ltb_lt in E. right. right. right. eauto. }
  apply Z.ltb_ge in E.
  pose proof (conv_args_ok e chars ffmt ts args 0 g st 0 0 (zlen g) Hf ltac:(lia) ltac:(lia) T ltac:(lia) ltac:(lia)) as P.
  destruct (conv_args chars ffmt ts args 0 g st 0) as [[fm gs]| | |]; cbn [rbind res_ok] in *; try contradiction; auto.
  cbn [fst snd]. destruct (go_sprintf_total fm gs) as [[o ->]| ->]; exact I.
Qed.

Theorem sprintf_no_panic chars ffmt format args :
  (forall x, no_panic (ffmt x)) -> no_panic (sprintf chars ffmt format args).
Proof.
  intros Hf. pose proof (sprintf_ok true chars ffmt format args (fun x => proj2 (res_ok_no_panic _) (Hf x))) as H.
  destruct (sprintf chars ffmt format args); try exact I. exact H.
Qed.

Theorem sprintf_errors chars ffmt format args e :
  (forall x, not_bad (ffmt x)) -> sprintf chars ffmt format args = Err e ->
  (exists c, e = s_fmterr ++ err_invalid c) \/ e = s_fmterr ++ err_expected \/
  exists got want, got < want /\ e = err_args got want.
Proof.
  intros Hf He. pose proof (sprintf_ok false chars ffmt format args (fun x => proj2 (res_ok_not_bad _) (Hf x))) as H.
  rewrite He in H. destruct H as [H|H]; [discriminate | exact H].
Qed.
