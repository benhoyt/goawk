(* C10: the executable regex engine Lib/Regex (the one the correspondence check runs)
   satisfies every hypothesis the regex-builtin theorems make about the engine, so those
   theorems hold without hypotheses for the executable model [match_re / sub_re / split_re]. *)
From Verif Require Import Lib.Base Lib.Dyadic Lib.Utf8 Lib.Regex Model.Builtins Model.BuiltinsRegex
  Proofs.Utf8Facts Proofs.BuiltinsBytes Proofs.BuiltinsUtf8 Proofs.BuiltinsRegex.

(* hypothesis ff_step: a match that is not the empty match at pos covers the first character *)
Theorem find_from_step r s pos a b :
  0 <= pos <= zlen s -> find_from r s pos = Some (a, b) -> b <> pos ->
  pos + snd (decode_rune (zdrop pos s)) <= b.
Proof.
  intros Hp H Hne. unfold find_from in H.
  assert (zdrop pos s = [] \/ zdrop pos s <> []) as [He|Hx]
    by (destruct (zdrop pos s); [left; reflexivity|right; discriminate]).
  - rewrite He, runes_nil in H. cbn [search longest] in H.
    destruct (nullable (pos =? 0) (is_nil []) r); [injection H as <- <-; congruence|discriminate].
  - rewrite (runes_cons _ Hx) in H.
    destruct (search_boundary _ _ _ _ _ H) as (ka & kb & H0 & H1 & H2 & -> & ->).
    destruct (Z.eq_dec kb 0) as [->|N]; [exfalso; apply Hne; cbn; lia|].
    pose proof (decode_rune_width _ Hx) as Hw. rewrite ztake_cons, zlen_concat_cons, zlen_ztake by lia.
    pose proof (zlen_nonneg (concat (ztake (kb - 1) (runes (zdrop (snd (decode_rune (zdrop pos s))) (zdrop pos s)))))). lia.
Qed.

Theorem find_on_rune_boundaries r s a b :
  find_from r s 0 = Some (a, b) -> on_rune_boundaries s a b.
Proof.
  unfold find_from. rewrite zdrop_0. intros H.
  destruct (search_boundary _ _ _ _ _ H) as (ka & kb & H0 & H1 & H2 & Ha & Hb).
  exists ka, kb. repeat split; try lia.
Qed.

(* the generic loop instantiated with the engine is Lib/Regex's FindAllStringIndex *)
Lemma all_matches_gen_is_all_matches r s : all_matches_gen (find_from r) s = Regex.all_matches r s.
Proof.
  unfold all_matches_gen, Regex.all_matches.
  generalize (S (S (length s))) as fuel, 0 as pos, (-1) as pe.
  induction fuel as [|f IH]; intros pos pe; cbn [all_matches_loop all_matches_fuel]; [reflexivity|].
  destruct (pos >? zlen s); [reflexivity|]. destruct (find_from r s pos) as [[a b]|]; [|reflexivity].
  rewrite IH. reflexivity.
Qed.

(* the theorems for the executable model, no hypotheses left *)
Theorem match_substr_re r chars s a b :
  go_len s -> find r s = Some (a, b) ->
  exists rstart rlength,
    match_re r chars s = Ok (rstart, rlength) /\
    (if chars then substr_len_chars else substr_len_bytes) s (FFin rstart 0) (FFin rlength 0)
      = Ok (sub_str s a b) /\
    slice s a b = Ok (sub_str s a b).
Proof.
  intros Hl Hf. apply (match_substr (find_from r) (find_from_bounds r) chars s a b Hl Hf).
  intros _. apply (find_on_rune_boundaries r s a b Hf).
Qed.

Theorem match_none_re r chars s : find r s = None -> match_re r chars s = Ok (0, -1).
Proof. apply match_none. Qed.

Theorem ascii_match_re r s : is_ascii s = true -> match_re r true s = match_re r false s.
Proof. apply ascii_match, find_from_bounds. Qed.

Theorem gsub_spec_re r repl s :
  sub_re r true repl s = Ok (weave s (expand_repl repl) (Regex.all_matches r s) 0, zlen (Regex.all_matches r s)).
Proof.
  unfold sub_re. rewrite (gsub_spec _ (find_from_bounds r) (find_from_step r)), all_matches_gen_is_all_matches.
  reflexivity.
Qed.

Theorem gsub_amp_identity_re r s : sub_re r true [38] s = Ok (s, zlen (Regex.all_matches r s)).
Proof.
  unfold sub_re. rewrite (gsub_amp_identity _ (find_from_bounds r) (find_from_step r)), all_matches_gen_is_all_matches.
  reflexivity.
Qed.

Theorem sub_is_first_of_gsub_re r repl s :
  sub_re r false repl s =
  Ok (weave s (expand_repl repl) (firstn 1 (Regex.all_matches r s)) 0, Z.min 1 (zlen (Regex.all_matches r s))).
Proof.
  unfold sub_re. rewrite (sub_is_first_of_gsub _ (find_from_bounds r) (find_from_step r)), all_matches_gen_is_all_matches.
  reflexivity.
Qed.

Theorem split_re_no_panic r sep isre s : exists n arr, split_re r sep isre s = Ok (n, arr).
Proof.
  unfold split_re, builtin_split, split_parts.
  destruct (negb isre && bytes_eqb sep [32]); [cbn [rbind]; eauto|].
  destruct (is_nil s); [cbn [rbind]; eauto|].
  destruct (negb isre && (rune_count sep <=? 1)); [cbn [rbind]; eauto|].
  destruct (re_split_no_panic (find_from r) (find_from_bounds r) true s) as [l Hl].
  rewrite Hl. cbn [rbind]. eauto.
Qed.

(* packaged statements used by Properties/C10.v *)
Theorem chars_mode_safe s x y : valid_utf8 s = true ->
  (exists r, substr_chars s x = Ok r /\ valid_utf8 r = true) /\
  (exists r, substr_len_chars s x y = Ok r /\ valid_utf8 r = true).
Proof. intros H. split; [exact (substr_chars_safe s x H)|exact (substr_len_chars_safe s x y H)]. Qed.

Theorem ascii_modes_agree s : is_ascii s = true ->
  (forall x, substr_chars s x = substr_bytes s x) /\
  (forall x y, substr_len_chars s x y = substr_len_bytes s x y) /\
  (forall t, builtin_index true s t = builtin_index false s t) /\
  builtin_length true s = builtin_length false s /\
  (forall ff, engine_bounds ff -> builtin_match ff true s = builtin_match ff false s).
Proof.
  intros H. split; [|split; [|split; [|split]]].
  - intros x. exact (ascii_substr s x H).
  - intros x y. exact (ascii_substr_len s x y H).
  - intros t. exact (ascii_index s t H).
  - exact (ascii_length s H).
  - intros ff Hb. exact (ascii_match ff Hb s H).
Qed.

Theorem engine_hypotheses_hold r :
  engine_bounds (find_from r) /\ engine_step (find_from r) /\
  (forall s a b, find r s = Some (a, b) -> on_rune_boundaries s a b) /\
  (forall s, all_matches_gen (find_from r) s = all_matches r s).
Proof.
  split; [exact (find_from_bounds r)|]. split; [exact (find_from_step r)|].
  split; [exact (find_on_rune_boundaries r)|exact (all_matches_gen_is_all_matches r)].
Qed.

Theorem sub_gsub_re r repl s :
  sub_re r false repl s =
  Ok (weave s (expand_repl repl) (firstn 1 (all_matches r s)) 0, Z.min 1 (zlen (all_matches r s))) /\
  sub_re r true repl s =
  Ok (weave s (expand_repl repl) (all_matches r s) 0, zlen (all_matches r s)).
Proof. split; [exact (sub_is_first_of_gsub_re r repl s)|exact (gsub_spec_re r repl s)]. Qed.
