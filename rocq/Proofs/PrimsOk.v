(* C01: the equations between primitives on which the compiler's shortcuts rely.
   Each is a fact about the interpreter's value operations (two Go code sites that must
   agree, or an arithmetic identity); the compiler-correctness theorems take them as
   hypotheses, the harness tests each of them on the implementation (metamorphic probes),
   and [concat_indep] is the guard of the one known divergence (F-C01-3). *)
From Verif Require Import Lib.Base Model.Ast Model.Instr Model.Compiler Model.Prims.

Section PrimsOk.
  Variables value St err : Type.
  Variable P : prims value St err.

  (* v and w are interchangeable as array subscripts *)
  Definition keq (v w : value) : Prop :=
    (forall s sc i, p_array_get P s sc i v = p_array_get P s sc i w) /\
    (forall s sc i x, p_array_set P s sc i v x = p_array_set P s sc i w x) /\
    (forall s sc i, p_array_in P s sc i v = p_array_in P s sc i w) /\
    (forall s sc i, p_array_del P s sc i v = p_array_del P s sc i w) /\
    (forall s pre post, p_index_multi P s (pre ++ v :: post) = p_index_multi P s (pre ++ w :: post)).

  Record prims_ok : Prop := {
    (* boolean(b).boolean() = b *)
    ok_bool : forall b, p_to_bool P (p_of_bool P b) = b;
    (* the fused jumps compare exactly like the comparison opcodes (vm.go:384-442 vs 509-603) *)
    ok_cmpj : forall c s l r, p_cmpj P c s l r = p_cmp P c s l r;
    (* != is the negation of == (also for NaN) *)
    ok_ne : forall s l r, p_cmp P CNe s l r = negb (p_cmp P CEq s l r);
    (* augAssignOp computes what the binary opcodes compute (vm.go:1297-1320 vs 352-382) *)
    ok_aug : forall op l r, p_aug P op l r = p_arith P op l r;
    (* x + 1 and x - 1 are what Incr* adds *)
    ok_incr_add : forall v, p_arith P AAdd v (p_num P one_bits) = EOk (p_incr P 1 v);
    ok_incr_sub : forall v, p_arith P ASub v (p_num P one_bits) = EOk (p_incr P (-1) v);
    ok_incr_plus : forall a v, p_incr P a (p_plus P v) = p_incr P a v;
    (* $i with a small integer constant *)
    ok_fieldint : forall b n s, fieldint_of b = Some n -> p_get_field_int P s n = p_get_field P s (p_num P b);
    (* @"name" with a string constant *)
    ok_named_str : forall s t, p_get_named_str P s t = p_get_named P s (p_str P t);
    (* an integral numeric constant as a subscript is its decimal string *)
    ok_key : forall b t, int_index_str b = Some t -> keq (p_num P b) (p_str P t);
    (* ConcatMulti joins like nested Concat (in one state) *)
    ok_concat_multi : forall s v w vs,
      p_concat_multi P s (v :: w :: vs) = fold_left (p_concat P s) vs (p_concat P s v w)
  }.

  (* guard of F-C01-3: string conversion inside concatenation does not depend on state
     changes made while later operands of the same chain are evaluated *)
  Definition concat_indep : Prop :=
    forall s s' v w, p_concat P s v w = p_concat P s' v w.

  Lemma keq_refl v : keq v v.
  Proof. repeat split; reflexivity. Qed.

  Lemma fold_concat_indep : concat_indep ->
    forall s s' l a, fold_left (p_concat P s) l a = fold_left (p_concat P s') l a.
  Proof.
    intros CI s s' l. induction l as [|x l IH]; intros a; cbn [fold_left]; [reflexivity|].
    rewrite (CI s s'). apply IH.
  Qed.

End PrimsOk.

Arguments keq {value St err}.
Arguments prims_ok {value St err}.
Arguments concat_indep {value St err}.
Arguments keq_refl {value St err}.
Arguments fold_concat_indep {value St err P}.
Arguments ok_bool {value St err P}.
Arguments ok_cmpj {value St err P}.
Arguments ok_ne {value St err P}.
Arguments ok_aug {value St err P}.
Arguments ok_incr_add {value St err P}.
Arguments ok_incr_sub {value St err P}.
Arguments ok_incr_plus {value St err P}.
Arguments ok_fieldint {value St err P}.
Arguments ok_named_str {value St err P}.
Arguments ok_key {value St err P}.
Arguments ok_concat_multi {value St err P}.
