(* C04 — a fuel-free (big-step, relational) view of the parser model, derived from the
   executable functions by fuel monotonicity: "Parses l pc pend ts R" = for some (hence every
   larger) fuel, p_lv returns POk R. *)
From Verif Require Import Lib.Base Model.ExprAst Model.ExprParser Proofs.ExprParserMono.
Local Open Scope nat_scope.

Definition Parses (l : lvl) (pc : bool) (pend : option expr) (ts : list tok) (R : expr * list tok) : Prop :=
  exists n, p_lv n l pc pend ts = POk R.
Definition Afters (l : lvl) (pc : bool) (e : expr) (ts : list tok) (R : expr * list tok) : Prop :=
  exists n, after n l pc e ts = POk R.
Definition Prim (ts : list tok) (R : expr * list tok) : Prop :=
  exists n, primary n None ts = POk R.
Definition OptLv (ts : list tok) (R : option expr * list tok) : Prop :=
  exists n, opt_lvalue n ts = POk R.
Definition ExprList (pc first : bool) (ts : list tok) (R : list expr * list tok) : Prop :=
  exists n, exprlist n pc first ts = POk R.
Definition UArgs (first : bool) (ts : list tok) (R : list expr * list tok) : Prop :=
  exists n, ucall_args n first ts = POk R.
Definition RegexStr (l : lvl) (pc : bool) (ts : list tok) (R : expr * list tok) : Prop :=
  exists n, regex_str n l pc ts = POk R.
Definition Builtin (f : bfn) (ts : list tok) (R : expr * list tok) : Prop :=
  exists n, builtin n f ts = POk R.

Lemma le_res_ok {A} (a b : pres A) r : le_res a b -> a = POk r -> b = POk r.
Proof. intros [-> | ->]; [discriminate | auto]. Qed.

Section Mono.
Variables (n m : nat).
Hypothesis Hnm : (n <= m)%nat.
Lemma p_lv_mono l pc pend ts r : p_lv n l pc pend ts = POk r -> p_lv m l pc pend ts = POk r.
Proof. apply le_res_ok. apply (mono n m Hnm). Qed.
Lemma after_mono l pc e ts r : after n l pc e ts = POk r -> after m l pc e ts = POk r.
Proof. apply le_res_ok. apply (mono n m Hnm). Qed.
Lemma regex_str_mono l pc ts r : regex_str n l pc ts = POk r -> regex_str m l pc ts = POk r.
Proof. apply le_res_ok. apply (mono n m Hnm). Qed.
Lemma primary_mono pend ts r : primary n pend ts = POk r -> primary m pend ts = POk r.
Proof. apply le_res_ok. apply (mono n m Hnm). Qed.
Lemma opt_lvalue_mono ts r : opt_lvalue n ts = POk r -> opt_lvalue m ts = POk r.
Proof. apply le_res_ok. apply (mono n m Hnm). Qed.
Lemma exprlist_mono pc first ts r : exprlist n pc first ts = POk r -> exprlist m pc first ts = POk r.
Proof. apply le_res_ok. apply (mono n m Hnm). Qed.
Lemma ucall_args_mono first ts r : ucall_args n first ts = POk r -> ucall_args m first ts = POk r.
Proof. apply le_res_ok. apply (mono n m Hnm). Qed.
Lemma builtin_mono f ts r : builtin n f ts = POk r -> builtin m f ts = POk r.
Proof. apply le_res_ok. apply (mono n m Hnm). Qed.
End Mono.

(* p_lv l = p_lv (higher l) ; after l.  Two results with their own fuels are brought to the larger
   fuel; every lemma below with two premises starts in this way.  getline() drops a pending command. *)
Lemma parses_step l pc pend ts e ts' R :
  l <> LPrimary -> (l = LGetline -> pend = None) ->
  Parses (higher pc l) pc pend ts (e, ts') -> Afters l pc e ts' R -> Parses l pc pend ts R.
Proof.
  intros Hl Hg [n1 H1] [n2 H2]. exists (S (Nat.max n1 n2)).
  apply (p_lv_mono _ _ (Nat.le_max_l n1 n2)) in H1. apply (after_mono _ _ (Nat.le_max_r n1 n2)) in H2.
  rewrite p_lv_S. destruct l; try congruence; try rewrite (Hg eq_refl) in *;
    cbn [higher] in *; rewrite H1; exact H2.
Qed.

Lemma parses_all_fuel l pc pend ts R : Parses l pc pend ts R ->
  exists n0, forall n, n0 <= n -> p_lv n l pc pend ts = POk R.
Proof. intros [n0 H]. exists n0. intros n Hn. exact (p_lv_mono _ _ Hn _ _ _ _ _ H). Qed.

Lemma parses_prim pc ts R : Prim ts R -> Parses LPrimary pc None ts R.
Proof. intros [n H]. exists (S n). rewrite p_lv_S. exact H. Qed.

Lemma prim_of_parses pc ts R : Parses LPrimary pc None ts R -> Prim ts R.
Proof. intros [[|n] H]; [discriminate|]. exists n. rewrite p_lv_S in H. exact H. Qed.

Definition rk (l : lvl) : nat :=
  match l with
  | LExpr => 0 | LGetline => 1 | LCond => 2 | LOr => 3 | LAnd => 4 | LIn => 5 | LMatch => 6
  | LCompare => 7 | LConcat => 8 | LAdd => 9 | LMul => 10 | LPow => 11 | LPostIncr => 12 | LPrimary => 13
  end.

(* 1 + the highest level (rank) whose suffix code consumes the token when it follows a complete
   operand; 0 if no level does.  In the print tower `>` is not a comparison and getline() is not called. *)
Definition tok_cont (pc : bool) (t : tok) : nat :=
  match t with
  | TAssign | TAddAssign | TDivAssign | TModAssign | TMulAssign | TPowAssign | TSubAssign => 1
  | TPipe => if pc then 0 else 2
  | TQuestion => 3
  | TOr => 4
  | TAnd => 5
  | TIn => 6
  | TMatch | TNotMatch => 7
  | TEquals | TNotEquals | TLess | TLte | TGte => 8
  | TGreater => if pc then 0 else 8
  | TDollar | TAt | TNot | TName _ | TNumber _ | TString _ | TLParen true | TFunc _ => 9
  | TAdd | TSub => 10
  | TMul | TDiv | TMod => 11
  | TPow => 12
  | TIncr | TDecr => 13
  | TLParen false | TLBracket => 14
  | _ => 0
  end.

Definition hd_tok (ts : list tok) : tok := match ts with t :: _ => t | [] => TSemicolon end.

Lemma tok_cont_true_le t : (tok_cont true t <= tok_cont false t)%nat.
Proof. destruct t; cbn; try lia; destruct sp; lia. Qed.

Lemma afters_stop l pc e ts :
  (tok_cont pc (hd_tok ts) <= rk l)%nat -> (l = LGetline -> pc = false) ->
  Afters l pc e ts (e, ts).
Proof.
  intros H Hg. exists 1%nat.
  (* most pairs of a level and a token compute to the answer; the hypothesis is looked at for the rest *)
  destruct l; try reflexivity; (destruct ts as [|t r]; [reflexivity|]); destruct t; try reflexivity;
    cbn [hd_tok tok_cont rk] in H; try lia.
  all: try (destruct sp; cbn in H; try lia; reflexivity).
  all: try (destruct pc; cbn in H |- *; try lia; try reflexivity).
  all: specialize (Hg eq_refl); discriminate.
Qed.

(* the left-associative loop levels with an operator token: the level whose suffix code loops on the
   operator, the level that reads its right operand, and the token.  || and && skip newlines after the
   token; the printed right operands do not start with one. *)
Definition loop_of (op : binop) : option (lvl * lvl * tok) :=
  match op with
  | BOr => Some (LOr, LAnd, TOr) | BAnd => Some (LAnd, LIn, TAnd)
  | BAdd => Some (LAdd, LMul, TAdd) | BSub => Some (LAdd, LMul, TSub)
  | BMul => Some (LMul, LPow, TMul) | BDiv => Some (LMul, LPow, TDiv) | BMod => Some (LMul, LPow, TMod)
  | _ => None
  end.

Lemma aft_loop op lj lh t pc e r rgt ts' R :
  loop_of op = Some (lj, lh, t) -> skip_nl r = r ->
  Parses lh pc None r (rgt, ts') -> Afters lj pc (EBinary op e rgt) ts' R ->
  Afters lj pc e (t :: r) R.
Proof.
  intros Hop Hs [n1 H1] [n2 H2]. exists (S (Nat.max n1 n2)).
  apply (p_lv_mono _ _ (Nat.le_max_l n1 n2)) in H1. apply (after_mono _ _ (Nat.le_max_r n1 n2)) in H2.
  destruct op; inversion Hop; subst; cbn [after add_op mul_op]; rewrite ?Hs, H1; exact H2.
Qed.

Lemma aft_loop_concat pc e t r rgt ts' R :
  concat_start t = true ->
  Parses LAdd pc None (t :: r) (rgt, ts') -> Afters LConcat pc (EBinary BConcat e rgt) ts' R ->
  Afters LConcat pc e (t :: r) R.
Proof.
  intros Hs [n1 H1] [n2 H2]. exists (S (Nat.max n1 n2)).
  apply (p_lv_mono _ _ (Nat.le_max_l n1 n2)) in H1. apply (after_mono _ _ (Nat.le_max_r n1 n2)) in H2.
  cbn [after]. rewrite Hs, H1. cbn [pbind]. exact H2.
Qed.

Lemma aft_loop_in pc e a r R :
  Afters LIn pc (EIn [e] a) r R -> Afters LIn pc e (TIn :: TName a :: r) R.
Proof. intros [n H]. exists (S n). cbn [after]. exact H. Qed.

Lemma aft_pow pc e r rgt ts' :
  Parses LPow pc None r (rgt, ts') -> Afters LPow pc e (TPow :: r) (EBinary BPow e rgt, ts').
Proof. intros [n H]. exists (S n). cbn [after]. rewrite H. reflexivity. Qed.

Lemma aft_cmp pc e t op r rgt ts' :
  cmp_op pc t = Some op ->
  Parses LConcat pc None r (rgt, ts') -> Afters LCompare pc e (t :: r) (EBinary op e rgt, ts').
Proof. intros Hc [n H]. exists (S n). cbn [after]. rewrite Hc, H. reflexivity. Qed.

Lemma aft_match pc e r rgt ts' :
  RegexStr LCompare pc r (rgt, ts') -> Afters LMatch pc e (TMatch :: r) (EBinary BMatch e rgt, ts').
Proof. intros [n H]. exists (S n). cbn [after]. rewrite H. reflexivity. Qed.

Lemma aft_notmatch pc e r rgt ts' :
  RegexStr LCompare pc r (rgt, ts') -> Afters LMatch pc e (TNotMatch :: r) (EBinary BNotMatch e rgt, ts').
Proof. intros [n H]. exists (S n). cbn [after]. rewrite H. reflexivity. Qed.

Lemma regex_str_lit l pc s r : RegexStr l pc (TRegex s :: r) (EStrRegex s, r).
Proof. exists 1%nat. apply regex_str_S. Qed.

Lemma regex_str_expr l pc ts R :
  (match ts with TRegex _ :: _ | TDiv :: _ | TDivAssign :: _ => False | _ => True end) ->
  Parses l pc None ts R -> RegexStr l pc ts R.
Proof.
  intros Hh [n H]. exists (S n). rewrite regex_str_S.
  destruct ts as [|t r]; [exact H|]. destruct t; try exact H; contradiction.
Qed.

Lemma aft_cond pc e r t ts1 f ts2 :
  Parses LExpr pc None (skip_nl r) (t, TColon :: ts1) ->
  Parses LExpr pc None (skip_nl ts1) (f, ts2) ->
  Afters LCond pc e (TQuestion :: r) (ECond e t f, ts2).
Proof.
  intros [n1 H1] [n2 H2]. exists (S (Nat.max n1 n2)).
  apply (p_lv_mono _ _ (Nat.le_max_l n1 n2)) in H1. apply (p_lv_mono _ _ (Nat.le_max_r n1 n2)) in H2.
  cbn [after]. rewrite H1. cbn [pbind]. rewrite H2. reflexivity.
Qed.

Lemma aft_assign pc e t op r rgt ts' :
  assign_op t = Some op -> is_lvalue e = true ->
  Parses LExpr pc None r (rgt, ts') ->
  Afters LExpr pc e (t :: r) (make_assign e op rgt, ts').
Proof.
  intros Ha Hl [n H]. exists (S n). cbn [after]. rewrite Ha.
  assert (Hn : is_named_field e = false) by (destruct e; cbn in Hl |- *; congruence).
  rewrite Hn, H. cbn [pbind]. rewrite Hl. reflexivity.
Qed.

Lemma aft_postincr pc e op t r :
  (t = TIncr /\ op = IIncr \/ t = TDecr /\ op = IDecr) -> is_lvalue e = true ->
  Afters LPostIncr pc e (t :: r) (EIncr op false e, r).
Proof. intros [[-> ->] | [-> ->]] Hl; exists 1%nat; cbn [after]; rewrite Hl; reflexivity. Qed.

Lemma prim_num s r : Prim (TNumber s :: r) (ENum s, r).
Proof. exists 1%nat. reflexivity. Qed.
Lemma prim_str s r : Prim (TString s :: r) (EStr s, r).
Proof. exists 1%nat. reflexivity. Qed.
Lemma prim_regex s r : Prim (TRegex s :: r) (ERegex s, r).
Proof. exists 1%nat. reflexivity. Qed.

Lemma prim_var pc s r :
  (tok_cont pc (hd_tok r) <= 13)%nat -> Prim (TName s :: r) (EVar s, r).
Proof.
  intros H. exists 1%nat. cbn [primary].
  destruct r as [|t r']; [reflexivity|]. destruct t; try reflexivity; cbn in H; try lia.
  destruct sp; cbn in H; try lia; reflexivity.
Qed.

Definition unop_tok (op : unop) : tok := match op with UNot => TNot | UPlus => TAdd | UMinus => TSub end.

Lemma prim_unary op r v r' :
  Parses LPow false None r (v, r') -> Prim (unop_tok op :: r) (EUnary op v, r').
Proof. intros [n H]. exists (S n). destruct op; cbn [primary unop_tok]; rewrite H; reflexivity. Qed.

Lemma prim_field r i r' :
  Prim r (i, r') -> (tok_cont false (hd_tok r') <= 12)%nat -> Prim (TDollar :: r) (EField i, r').
Proof.
  intros [n H] Hc. exists (S n). cbn [primary]. rewrite H. cbn [pbind].
  destruct r' as [|t r'']; [reflexivity|]. destruct t; try reflexivity; cbn in Hc; lia.
Qed.

Definition inc_tok (op : incop) : tok := match op with IIncr => TIncr | IDecr => TDecr end.

Lemma prim_field_postincr op r i r' :
  Prim r (i, inc_tok op :: r') -> Prim (TDollar :: r) (EIncr op false (EField i), r').
Proof. intros [n H]. exists (S n). cbn [primary]. rewrite H. destruct op; reflexivity. Qed.

Lemma prim_preincr op r x r' :
  OptLv r (Some x, r') -> Prim (inc_tok op :: r) (EIncr op true x, r').
Proof. intros [n H]. exists (S n). destruct op; cbn [primary inc_tok]; rewrite H; reflexivity. Qed.

Lemma prim_group sp r e r' :
  ExprList false true r ([e], TRParen :: r') -> Prim (TLParen sp :: r) (EGroup e, r').
Proof. intros [n H]. exists (S n). cbn [primary]. rewrite H. reflexivity. Qed.

Lemma prim_multi_in sp r e1 e2 es a r' :
  ExprList false true r (e1 :: e2 :: es, TRParen :: TIn :: TName a :: r') ->
  Prim (TLParen sp :: r) (EIn (e1 :: e2 :: es) a, r').
Proof. intros [n H]. exists (S n). cbn [primary]. rewrite H. reflexivity. Qed.

Lemma prim_index s r e es r' :
  ExprList false true r (e :: es, TRBracket :: r') ->
  Prim (TName s :: TLBracket :: r) (EIndex s (e :: es), r').
Proof. intros [n H]. exists (S n). cbn [primary]. rewrite H. reflexivity. Qed.

Lemma prim_ucall s r args r' :
  UArgs true r (args, TRParen :: r') ->
  Prim (TName s :: TLParen false :: r) (EUserCall s args, r').
Proof. intros [n H]. exists (S n). cbn [primary]. rewrite H. reflexivity. Qed.

Lemma prim_builtin f r R : Builtin f r R -> Prim (TFunc f :: r) R.
Proof. intros [n H]. exists (S n). exact H. Qed.

Lemma optlv_index s r e es r' :
  ExprList false true r (e :: es, TRBracket :: r') ->
  OptLv (TName s :: TLBracket :: r) (Some (EIndex s (e :: es)), r').
Proof. intros [n H]. exists (S n). cbn [opt_lvalue]. rewrite H. reflexivity. Qed.

Lemma optlv_field r i r' :
  Prim r (i, r') -> OptLv (TDollar :: r) (Some (EField i), r').
Proof. intros [n H]. exists (S n). cbn [opt_lvalue]. rewrite H. reflexivity. Qed.

Lemma exprlist_nil pc first ts : exprlist_stop ts = true -> ExprList pc first ts ([], ts).
Proof. intros H. exists 1%nat. rewrite exprlist_S, H. reflexivity. Qed.

Lemma exprlist_first pc ts e ts2 es ts3 :
  exprlist_stop ts = false ->
  Parses LExpr pc None ts (e, ts2) -> ExprList pc false ts2 (es, ts3) ->
  ExprList pc true ts (e :: es, ts3).
Proof.
  intros Hs [n1 H1] [n2 H2]. exists (S (Nat.max n1 n2)).
  apply (p_lv_mono _ _ (Nat.le_max_l n1 n2)) in H1. apply (exprlist_mono _ _ (Nat.le_max_r n1 n2)) in H2.
  rewrite exprlist_S, Hs. cbn [pbind]. rewrite H1. cbn [pbind]. rewrite H2. reflexivity.
Qed.

Lemma exprlist_next pc ts e ts2 es ts3 :
  Parses LExpr pc None (skip_nl ts) (e, ts2) -> ExprList pc false ts2 (es, ts3) ->
  ExprList pc false (TComma :: ts) (e :: es, ts3).
Proof.
  intros [n1 H1] [n2 H2]. exists (S (Nat.max n1 n2)).
  apply (p_lv_mono _ _ (Nat.le_max_l n1 n2)) in H1. apply (exprlist_mono _ _ (Nat.le_max_r n1 n2)) in H2.
  rewrite exprlist_S. cbn [exprlist_stop comma_nl pbind]. rewrite H1. cbn [pbind]. rewrite H2. reflexivity.
Qed.

Lemma uargs_nil first r : UArgs first (TRParen :: r) ([], TRParen :: r).
Proof. exists 1%nat. apply ucall_args_S. Qed.

Lemma uargs_first ts e ts2 es ts3 :
  (match ts with TNewline :: _ | TRParen :: _ => False | _ => True end) ->
  Parses LExpr false None ts (e, ts2) -> UArgs false ts2 (es, ts3) ->
  UArgs true ts (e :: es, ts3).
Proof.
  intros Hs [n1 H1] [n2 H2]. exists (S (Nat.max n1 n2)).
  apply (p_lv_mono _ _ (Nat.le_max_l n1 n2)) in H1. apply (ucall_args_mono _ _ (Nat.le_max_r n1 n2)) in H2.
  rewrite ucall_args_S.
  destruct ts as [|t r]; [|destruct t; try contradiction];
    cbn [pbind]; rewrite H1; cbn [pbind]; rewrite H2; reflexivity.
Qed.

Lemma uargs_next ts e ts2 es ts3 :
  Parses LExpr false None (skip_nl ts) (e, ts2) -> UArgs false ts2 (es, ts3) ->
  UArgs false (TComma :: ts) (e :: es, ts3).
Proof.
  intros [n1 H1] [n2 H2]. exists (S (Nat.max n1 n2)).
  apply (p_lv_mono _ _ (Nat.le_max_l n1 n2)) in H1. apply (ucall_args_mono _ _ (Nat.le_max_r n1 n2)) in H2.
  rewrite ucall_args_S. cbn [comma_nl pbind]. rewrite H1. cbn [pbind]. rewrite H2. reflexivity.
Qed.

(* the level function whose higher() call l is: it is resumed when l returns *)
Definition lower (pc : bool) (l : lvl) : option lvl :=
  match l with
  | LExpr => None
  | LGetline => if pc then None else Some LExpr
  | LCond => Some (if pc then LExpr else LGetline)
  | LOr => Some LCond | LAnd => Some LOr | LIn => Some LAnd | LMatch => Some LIn | LCompare => Some LMatch
  | LConcat => Some LCompare | LAdd => Some LConcat | LMul => Some LAdd | LPow => Some LMul
  | LPostIncr => Some LPow | LPrimary => Some LPostIncr
  end.

Lemma lower_higher pc l l' : lower pc l = Some l' -> higher pc l' = l /\ l' <> LPrimary /\ rk l' < rk l.
Proof. destruct l, pc; cbn; intros H; inversion H; subst; cbn; repeat split; try congruence; lia. Qed.

(* PF pc k l e ts R: inside the call of level k, the nested call of level l has returned (e, ts);
   running the remaining suffix code of the levels below l down to k yields R *)
Inductive PF (pc : bool) (k : lvl) : lvl -> expr -> list tok -> expr * list tok -> Prop :=
| PF_done e ts : PF pc k k e ts (e, ts)
| PF_step l l' e ts e1 ts1 R :
    lower pc l = Some l' -> Afters l' pc e ts (e1, ts1) -> PF pc k l' e1 ts1 R -> PF pc k l e ts R.

Lemma parses_via pc k l ts0 e ts R :
  Parses l pc None ts0 (e, ts) -> PF pc k l e ts R -> Parses k pc None ts0 R.
Proof.
  intros HP HF. induction HF as [|l l' e ts e1 ts1 R Hl HA HF IH]; [exact HP|].
  apply IH. destruct (lower_higher _ _ _ Hl) as (Hh & Hp & _).
  eapply parses_step; [exact Hp | reflexivity | rewrite Hh; exact HP | exact HA].
Qed.

Lemma pf_rank pc k l e ts R : PF pc k l e ts R -> rk k <= rk l.
Proof.
  induction 1 as [|l l' e ts e1 ts1 R Hl HA HF IH]; [lia|].
  destruct (lower_higher _ _ _ Hl) as (_ & _ & Hr). lia.
Qed.

Lemma pf_inv pc k l e ts R :
  PF pc k l e ts R -> rk k < rk l ->
  exists l' e1 ts1, lower pc l = Some l' /\ Afters l' pc e ts (e1, ts1) /\ PF pc k l' e1 ts1 R.
Proof. intros H Hr. inversion H; subst; [lia|]. eauto 8. Qed.

Lemma pf_same pc k e ts R : PF pc k k e ts R -> R = (e, ts).
Proof.
  intros H. inversion H; subst; [reflexivity|].
  match goal with H1 : lower _ _ = Some ?l', H2 : PF _ _ ?l' _ _ _ |- _ =>
    apply pf_rank in H2; apply lower_higher in H1; lia end.
Qed.

Lemma rk_inj l l' : rk l = rk l' -> l = l'.
Proof. destruct l, l'; intros H; try reflexivity; discriminate H. Qed.

Lemma rk_getline l : rk l = 1 -> l = LGetline.
Proof. destruct l; intros H; try reflexivity; discriminate H. Qed.

(* one level down: the rank falls by one, except that the print tower has no getline() level *)
Lemma lower_some pc l : l <> LExpr -> (pc = true -> l <> LGetline) ->
  exists l', lower pc l = Some l' /\ (pc = true -> l' <> LGetline) /\
             (rk l = S (rk l') \/ pc = true /\ rk l = 2 /\ rk l' = 0).
Proof.
  intros H1 H2.
  destruct l, pc; try congruence; try (specialize (H2 eq_refl); congruence);
    eexists; (split; [reflexivity|]); (split; [congruence|]); cbn; auto.
Qed.

(* skipping levels whose suffix code does nothing on this token *)
Lemma pf_skip pc k l0 l1 e ts R :
  rk l1 <= rk l0 -> (pc = true -> l0 <> LGetline /\ l1 <> LGetline) ->
  tok_cont pc (hd_tok ts) <= rk l1 ->
  PF pc k l1 e ts R -> PF pc k l0 e ts R.
Proof.
  intros Hr Hg Hc HF.
  assert (G : forall d l, rk l <= rk l1 + d -> rk l1 <= rk l -> (pc = true -> l <> LGetline) -> PF pc k l e ts R).
  { induction d as [|d IH]; intros l Hd Hl Hgl.
    - rewrite (rk_inj l l1) by lia. exact HF.
    - destruct (Nat.eq_dec (rk l) (rk l1)) as [E|E]; [rewrite (rk_inj _ _ E); exact HF|].
      destruct (lower_some pc l) as (l' & Hl' & Hg' & Hrk); [intros ->; cbn in Hl, E; lia | exact Hgl |].
      assert (Hr' : rk l1 <= rk l').
      { destruct Hrk as [E' | (Hp & E2 & E0)]; [lia|].
        (* the step from rank 2 to rank 0 passes over getline() only, which l1 is not *)
        destruct (Nat.eq_dec (rk l1) 1) as [E1|]; [|lia].
        apply rk_getline in E1. destruct (Hg Hp) as [_ Hn]. contradiction. }
      eapply PF_step; [exact Hl' | | apply IH; [destruct Hrk as [E' | (Hp & E2 & E0)]; lia | exact Hr' | exact Hg']].
      apply afters_stop; [lia|]. intros ->. destruct pc; [exfalso; apply Hg'; reflexivity | reflexivity]. }
  apply (G (rk l0)); [lia | exact Hr | intros Hp; apply (Hg Hp)].
Qed.

Lemma pf_stops pc k l0 e ts :
  rk k <= rk l0 -> (pc = true -> l0 <> LGetline /\ k <> LGetline) ->
  tok_cont pc (hd_tok ts) <= rk k -> PF pc k l0 e ts (e, ts).
Proof. intros Hr Hg Hc. eapply pf_skip; eauto. apply PF_done. Qed.
