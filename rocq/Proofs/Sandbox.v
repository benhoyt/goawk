(* C12: proofs about Model/Sandbox.v — for every configuration, every environment
   (answers of the open function, record counts, process-start results), every
   state and every history of requests. *)
From Verif Require Import Lib.Base Gen.Consts Model.Sandbox.

Definition forbidden (c : config) (x : effect) : bool :=
  (noExec c && is_start x) || (noFileWrites c && is_write_open x) || (noFileReads c && is_read_open x).

Definition allowed (c : config) (x : effect) : bool := negb (forbidden c x).

(* the flag that decides about each effect *)
Lemma allowed_eq c x :
  allowed c x = match x with
                | StartProcess _ => negb (noExec c)
                | CallOpenFile _ ORead => negb (noFileReads c)
                | CallOpenFile _ _ => negb (noFileWrites c)
                | _ => true
                end.
Proof. destruct c as [[] [] [] nav], x as [n []| | | |]; reflexivity. Qed.

Lemma forallb_impl {A} (f g : A -> bool) l :
  (forall x, f x = true -> g x = true) -> forallb f l = true -> forallb g l = true.
Proof. intros H. rewrite !forallb_forall. auto. Qed.

Ltac destruct_matches :=
  repeat match goal with
  | |- context [match ?x with _ => _ end] => destruct x eqn:?
  | |- context [if ?x then _ else _] => destruct x eqn:?
  end.

(* the functions behind the requests other than nextLine *)
Ltac gates := unfold get_output_stream, get_input_scanner_file, get_input_scanner_pipe, builtin_system, builtin_close, builtin_fflush.

Definition nl_attach (effs : list effect) (k : nat) (s : state) : (list effect * nl_out * state) + (list effect * state) :=
  match k with
  | S k' => inl (effs, NLRecord, set_main_in (Some k') s)
  | O => inr (effs, set_main_in None s)
  end.

(* one pass: nextLine returns, or has done [effs] and goes round again from a new state *)
Definition nl_visit (c : config) (e : env) (s : state) : (list effect * nl_out * state) + (list effect * state) :=
  if (argc s <=? fidx s) && negb (had_files s) then
    nl_attach [UseStd StdInMain] (stdin_left s) (set_stdin_left O (set_had_files true s))
  else if argc s <=? fidx s then inl ([], NLEOF, s)
  else
    let name := argv_get (fidx s) (argv s) in
    let s1 := set_fidx (fidx s + 1) s in
    if negb (noArgVars c) && is_var_assign name then inr ([], s1)
    else if bytes_eqb name [] then inr ([], s1)
    else if bytes_eqb name dash then
      nl_attach [UseStd StdInMain] (stdin_left s1) (set_stdin_left O (set_had_files true s1))
    else if noFileReads c then inl ([], NLErr ENoFileReads, s1)
    else
      match os_open e (n_open s1) name ORead with
      | OsOk => nl_attach [CallOpenFile name ORead] (nrecords e (n_open s1) name) (set_had_files true (bump_open s1))
      | _ => inl ([CallOpenFile name ORead], NLErr EOpen, bump_open s1)
      end.

Lemma nll_S f c e s :
  next_line_loop (S f) c e s =
  match nl_visit c e s with
  | inl r => r
  | inr (effs, s1) => let '(e2, o, s2) := next_line_loop f c e s1 in (effs ++ e2, o, s2)
  end.
Proof.
  cbn [next_line_loop]. unfold nl_visit, nl_attach.
  destruct_matches; reflexivity.
Qed.

(* the effects of nextLine: standard input, and opening an operand for reading unless NoFileReads is set *)
Definition nl_eff (c : config) (x : effect) : bool :=
  match x with UseStd _ => true | CallOpenFile _ ORead => negb (noFileReads c) | _ => false end.

(* what holds of every stretch of nextLine: only such effects, and the stream tables are not touched *)
Definition nl_ok (c : config) (s : state) (effs : list effect) (s' : state) : Prop :=
  forallb (nl_eff c) effs = true /\ ins s' = ins s /\ outs s' = outs s.

Lemma nl_ok_app c s effs s1 e2 s2 : nl_ok c s effs s1 -> nl_ok c s1 e2 s2 -> nl_ok c s (effs ++ e2) s2.
Proof. intros (E1 & I1 & O1) (E2 & I2 & O2). repeat split; try congruence. rewrite forallb_app, E1, E2. reflexivity. Qed.

Definition nl_measure (s : state) : nat := Z.to_nat (argc s - fidx s) + (if had_files s then 0 else 1).

Lemma nl_visit_spec c e s :
  match nl_visit c e s with
  | inl (effs, o, s') => nl_ok c s effs s' /\ o <> NLFuel
  | inr (effs, s1) => nl_ok c s effs s1 /\ (nl_measure s1 < nl_measure s)%nat
  end.
Proof.
  unfold nl_visit, nl_attach, nl_measure.
  destruct (argc s <=? fidx s) eqn:Hle; [apply Z.leb_le in Hle|apply Z.leb_gt in Hle]; cbn [andb].
  - destruct (had_files s); cbn [negb]; [repeat split; discriminate|].
    destruct (stdin_left s); repeat split; try discriminate. cbn. lia.
  - destruct (negb (noArgVars c) && is_var_assign _). { repeat split. cbn. destruct (had_files s); lia. }
    destruct (bytes_eqb _ []). { repeat split. cbn. destruct (had_files s); lia. }
    destruct (bytes_eqb _ dash).
    { destruct (stdin_left _); repeat split; try discriminate. cbn. destruct (had_files s); lia. }
    destruct (noFileReads c) eqn:Hr; [repeat split; discriminate|].
    destruct (os_open e _ _ ORead); [destruct (nrecords e _ _)|..]; repeat split; cbn; rewrite ?Hr; try discriminate; try reflexivity.
    destruct (had_files s); lia.
Qed.

Lemma nll_spec c e : forall fuel s, (nl_measure s < fuel)%nat ->
  let '(effs, o, s') := next_line_loop fuel c e s in nl_ok c s effs s' /\ o <> NLFuel.
Proof.
  induction fuel as [|f IH]; intros s Hm; [lia|]. rewrite nll_S.
  pose proof (nl_visit_spec c e s) as H. destruct (nl_visit c e s) as [[[effs o] s']|[effs s1]]; [exact H|].
  destruct H as [H1 Hlt]. specialize (IH s1 ltac:(lia)).
  destruct (next_line_loop f c e s1) as [[e2 o] s2]. destruct IH as [H2 Ho].
  split; [eapply nl_ok_app; eassumption|exact Ho].
Qed.

Lemma nl_fuel_enough s : (nl_measure s < next_line_fuel s)%nat.
Proof. unfold nl_measure, next_line_fuel. destruct (had_files s); lia. Qed.

Lemma next_line_spec c e s :
  let '(effs, o, s') := next_line c e s in nl_ok c s effs s' /\ o <> NLFuel.
Proof.
  unfold next_line. destruct (main_in s) as [[|k]|].
  - apply (nll_spec c e _ (set_main_in None s)), (nl_fuel_enough s).
  - repeat split. discriminate.
  - apply nll_spec, nl_fuel_enough.
Qed.

Lemma next_line_via_ok c e s v : nl_ok c s (fst (fst (next_line_via c e s v))) (snd (next_line_via c e s v)).
Proof.
  unfold next_line_via. pose proof (next_line_spec c e s) as H.
  destruct (next_line c e s) as [[effs o] s']. destruct H as [H _]. destruct o; destruct v; exact H.
Qed.

Lemma nl_eff_allowed c x : nl_eff c x = true -> allowed c x = true.
Proof. rewrite allowed_eq. destruct x as [n []| | | |]; cbn; congruence. Qed.

Lemma io_step_allowed c e s r : forallb (allowed c) (fst (fst (io_step c e s r))) = true.
Proof.
  destruct r; cbn [io_step]; gates;
    try (destruct c as [ne nw nr nav]; cbn [noExec noFileWrites noFileReads];
         destruct_matches; cbn [fst forallb]; rewrite ?allowed_eq; reflexivity).
  exact (forallb_impl _ _ _ (nl_eff_allowed c) (proj1 (next_line_via_ok c e s v))).
Qed.

(* what every step guarantees of its effects, from states with an invariant the steps keep, holds of the effects of a run *)
Lemma run_effects_all c e (Inv : state -> Prop) (P : effect -> bool) :
  (forall s r, Inv s -> forallb P (fst (fst (io_step c e s r))) = true /\ Inv (snd (io_step c e s r))) ->
  forall h s, Inv s -> forallb P (run_effects c e s h) = true.
Proof.
  intros Hstep. unfold run_effects, effects_of.
  induction h as [|r h IH]; intros s Hs; [reflexivity|].
  cbn [run_log]. destruct (Hstep s r Hs) as [HP Hs']. destruct (io_step c e s r) as [[effs o] s'].
  cbn [map fst snd concat] in *. rewrite forallb_app, HP.
  destruct (is_continue o); [apply IH, Hs'|reflexivity].
Qed.

Lemma run_allowed c e h s : forallb (allowed c) (run_effects c e s h) = true.
Proof.
  apply (run_effects_all c e (fun _ => True)); [|exact I].
  intros s0 r _. split; [apply io_step_allowed|exact I].
Qed.

Lemma run_allowed_in c e s h x : In x (run_effects c e s h) -> allowed c x = true.
Proof. apply (proj1 (forallb_forall _ _) (run_allowed c e h s)). Qed.

Theorem noexec_confines : forall c e s h,
  noExec c = true -> forall cmd, ~ In (StartProcess cmd) (run_effects c e s h).
Proof.
  intros c e s h Hf cmd Hin. apply run_allowed_in in Hin. rewrite allowed_eq, Hf in Hin. discriminate.
Qed.

Theorem nofilewrites_confines : forall c e s h,
  noFileWrites c = true -> forall n fl, In (CallOpenFile n fl) (run_effects c e s h) -> fl = ORead.
Proof.
  intros c e s h Hf n fl Hin. apply run_allowed_in in Hin. rewrite allowed_eq, Hf in Hin.
  destruct fl; [reflexivity|discriminate..].
Qed.

Theorem nofilereads_confines : forall c e s h,
  noFileReads c = true -> forall n, ~ In (CallOpenFile n ORead) (run_effects c e s h).
Proof.
  intros c e s h Hf n Hin. apply run_allowed_in in Hin. rewrite allowed_eq, Hf in Hin. discriminate.
Qed.

(* nextLine never runs out of fuel *)
Theorem io_step_no_fuel : forall c e s r, snd (fst (io_step c e s r)) <> Fuel.
Proof.
  intros c e s r. destruct r; cbn [io_step]; gates;
    try (destruct_matches; cbn; discriminate).
  unfold next_line_via. pose proof (next_line_spec c e s) as H.
  destruct (next_line c e s) as [[e1 o1] s1]. destruct H as [_ H].
  destruct o1 as [| |x|]; destruct v; try destruct x; cbn; try discriminate; congruence.
Qed.

(* a Stop is the last thing that happens *)
Theorem stop_ends_run : forall c e h s,
  Forall (fun p => is_continue (snd p) = true) (removelast (run_log c e s h)).
Proof.
  intros c e. induction h as [|r h IH]; intros s; [constructor|].
  cbn [run_log]. destruct (io_step c e s r) as [[effs o] s'].
  destruct (is_continue o) eqn:Ho.
  - destruct (run_log c e s' h) eqn:Hl.
    + constructor.
    + change ((effs, o) :: p :: l) with ([(effs, o)] ++ (p :: l)).
      rewrite removelast_app by discriminate. cbn [app]. constructor; [exact Ho|].
      rewrite <- Hl. apply IH.
  - constructor.
Qed.

Lemma run_log_length c e : forall h s, (length (run_log c e s h) <= length h)%nat.
Proof.
  induction h as [|r h IH]; intros s; [cbn; lia|].
  cbn [run_log]. destruct (io_step c e s r) as [[effs o] s'].
  destruct (is_continue o); cbn [length]; [specialize (IH s'); lia | lia].
Qed.

Definition all_continue (log : list (list effect * step_out)) : bool := forallb (fun p => is_continue (snd p)) log.

Lemma run_log_app c e : forall h1 h2 s,
  run_log c e s (h1 ++ h2) =
  if all_continue (run_log c e s h1)
  then run_log c e s h1 ++ run_log c e (run_state c e s h1) h2
  else run_log c e s h1.
Proof.
  induction h1 as [|r h1 IH]; intros h2 s; [reflexivity|].
  cbn [app run_log run_state]. destruct (io_step c e s r) as [[effs o] s'].
  destruct (is_continue o) eqn:Ho.
  - rewrite IH. unfold all_continue. cbn [forallb snd]. rewrite Ho. cbn [andb].
    fold (all_continue (run_log c e s' h1)).
    destruct (all_continue (run_log c e s' h1)); reflexivity.
  - unfold all_continue. cbn [forallb snd]. rewrite Ho. reflexivity.
Qed.

Definition permissive (c : config) : config := mkConfig false false false (noArgVars c).

(* the request, in this state, would open a file / start a process that a set flag forbids *)
Definition attempts (c : config) (e : env) (s : state) (r : req) : Prop :=
  existsb (forbidden c) (fst (fst (io_step (permissive c) e s r))) = true.

Definition is_sandbox_err (x : err) : bool :=
  match x with ENoFileWrites | ENoExecPipeOut | ENoFileReads | ENoExecPipeIn | ENoExecSystem => true | _ => false end.

(* only standard streams were touched *)
Definition is_std (x : effect) : bool := match x with UseStd _ => true | _ => false end.

Definition denied_stops (c : config) (e : env) (s : state) (r : req) : Prop :=
  exists x, snd (fst (io_step c e s r)) = Stop x /\ is_sandbox_err x = true /\
            forallb is_std (fst (fst (io_step c e s r))) = true.

Lemma nl_eff_std c x : noFileReads c = true -> nl_eff c x = true -> is_std x = true.
Proof. intros Hr. destruct x as [n []| | | |]; cbn; rewrite ?Hr; auto. Qed.

(* one pass does the same with every flag cleared, unless it is the pass at which NoFileReads denies an operand *)
Lemma nl_visit_permissive c e s :
  nl_visit c e s = nl_visit (permissive c) e s \/
  noFileReads c = true /\ exists s1, nl_visit c e s = inl ([], NLErr ENoFileReads, s1).
Proof.
  unfold nl_visit. cbn [permissive noArgVars noFileReads].
  destruct (noFileReads c); [|left; reflexivity].
  destruct_matches; try (left; reflexivity); right; (split; [reflexivity|eexists; reflexivity]).
Qed.

Lemma nll_permissive c e : forall fuel s, (nl_measure s < fuel)%nat ->
  next_line_loop fuel c e s = next_line_loop fuel (permissive c) e s \/
  noFileReads c = true /\ snd (fst (next_line_loop fuel c e s)) = NLErr ENoFileReads /\
  forallb is_std (fst (fst (next_line_loop fuel c e s))) = true.
Proof.
  induction fuel as [|f IH]; intros s Hm; [lia|]. rewrite !nll_S.
  pose proof (nl_visit_spec c e s) as Hsp.
  destruct (nl_visit_permissive c e s) as [<-|(Hr & s1 & ->)]; [|right; repeat split; exact Hr].
  destruct (nl_visit c e s) as [r|[effs s1]]; [left; reflexivity|]. destruct Hsp as [[He _] Hlt].
  destruct (IH s1 ltac:(lia)) as [<-|(Hr & Ho & Hstd)]; [left; reflexivity|right].
  destruct (next_line_loop f c e s1) as [[e2 o] s2]. cbn [fst snd] in *. repeat split; try assumption.
  rewrite forallb_app, Hstd, (forallb_impl _ _ _ (fun x => nl_eff_std c x Hr) He). reflexivity.
Qed.

Lemma io_step_permissive c e s r : io_step c e s r = io_step (permissive c) e s r \/ denied_stops c e s r.
Proof.
  unfold denied_stops. destruct r; cbn [io_step]; try (left; reflexivity); gates;
    cbn [permissive noExec noFileWrites noFileReads];
    try (destruct_matches; try (left; reflexivity); right; eexists; repeat split; reflexivity).
  unfold next_line_via.
  assert (H : next_line c e s = next_line (permissive c) e s \/
              noFileReads c = true /\ snd (fst (next_line c e s)) = NLErr ENoFileReads /\
              forallb is_std (fst (fst (next_line c e s))) = true).
  { unfold next_line. destruct (main_in s) as [[|k]|]; [|left; reflexivity|]; apply nll_permissive, (nl_fuel_enough s). }
  destruct H as [<-|(_ & Ho & Hstd)]; [left; reflexivity|right].
  destruct (next_line c e s) as [[effs o] s']. cbn [fst snd] in *. subst o.
  exists ENoFileReads. destruct v; repeat split; exact Hstd.
Qed.

(* every request, plain getline included *)
Theorem denied_attempt_stops : forall c e s r,
  attempts c e s r -> denied_stops c e s r.
Proof.
  intros c e s r Ha. destruct (io_step_permissive c e s r) as [Heq|Hd]; [exfalso|exact Hd].
  unfold attempts in Ha. rewrite <- Heq in Ha. apply existsb_exists in Ha as (x & Hin & Hx).
  pose proof (io_step_allowed c e s r) as H. rewrite forallb_forall in H. specialize (H x Hin).
  unfold allowed in H. rewrite Hx in H. discriminate.
Qed.
