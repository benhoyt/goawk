(* C01: the compiler-correctness theorems, assembled from the simulation lemmas. *)
From Verif Require Import Lib.Base Lib.Dyadic Model.Ast Model.Instr Model.Compiler Model.Prims Model.VM Model.AstSem
  Proofs.CodeAt Proofs.VMLemmas Proofs.Reach Proofs.PrimsOk Proofs.CompLemmas Proofs.SimDefs Proofs.SimExpr
  Proofs.AstSemEq Proofs.SimStmt.

Section CompilerCorrect.
  Variables value St err : Type.
  Variable P : prims value St err.
  Variable FN : list func.
  Hypothesis OK : prims_ok P.
  Hypothesis CI : concat_indep P.

  Notation F := (F FN).
  Notation Sim := (Sim P FN).

  Lemma sim_0 : Sim 0.
  Proof.
    repeat split; intro; intros; try exact I.
  Qed.

  Theorem sim_all : forall n, Sim n.
  Proof.
    (* course of values: the shortcuts of an expression statement use the components two levels down *)
    induction n as [n IH] using (well_founded_induction Wf_nat.lt_wf).
    destruct n as [|n]; [apply sim_0|].
    assert (HS : forall k, (k <= n)%nat -> Sim k) by (intros k Hk; apply IH; lia).
    pose proof (HS n (Nat.le_refl n)) as HSn.
    repeat split;
      [apply sim_expr_S|apply sim_exprs_S|apply sim_args_S|apply sim_index_S|apply sim_lref_S|apply sim_cond_S
      |apply sim_cat_S|apply sim_stmt_S|apply sim_stmts_S|apply sim_loop_S|apply sim_looptop_S|apply sim_items_S];
      assumption.
  Qed.

  (* what the VM returns for an outcome of the syntax-tree semantics *)
  Definition vres_of_x (stk : list value) (r : xres value St err) : option (vres value St err) :=
    match r with
    | RNormal m' => Some (VDone stk m')
    | RReturn v m' => Some (VRet v stk m')
    | RAbort x m' => Some (VAbort x m')
    | _ => None
    end.

  Definition vres_of_e (stk : list value) (r : eres value St err value) : option (vres value St err) :=
    match r with
    | ENormal v m' => Some (VDone (v :: stk) m')
    | EAbort x m' => Some (VAbort x m')
    | _ => None
    end.

  Lemma stops_all C p stk m r :
    stops P F C p stk m r -> r <> VFuel -> exists k0, forall k, (k0 <= k)%nat -> run P F k C p stk m = r.
  Proof. intros [k0 Hk0] Hf. exists k0. intros k Hk. eapply stops_mono; eassumption. Qed.

  (* a compiled expression (patterns are compiled this way) *)
  Theorem compile_expr_correct n e m stk r :
    vres_of_e stk (eval P FN n e m) = Some r ->
    exists k0, forall k, (k0 <= k)%nat -> run P F k (comp_expr e) 0 stk m = r.
  Proof.
    intros Hr. destruct (sim_all n) as (SE & _).
    pose proof (SE e m (comp_expr e) 0 stk (code_at_whole _)) as H.
    destruct (eval P FN n e m) as [v m'|x m'| |]; cbn [vres_of_e] in Hr; try discriminate; injection Hr as <-;
      (apply stops_all; [|discriminate]).
    - eapply reaches_end; [exact H|lia].
    - exact H.
  Qed.

  (* a compiled statement list: BEGIN / END blocks, action bodies, function bodies *)
  Theorem compile_block_correct n ss m stk r :
    vres_of_x stk (exec_stmts P FN n false ss m) = Some r ->
    exists k0, forall k, (k0 <= k)%nat -> run P F k (comp_block ss) 0 stk m = r.
  Proof.
    intros Hr. destruct (sim_all n) as (_ & _ & _ & _ & _ & _ & _ & _ & SSs & _).
    pose proof (SSs ss LNone m (comp_block ss) 0 stk (code_at_whole _)) as H.
    unfold stmt_post in H. cbn [inl] in H.
    destruct (exec_stmts P FN n false ss m) as [m'|m'|m'|v m'|x m'| |]; cbn [vres_of_x] in Hr; try discriminate;
      injection Hr as <-; (apply stops_all; [|discriminate]); try exact H.
    eapply reaches_end; [exact H|unfold comp_block; lia].
  Qed.

  (* the stack discipline: a statement list that completes leaves the stack as it found it *)
  Corollary stack_balanced n ss m m' stk :
    exec_stmts P FN n false ss m = RNormal m' ->
    exists k, run P F k (comp_block ss) 0 stk m = VDone stk m'.
  Proof.
    intros H. destruct (compile_block_correct n ss m stk (VDone stk m')) as [k0 Hk0]; [rewrite H; reflexivity|].
    exists k0. apply Hk0. lia.
  Qed.

  (* whenever the syntax tree has a meaning, the compiled code does not get stuck *)
  Corollary compiled_never_stuck n ss m stk r :
    vres_of_x stk (exec_stmts P FN n false ss m) = Some r ->
    forall k, run P F k (comp_block ss) 0 stk m = VStuck -> False.
  Proof.
    intros Hr k Hk. destruct (compile_block_correct n ss m stk r Hr) as [k0 Hk0].
    assert (Hmono : run P F (Nat.max k k0) (comp_block ss) 0 stk m = VStuck).
    { eapply run_mono; [exact Hk|discriminate|apply Nat.le_max_l]. }
    rewrite (Hk0 _ (Nat.le_max_r k k0)) in Hmono.
    destruct (exec_stmts P FN n false ss m); cbn [vres_of_x] in Hr; try discriminate; injection Hr as <-; discriminate.
  Qed.

  (* two spellings with the same syntax-tree meaning have compiled code with the same behaviour *)
  Corollary spellings_agree n1 n2 ss1 ss2 m stk r :
    vres_of_x stk (exec_stmts P FN n1 false ss1 m) = Some r ->
    vres_of_x stk (exec_stmts P FN n2 false ss2 m) = Some r ->
    exists k0, forall k, (k0 <= k)%nat ->
      run P F k (comp_block ss1) 0 stk m = r /\ run P F k (comp_block ss2) 0 stk m = r.
  Proof.
    intros H1 H2.
    destruct (compile_block_correct n1 ss1 m stk r H1) as [k1 Hk1].
    destruct (compile_block_correct n2 ss2 m stk r H2) as [k2 Hk2].
    exists (Nat.max k1 k2). intros k Hk. split; [apply Hk1|apply Hk2]; lia.
  Qed.

End CompilerCorrect.

Arguments vres_of_x {value St err}.
Arguments vres_of_e {value St err}.
