(* C13 proofs: the finite maps keyed by name, files, the sink; what [touch], the
   users of Output and [deliver] leave alone; the buffers of file and command
   streams, writeCSV's chunks. *)
From Verif Require Import Lib.Base Model.Streams.

Lemma alookup_aremove_same {A} n (l : list (name * A)) : alookup n (aremove n l) = None.
Proof.
  induction l as [|[k v] l IH]; cbn [aremove alookup]; auto.
  destruct (k =? n) eqn:Ek; auto. cbn [alookup]. rewrite Ek. auto.
Qed.

Lemma alookup_aremove_other {A} n m (l : list (name * A)) : n <> m -> alookup m (aremove n l) = alookup m l.
Proof.
  intros Hne. induction l as [|[k v] l IH]; cbn [aremove alookup]; auto.
  destruct (k =? n) eqn:Ek.
  - apply Z.eqb_eq in Ek. subst k. destruct (n =? m) eqn:Em; auto. apply Z.eqb_eq in Em. contradiction.
  - cbn [alookup]. destruct (k =? m); auto.
Qed.

Lemma alookup_aset_same {A} n (v : A) l : alookup n (aset n v l) = Some v.
Proof. unfold aset. cbn [alookup]. rewrite Z.eqb_refl. auto. Qed.

Lemma alookup_aset_other {A} n m (v : A) l : n <> m -> alookup m (aset n v l) = alookup m l.
Proof.
  intros Hne. unfold aset. cbn [alookup]. destruct (n =? m) eqn:Em.
  - apply Z.eqb_eq in Em. contradiction.
  - apply alookup_aremove_other; auto.
Qed.

Lemma alookup_aset {A} n m (v : A) l : alookup m (aset n v l) = if n =? m then Some v else alookup m l.
Proof.
  destruct (n =? m) eqn:Em.
  - apply Z.eqb_eq in Em. subst. apply alookup_aset_same.
  - apply Z.eqb_neq in Em. apply alookup_aset_other; auto.
Qed.

Lemma alookup_aremove {A} n m (l : list (name * A)) : alookup m (aremove n l) = if n =? m then None else alookup m l.
Proof.
  destruct (n =? m) eqn:Em.
  - apply Z.eqb_eq in Em. subst. apply alookup_aremove_same.
  - apply Z.eqb_neq in Em. apply alookup_aremove_other; auto.
Qed.

Lemma amem_aset {A} n m (v : A) l : amem m (aset n v l) = (n =? m) || amem m l.
Proof. unfold amem. rewrite alookup_aset. destruct (n =? m); auto. Qed.

Lemma amem_aremove {A} n m (l : list (name * A)) : amem m (aremove n l) = negb (n =? m) && amem m l.
Proof. unfold amem. rewrite alookup_aremove. destruct (n =? m); auto. Qed.

Lemma aremove_absent {A} n (l : list (name * A)) : alookup n l = None -> aremove n l = l.
Proof.
  induction l as [|[k v] l IH]; cbn [alookup aremove]; auto.
  destruct (k =? n); [discriminate|]. intros H. rewrite IH; auto.
Qed.

Lemma In_keys_lookup {A} m (l : list (name * A)) : alookup m l <> None -> In m (map fst l).
Proof.
  induction l as [|[k v] l IH]; cbn [alookup map fst]; [congruence|].
  destruct (k =? m) eqn:Ek; [apply Z.eqb_eq in Ek; intros _; left; auto|]. intros H. right; auto.
Qed.

Lemma amem_false_lookup {A} n (l : list (name * A)) : amem n l = false -> alookup n l = None.
Proof. unfold amem. destruct (alookup n l); auto; discriminate. Qed.

Lemma all_none_nil {A} (l : list (name * A)) : (forall m, alookup m l = None) -> l = [].
Proof. destruct l as [|[k v] l]; auto. intros H. specialize (H k). cbn [alookup] in H. rewrite Z.eqb_refl in H. discriminate. Qed.

Lemma alookup_In {A} n (v : A) l : alookup n l = Some v -> In (n, v) l.
Proof.
  induction l as [|[k w] l IH]; cbn [alookup]; [discriminate|].
  destruct (k =? n) eqn:Ek; intros H.
  - apply Z.eqb_eq in Ek. injection H as <-. subst. left; auto.
  - right; auto.
Qed.

Lemma In_aremove {A} n k (v : A) l : In (k, v) (aremove n l) -> In (k, v) l /\ k <> n.
Proof.
  induction l as [|[k' w] l IH]; cbn [aremove]; [intros []|].
  destruct (k' =? n) eqn:Ek.
  - intros H. destruct (IH H). split; auto. right; auto.
  - intros [H|H].
    + injection H as -> ->. split; [left; auto|]. apply Z.eqb_neq in Ek. auto.
    + destruct (IH H). split; auto. right; auto.
Qed.

Lemma In_aset {A} n k (v w : A) l : In (k, w) (aset n v l) -> (k = n /\ w = v) \/ (In (k, w) l /\ k <> n).
Proof.
  unfold aset. intros [H|H].
  - injection H as -> ->. left; auto.
  - right. apply In_aremove; auto.
Qed.

Definition keys_nodup {A} (l : list (name * A)) : Prop := NoDup (map fst l).

Lemma notin_keys_aremove {A} n (l : list (name * A)) : ~ In n (map fst (aremove n l)).
Proof.
  induction l as [|[k v] l IH]; cbn [aremove map]; auto.
  destruct (k =? n) eqn:Ek; auto. cbn [map fst]. intros [H|H]; auto.
  apply Z.eqb_neq in Ek. auto.
Qed.

Lemma keys_aremove_incl {A} n m (l : list (name * A)) : In m (map fst (aremove n l)) -> In m (map fst l).
Proof.
  induction l as [|[k v] l IH]; cbn [aremove map]; auto.
  destruct (k =? n); cbn [map fst]; intros H; [right; auto|].
  destruct H; [left; auto|right; auto].
Qed.

Lemma keys_nodup_aremove {A} n (l : list (name * A)) : keys_nodup l -> keys_nodup (aremove n l).
Proof.
  unfold keys_nodup. induction l as [|[k v] l IH]; cbn [aremove map]; auto.
  intros H. inversion H as [|? ? Hn Hd]; subst.
  destruct (k =? n); auto. cbn [map fst]. constructor; auto.
  intros Hin. apply Hn. eapply keys_aremove_incl; eauto.
Qed.

Lemma keys_nodup_aset {A} n (v : A) l : keys_nodup l -> keys_nodup (aset n v l).
Proof.
  intros H. unfold aset, keys_nodup. cbn [map fst]. constructor.
  - apply notin_keys_aremove.
  - apply keys_nodup_aremove; auto.
Qed.

Lemma In_alookup {A} n (v : A) l : keys_nodup l -> In (n, v) l -> alookup n l = Some v.
Proof.
  unfold keys_nodup. induction l as [|[k w] l IH]; cbn [map fst alookup]; [intros _ []|].
  intros Hnd [H|H].
  - injection H as -> ->. rewrite Z.eqb_refl. auto.
  - inversion Hnd as [|? ? Hn Hd]; subst. destruct (k =? n) eqn:Ek.
    + apply Z.eqb_eq in Ek. subst. exfalso. apply Hn. change n with (fst (n, v)). apply in_map; auto.
    + auto.
Qed.

Lemma fs_get_aset fs n b t : fs_get (aset n b fs) t = if n =? t then b else fs_get fs t.
Proof. unfold fs_get. rewrite alookup_aset. destruct (n =? t); auto. Qed.

Lemma fs_get_append fs n b t : fs_get (fs_append fs n b) t = if n =? t then fs_get fs n ++ b else fs_get fs t.
Proof. unfold fs_append. apply fs_get_aset. Qed.

Lemma write_at_end content data : write_at (length content) content data = content ++ data.
Proof.
  unfold write_at. rewrite firstn_all. rewrite Nat.sub_diag. cbn [repeat app].
  rewrite skipn_all2 by lia. rewrite app_nil_r. auto.
Qed.

Lemma sink_write_nolimit k p : sk_limit k = None ->
  sink_write k p = ({| sk_data := sk_data k ++ p; sk_limit := None |}, length p, true).
Proof. intros H. unfold sink_write. rewrite H. auto. Qed.

Lemma sink_write_prefix k p k' n ok : sink_write k p = (k', n, ok) ->
  sk_limit k' = sk_limit k /\ sk_data k' = sk_data k ++ firstn n p /\ (ok = true -> n = length p) /\ (n <= length p)%nat.
Proof.
  unfold sink_write. destruct (sk_limit k) as [L|] eqn:EL.
  - destruct (length p <=? L - length (sk_data k))%nat eqn:Ele; intros H; injection H as <- <- <-; cbn [sk_limit sk_data].
    + rewrite firstn_all. auto.
    + apply Nat.leb_gt in Ele. repeat split; auto; try discriminate; lia.
  - intros H; injection H as <- <- <-; cbn [sk_limit sk_data]. rewrite firstn_all. auto.
Qed.

(* touch: only the ghost flags can change *)
Lemma touch_fields E s :
  st_out (touch E s) = st_out s /\ st_sink (touch E s) = st_sink s /\ st_outs (touch E s) = st_outs s /\
  st_ins (touch E s) = st_ins s /\ st_fs (touch E s) = st_fs s /\ st_log (touch E s) = st_log s /\ st_obs (touch E s) = st_obs s.
Proof.
  unfold touch. destruct (negb (is_osfile (e_mode E)) && any_active (st_outs s)); cbn [st_outs set_overlap];
  match goal with |- context [if ?c then set_unmod _ else _] => destruct c end; cbn; repeat split; auto.
Qed.

(* the functions that use Output: beside the writer and the ghost flags they change
   only the log, by the one event they record *)
Definition same_tables (s s' : state) : Prop :=
  st_outs s' = st_outs s /\ st_ins s' = st_ins s /\ st_fs s' = st_fs s.

Lemma flush_stdout_frame E s : same_tables s (fst (flush_stdout E s)) /\ st_log (fst (flush_stdout E s)) = st_log s.
Proof.
  unfold flush_stdout, same_tables. destruct (e_mode E); cbn [fst]; auto.
  destruct (touch_fields E s) as (_ & _ & A & B & C & D & _). destruct (bw_flush _ _) as [[w k] ok]. cbn. auto.
Qed.

Lemma write_stdout_frame E s ps : same_tables s (fst (write_stdout E s ps)) /\
  st_log (fst (write_stdout E s ps)) = EvWrite WStdout (concat ps) :: st_log s.
Proof.
  unfold write_stdout, same_tables. destruct (touch_fields E s) as (_ & _ & A & B & C & D & _). rewrite <- A, <- B, <- C, <- D.
  destruct (e_mode E); cbv beta iota.
  - destruct (write_pieces_direct _ _). repeat split; reflexivity.
  - destruct (write_pieces_direct _ _). repeat split; reflexivity.
  - destruct (write_pieces_buf _ _ _ _) as [[? ?] ?]. repeat split; reflexivity.
Qed.

Lemma write_stdout_rec_frame E s rec : same_tables s (fst (write_stdout_rec E s rec)) /\
  st_log (fst (write_stdout_rec E s rec)) = EvWrite WStdout rec :: st_log s.
Proof.
  pose proof (write_stdout_frame E s [rec]) as H. cbn [concat] in H. rewrite app_nil_r in H.
  unfold write_stdout_rec. destruct (e_mode E); auto. destruct (cap <? scratch_size)%nat; auto.
  unfold same_tables. destruct (touch_fields E s) as (_ & _ & A & B & C & D & _). rewrite <- A, <- B, <- C, <- D.
  destruct (write_chunks_buf _ _ _ _) as [[? ?] ?]. repeat split; reflexivity.
Qed.

Lemma child_out_frame E s cg data : same_tables s (fst (child_out E s cg data)) /\
  st_overlap (fst (child_out E s cg data)) = st_overlap s /\
  st_log (fst (child_out E s cg data)) = match data with [] => st_log s | _ => EvChildOut data :: st_log s end.
Proof.
  unfold child_out, same_tables. destruct data as [|b d]; [repeat split; reflexivity|]. destruct (e_mode E); cbv beta iota.
  - destruct (sink_write _ _) as [[? ?] ?]. repeat split; reflexivity.
  - destruct cg; cbn [fst]; [repeat split; reflexivity|]. destruct (sink_write _ _) as [[? ?] ?]. repeat split; reflexivity.
  - destruct cg; cbn [fst]; [repeat split; reflexivity|].
    match goal with |- context [if ?c then set_unmod ?x else ?x] => destruct c end;
      destruct (bw_write _ _ _ _) as [[? ?] ?]; repeat split; reflexivity.
Qed.

Lemma deliver_shape E s n o data :
  st_outs (fst (deliver E s n o data)) = st_outs s /\ st_ins (fst (deliver E s n o data)) = st_ins s /\
  os_kind (snd (deliver E s n o data)) = os_kind o /\ os_buf (snd (deliver E s n o data)) = os_buf o.
Proof.
  unfold deliver. destruct data as [|b d]; auto. destruct (os_kind o) eqn:Ek.
  - destruct (os_off o); cbn; auto.
  - destruct (c_drain (e_spec E n)); [|cbn [fst snd os_kind os_buf]; destruct (is_synced E s n); auto].
    set (s1 := match c_sink (e_spec E n) with Some t => _ | None => s end).
    assert (H1 : st_outs s1 = st_outs s /\ st_ins s1 = st_ins s) by (subst s1; destruct (c_sink _); auto).
    destruct (c_echo (e_spec E n)); [|cbn [fst snd]; tauto].
    destruct (child_out_frame E s1 (os_cgfail o) (b :: d)) as ((A & B & _) & _).
    destruct (child_out E s1 _ _) as [s2 ok]. cbn [fst snd os_kind os_buf] in *. destruct H1. repeat split; congruence.
Qed.

(* stream buffers: nothing is lost or reordered *)
Lemma buf_bytes_spec cap buf p f r : buf_bytes cap buf p = (f, r) -> f ++ r = buf ++ p.
Proof.
  unfold buf_bytes. destruct (length p <=? cap - length buf)%nat.
  - intros H. injection H as <- <-. auto.
  - intros H. injection H as <- <-.
    rewrite <- !app_assoc. rewrite firstn_skipn. rewrite firstn_skipn. auto.
Qed.

(* writeCSV's scratch writer: the chunks it hands on are the record, in order *)
Lemma chunks_of_concat fuel n : forall p, concat (chunks_of fuel n p) = p.
Proof.
  induction fuel as [|f IH]; intros p; cbn [chunks_of].
  - cbn. apply app_nil_r.
  - destruct (length p <=? n)%nat.
    + cbn. apply app_nil_r.
    + cbn [concat]. rewrite IH. apply firstn_skipn.
Qed.

Lemma scratch_chunks_concat p : concat (scratch_chunks p) = p.
Proof. apply chunks_of_concat. Qed.
