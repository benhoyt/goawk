(* C09: whole formats — any number of conversion specifications (d i o u x X c s,
   and e E f g G of non-finite values, mixed) separated by literal text: sprintf
   equals the concatenation of what C prints for each of them, arguments taken in
   order.  The theorems about a single specification are the one-item case. *)
From Verif Require Import Lib.Base Lib.Dyadic Lib.Utf8 Model.Printf
  Proofs.PrintfSpec Proofs.Utf8Facts Proofs.PrintfBase Proofs.PrintfInt Proofs.PrintfDir Proofs.PrintfScan
  Proofs.PrintfSprintf Proofs.PrintfParse Proofs.PrintfStr.

Record ditem : Type := mkItem {
  it_pre : bytes; it_d : dir; it_wv : Z; it_pv : Z;
  it_aw : value; it_ap : value; it_a : value; it_g : garg; it_c : carg }.

Definition it_verb (it : ditem) : Z := go_conv_byte (d_conv (it_d it)).
Definition it_eff (it : ditem) : dir := eff_dir (it_d it) (it_pv it).

Definition fmt_of (items : list ditem) (post : bytes) : bytes :=
  fold_right (fun it acc => it_pre it ++ render (it_d it) ++ acc) post items.
Definition gofmt_of (items : list ditem) (post : bytes) : bytes :=
  fold_right (fun it acc => it_pre it ++ go_render (it_d it) ++ acc) post items.
(* the format after sprintf has cut out the ".*" of negative '*' precisions *)
Definition patched_of (items : list ditem) (post : bytes) : bytes :=
  fold_right (fun it acc => it_pre it ++ (37 :: tail_of (it_eff it) (it_verb it)) ++ acc) post items.
Definition tys_of (items : list ditem) : list ty :=
  fold_right (fun it acc => (dir_tys (it_d it) ++ [conv_ty (d_conv (it_d it))]) ++ acc) [] items.
Fixpoint stars_of (items : list ditem) (pos : Z) : list Z :=
  match items with
  | [] => []
  | it :: r => dir_stars (it_d it) (pos + zlen (it_pre it) + 1)
               ++ stars_of r (pos + zlen (it_pre it) + zlen (go_render (it_d it)))
  end.
Definition args_of (items : list ditem) (extra : list value) : list value :=
  fold_right (fun it acc => args_for (it_d it) (it_aw it) (it_ap it) (it_a it) acc) extra items.
Definition it_gargs (it : ditem) : list garg :=
  star_gargs (it_eff it) (it_wv it) (eff_pv (it_d it) (it_pv it)) ++ [it_g it].
Definition gargs_of (items : list ditem) : list garg :=
  fold_right (fun it acc => it_gargs it ++ acc) [] items.
Definition expected (chars : bool) (items : list ditem) (post : bytes) : bytes :=
  fold_right (fun it acc => it_pre it ++ c_directive chars (it_d it) (it_wv it) (it_pv it) (it_c it) ++ acc) post items.

(* an item on which the formatter core agrees with C *)
Definition item_ok (chars : bool) (ffmt : fnum -> res bytes) (it : ditem) : Prop :=
  wf_dir (it_d it) = true /\ no_pct (it_pre it) = true /\ lim (it_d it) (it_wv it) (it_pv it) /\
  (d_width (it_d it) = WStar -> conv_arg chars ffmt TyD (it_aw it) = Ok (GInt (it_wv it))) /\
  (d_prec (it_d it) = PrStar -> f2i64 (v_num (it_ap it)) = it_pv it) /\
  conv_arg chars ffmt (conv_ty (d_conv (it_d it))) (it_a it) = Ok (it_g it) /\
  forall f, st_matches f (resolve (it_eff it) (it_wv it) (eff_pv (it_d it) (it_pv it))) ->
    print_arg f (it_g it) (it_verb it) = Ok (c_directive chars (it_d it) (it_wv it) (it_pv it) (it_c it)).

Lemma parse_items chars ffmt items post : Forall (item_ok chars ffmt) items -> no_pct post = true ->
  forall pos, pft PLit pos (fmt_of items post) = Ok (gofmt_of items post, tys_of items, stars_of items pos).
Proof.
  intros H Hpost. induction H as [|it r Hit Hr IH]; intros pos; cbn [fmt_of gofmt_of tys_of stars_of fold_right].
  - apply pft_lit. exact Hpost.
  - destruct Hit as (Hwf & Hpre & _).
    fold (fmt_of r post). fold (gofmt_of r post). fold (tys_of r).
    rewrite render_tail. cbn [app]. rewrite (pft_lit_pct _ _ _ Hpre), (pft_dir _ (it_d it) _ Hwf), IH. cbn [prepend].
    unfold go_render. rewrite zlen_cons, <- !app_assoc, Z.add_assoc. reflexivity.
Qed.

Definition prefix_gargs (gs : list garg) (r : res (bytes * list garg)) : res (bytes * list garg) :=
  match r with Ok (fm, l) => Ok (fm, gs ++ l) | Err m => Err m | Panic => Panic | Unmod => Unmod end.

Lemma cons_arg_prefix g r : cons_arg g r = prefix_gargs [g] r.
Proof. destruct r as [[fm l]| | |]; reflexivity. Qed.

Lemma prefix_prefix a b r : prefix_gargs a (prefix_gargs b r) = prefix_gargs (a ++ b) r.
Proof. destruct r as [[fm l]| | |]; cbn [prefix_gargs]; try reflexivity. rewrite <- app_assoc. reflexivity. Qed.

Lemma prefix_nil r : prefix_gargs [] r = r.
Proof. destruct r as [[fm l]| | |]; reflexivity. Qed.

Lemma index_app_skip {A} (p l : list A) i : 0 <= i -> index (p ++ l) (zlen p + i) = index l i.
Proof.
  intros Hi. unfold index. rewrite zlen_app. pose proof (zlen_nonneg p) as Hp.
  replace (0 <=? zlen p + i) with true by lia.
  replace (0 <=? i) with true by lia.
  replace (zlen p + i <? zlen p + zlen l) with (i <? zlen l) by lia.
  cbn [andb]. destruct (i <? zlen l); [|reflexivity].
  replace (Z.to_nat (zlen p + i)) with (length p + Z.to_nat i)%nat by (unfold zlen; lia).
  rewrite nth_error_app2 by lia. replace (length p + Z.to_nat i - length p)%nat with (Z.to_nat i) by lia. reflexivity.
Qed.

Lemma conv_args_one chars ffmt cv a g TS rest i fm st rm :
  conv_arg chars ffmt (conv_ty cv) a = Ok g -> index rest i = Ok a ->
  conv_args chars ffmt (conv_ty cv :: TS) rest i fm st rm
  = prefix_gargs [g] (conv_args chars ffmt TS rest (i + 1) fm st rm).
Proof.
  intros Hg Hi. rewrite <- cons_arg_prefix. cbn [conv_args]. rewrite Hi. cbn [rbind].
  destruct (conv_ty cv) eqn:ET; try (rewrite Hg; reflexivity). exfalso. exact (conv_ty_not_p _ ET).
Qed.

(* the '*' precision in the middle of a format: [A'] is the (already patched) text before its '.' *)
Lemma conv_args_prec_mid chars ffmt cv ap pv TS (A' X : bytes) off ST rm i rest :
  f2i64 (v_num ap) = pv -> index rest i = Ok ap -> off - rm = zlen A' ->
  conv_args chars ffmt (TyP :: conv_ty cv :: TS) rest i (A' ++ 46 :: 42 :: X) (off :: ST) rm
  = if (pv <? 0) && negb (is_float_conv cv)
    then conv_args chars ffmt (conv_ty cv :: TS) rest (i + 1) (A' ++ X) ST (rm + 2)
    else prefix_gargs [GInt (if (pv <? 0) && is_float_conv cv then 6 else pv)]
           (conv_args chars ffmt (conv_ty cv :: TS) rest (i + 1) (A' ++ 46 :: 42 :: X) ST rm).
Proof.
  intros Hp Hi Hoff. rewrite conv_args_p_step. rewrite Hi. cbn [rbind]. cbv zeta. rewrite Hp.
  rewrite <- (conv_ty_float cv). rewrite <- !cons_arg_prefix.
  destruct (pv <? 0) eqn:EN; cbn [andb]; [|reflexivity].
  destruct (conv_ty cv) eqn:ET; try (exfalso; exact (conv_ty_not_p _ ET)); cbn [negb];
    try (rewrite Hoff; rewrite slice_app_prefix; cbn [rbind];
         replace (A' ++ 46 :: 42 :: X) with ((A' ++ [46; 42]) ++ X) by (rewrite <- app_assoc; reflexivity);
         replace (zlen A' + 2) with (zlen (A' ++ [46; 42])) by (rewrite zlen_app; reflexivity);
         rewrite slice_app_suffix; cbn [rbind]; reflexivity).
  reflexivity.
Qed.

Definition it_cut (it : ditem) : Z :=
  match d_prec (it_d it) with
  | PrStar => if (it_pv it <? 0) && negb (is_float_conv (d_conv (it_d it))) then 2 else 0
  | _ => 0
  end.

Lemma eff_len it : zlen (37 :: tail_of (it_eff it) (it_verb it)) + it_cut it = zlen (go_render (it_d it)).
Proof.
  unfold it_eff, it_verb, it_cut, go_render, go_tail, tail_of, eff_dir, set_dprec. destruct (it_d it) as [fl w p cv].
  cbn [d_flags d_width d_prec d_conv]. destruct p as [|ds|]; cbn [render_p has_p d_flags d_width d_prec d_conv].
  - unfold ins. rewrite andb_true_r. destruct (is_g cv); cbn [d_flags d_width d_prec d_conv render_p]; zl; lia.
  - rewrite ins_true. zl. lia.
  - rewrite ins_true. destruct ((it_pv it <? 0) && negb (is_float_conv cv)); cbn [d_flags d_width d_prec d_conv render_p]; zl; lia.
Qed.

Ltac idx_fin :=
  repeat (rewrite <- ?app_assoc; cbn [app]);
  first [ reflexivity
        | match goal with
          | |- prefix_gargs ?a (conv_args _ _ _ _ ?i1 _ _ _) = prefix_gargs ?b (conv_args _ _ _ _ ?i2 _ _ _) =>
              replace i1 with i2 by (unfold zlen; cbn [length app]; lia); reflexivity
          end ].

Lemma index_app_mid {A} (p l : list A) x : index (p ++ x :: l) (zlen p) = Ok x.
Proof. rewrite <- (Z.add_0_r (zlen p)), index_app_skip by lia. apply index_0. Qed.

(* the int of a '*' width, if there is one *)
Lemma conv_args_wstep chars ffmt w aw wv TS AV R fm st rm :
  (w = WStar -> conv_arg chars ffmt TyD aw = Ok (GInt wv)) ->
  conv_args chars ffmt (w_tys w ++ TS) (AV ++ (match w with WStar => [aw] | _ => [] end) ++ R) (zlen AV) fm st rm
  = prefix_gargs (match w with WStar => [GInt wv] | _ => [] end)
      (conv_args chars ffmt TS ((AV ++ match w with WStar => [aw] | _ => [] end) ++ R)
         (zlen (AV ++ match w with WStar => [aw] | _ => [] end)) fm st rm).
Proof.
  intros H. destruct w; cbn [w_tys app]; rewrite ?app_nil_r, ?prefix_nil; try reflexivity.
  rewrite (conv_args_width chars ffmt _ aw wv _ _ _ _ _ (H eq_refl) (index_app_mid _ _ _)), cons_arg_prefix.
  rewrite zlen_app, <- app_assoc. reflexivity.
Qed.

(* one item in the middle of the loop: the width is consumed first, whatever it is; then by cases
   on the precision *)
Lemma conv_item chars ffmt it : item_ok chars ffmt it ->
  forall TS ST (REST P : bytes) (AV : list value) rm extra,
  conv_args chars ffmt ((dir_tys (it_d it) ++ [conv_ty (d_conv (it_d it))]) ++ TS)
            (AV ++ args_for (it_d it) (it_aw it) (it_ap it) (it_a it) extra) (zlen AV)
            (P ++ it_pre it ++ go_render (it_d it) ++ REST)
            (dir_stars (it_d it) (zlen P + rm + zlen (it_pre it) + 1) ++ ST) rm
  = prefix_gargs (it_gargs it)
      (conv_args chars ffmt TS (AV ++ args_for (it_d it) (it_aw it) (it_ap it) (it_a it) extra)
         (zlen AV + zlen (dir_tys (it_d it) ++ [conv_ty (d_conv (it_d it))]))
         (P ++ it_pre it ++ (37 :: tail_of (it_eff it) (it_verb it)) ++ REST) ST (rm + it_cut it)).
Proof.
  intros (Hwf & Hpre & Hlim & Hw & Hp & Hg & _) TS ST REST P AV rm extra.
  unfold it_gargs, it_eff, it_verb, it_cut, go_render, go_tail, dir_tys, dir_stars, args_for, star_gargs,
    eff_dir, eff_pv, tail_of, p_tys, p_stars, set_dprec.
  destruct (it_d it) as [fl w p cv]. cbn [d_flags d_width d_prec d_conv] in *.
  set (a := it_a it) in *. set (g := it_g it) in *. set (pv := it_pv it) in *. set (pre := it_pre it) in *.
  rewrite <- !app_assoc, (conv_args_wstep chars ffmt w (it_aw it) (it_wv it) _ AV _ _ _ _ Hw), (app_assoc AV).
  set (AW := AV ++ match w with WStar => [it_aw it] | _ => [] end).
  replace (zlen AV + zlen (w_tys w ++ match p with PrStar => [TyP] | _ => [] end ++ [conv_ty cv])) with (zlen AW + zlen (match p with PrStar => [TyP] | _ => [] end ++ [conv_ty cv]))
    by (unfold AW; destruct w; cbn [w_tys app]; zl; lia).
  destruct p as [|ds|]; cbn [render_p has_p app d_prec d_flags d_width d_conv].
  - (* no precision: g and G get C's default *)
    rewrite (conv_args_one chars ffmt cv a g TS _ _ _ _ _ Hg (index_app_mid _ _ _)), prefix_prefix, Z.add_0_r.
    unfold ins. rewrite andb_true_r. destruct (is_g cv); cbn [d_flags d_width d_prec render_p app]; idx_fin.
  - (* literal precision *)
    rewrite (conv_args_one chars ffmt cv a g TS _ _ _ _ _ Hg (index_app_mid _ _ _)), prefix_prefix, ins_true, Z.add_0_r.
    idx_fin.
  - (* '*' precision *)
    rewrite ins_true. cbn [app].
    replace (P ++ pre ++ 37 :: (fl ++ render_w w ++ [46; 42; go_conv_byte cv]) ++ REST)
      with ((P ++ pre ++ 37 :: fl ++ render_w w) ++ 46 :: 42 :: go_conv_byte cv :: REST)
      by (repeat (rewrite <- ?app_assoc; cbn [app]); reflexivity).
    rewrite (conv_args_prec_mid chars ffmt cv (it_ap it) pv TS (P ++ pre ++ 37 :: fl ++ render_w w) (go_conv_byte cv :: REST)
               _ ST rm _ _ (Hp eq_refl) (index_app_mid _ _ _))
      by (zl; lia).
    assert (Ia : index (AW ++ it_ap it :: a :: extra) (zlen AW + 1) = Ok a)
      by (rewrite index_app_skip by lia; apply index_1).
    destruct ((pv <? 0) && negb (is_float_conv cv));
      rewrite (conv_args_one chars ffmt cv a g TS _ _ _ _ _ Hg Ia), ?prefix_prefix;
      cbn [d_flags d_width d_prec d_conv render_p app]; rewrite ?app_nil_r, ?Z.add_0_r; idx_fin.
Qed.

Lemma args_for_split d aw ap a rest :
  args_for d aw ap a rest = args_for d aw ap a [] ++ rest /\
  zlen (args_for d aw ap a []) = zlen (dir_tys d ++ [conv_ty (d_conv d)]).
Proof.
  unfold args_for, dir_tys, w_tys, p_tys. destruct (d_width d), (d_prec d); cbn [app]; split; reflexivity.
Qed.

Lemma conv_items chars ffmt extra post items : Forall (item_ok chars ffmt) items ->
  forall (P : bytes) (AV : list value) rm,
  conv_args chars ffmt (tys_of items) (AV ++ args_of items extra) (zlen AV)
            (P ++ gofmt_of items post) (stars_of items (zlen P + rm)) rm
  = Ok (P ++ patched_of items post, gargs_of items).
Proof.
  intros H. induction H as [|it r Hit Hr IH]; intros P AV rm;
    cbn [tys_of args_of gofmt_of patched_of gargs_of stars_of fold_right].
  - reflexivity.
  - fold (tys_of r). fold (args_of r extra). fold (gofmt_of r post). fold (patched_of r post). fold (gargs_of r).
    rewrite (conv_item chars ffmt it Hit (tys_of r) _ (gofmt_of r post) P AV rm (args_of r extra)).
    destruct (args_for_split (it_d it) (it_aw it) (it_ap it) (it_a it) (args_of r extra)) as [Hsp Hlen].
    rewrite Hsp. rewrite app_assoc. rewrite <- Hlen. rewrite <- zlen_app.
    replace (P ++ it_pre it ++ (37 :: tail_of (it_eff it) (it_verb it)) ++ gofmt_of r post)
      with ((P ++ it_pre it ++ 37 :: tail_of (it_eff it) (it_verb it)) ++ gofmt_of r post)
      by (repeat (rewrite <- ?app_assoc; cbn [app]); reflexivity).
    replace (zlen P + rm + zlen (it_pre it) + zlen (go_render (it_d it)))
      with (zlen (P ++ it_pre it ++ 37 :: tail_of (it_eff it) (it_verb it)) + (rm + it_cut it))
      by (pose proof (eff_len it); rewrite !zlen_app; lia).
    rewrite IH. cbn [prefix_gargs]. repeat (rewrite <- ?app_assoc; cbn [app]). reflexivity.
Qed.

Lemma tys_args_len items extra : zlen (tys_of items) <= zlen (args_of items extra).
Proof.
  induction items as [|it r IH]; cbn [tys_of args_of fold_right]; [rewrite zlen_nil; apply zlen_nonneg|].
  fold (tys_of r). fold (args_of r extra).
  destruct (args_for_split (it_d it) (it_aw it) (it_ap it) (it_a it) (args_of r extra)) as [Hsp Hlen].
  rewrite Hsp. rewrite (zlen_app (args_for _ _ _ _ [])), (zlen_app (_ ++ _) (tys_of r)). rewrite Hlen. lia.
Qed.

Lemma go_items chars ffmt items post : Forall (item_ok chars ffmt) items -> no_pct post = true ->
  forall fuel, (length (patched_of items post) < fuel)%nat ->
  go_printf fuel (patched_of items post) (gargs_of items) = Ok (expected chars items post).
Proof.
  intros H Hpost. induction H as [|it r Hit Hr IH]; intros fuel Hf; cbn [patched_of gargs_of expected fold_right] in *.
  - destruct fuel as [|k]; [lia|]. cbn [go_printf]. rewrite (span_lit_all post Hpost). cbn [go_extra].
    rewrite app_nil_r. reflexivity.
  - fold (patched_of r post) in *. fold (gargs_of r). fold (expected chars r post).
    destruct Hit as (Hwf & Hpre & Hlim & _ & _ & _ & Hpa).
    destruct fuel as [|k]; [lia|].
    assert (E : it_pre it ++ (37 :: tail_of (it_eff it) (it_verb it)) ++ patched_of r post
              = it_pre it ++ 37 :: (tail_of (it_eff it) (it_verb it) ++ patched_of r post)) by reflexivity.
    rewrite E in *. cbn [go_printf]. rewrite (span_lit_app _ (37 :: _) Hpre eq_refl).
    unfold it_gargs. rewrite <- app_assoc. change ([it_g it] ++ gargs_of r) with (it_g it :: gargs_of r).
    destruct (eff_wf_lim (it_d it) (it_wv it) (it_pv it) Hwf Hlim) as (Ewf & Elim).
    destruct (go_directive_render (it_eff it) (it_wv it) (eff_pv (it_d it) (it_pv it)) (it_verb it) (it_g it) (gargs_of r)
                (patched_of r post) Ewf Elim (go_conv_byte_ok _)) as (f & Hst & Hdir).
    rewrite Hdir. rewrite (Hpa f Hst). rewrite IH.
    + reflexivity.
    + rewrite app_length in Hf. cbn [length] in Hf. rewrite app_length in Hf. lia.
Qed.

Theorem sprintf_items chars ffmt items post extra :
  Forall (item_ok chars ffmt) items -> no_pct post = true ->
  sprintf chars ffmt (fmt_of items post) (args_of items extra) = Ok (expected chars items post).
Proof.
  intros H Hpost. unfold sprintf, parse_fmt_types. rewrite (parse_items chars ffmt items post H Hpost 0).
  replace (zlen (tys_of items) >? zlen (args_of items extra)) with false
    by (symmetry; rewrite Z.gtb_ltb; apply Z.ltb_ge; apply tys_args_len).
  pose proof (conv_items chars ffmt extra post items H [] [] 0) as C.
  cbn [app] in C. change (zlen (@nil Z) + 0) with 0 in C. change (zlen (@nil value)) with 0 in C. rewrite C. cbn [rbind fst snd].
  unfold go_sprintf. apply (go_items chars ffmt items post H Hpost). lia.
Qed.

Lemma item_ok_intro chars ffmt pre d wv pv aw ap a g c :
  wf_dir d = true -> no_pct pre = true -> lim d wv pv ->
  (d_width d = WStar -> awk_int (v_num aw) = Some wv) ->
  (d_prec d = PrStar -> awk_int (v_num ap) = Some pv) ->
  conv_arg chars ffmt (conv_ty (d_conv d)) a = Ok g ->
  (forall f, st_matches f (resolve (eff_dir d pv) wv (eff_pv d pv)) ->
     print_arg f g (go_conv_byte (d_conv d)) = Ok (c_directive chars d wv pv c)) ->
  item_ok chars ffmt (mkItem pre d wv pv aw ap a g c).
Proof.
  intros Hwf Hpre Hlim Hw Hp Hg Hpr. unfold item_ok, it_eff, it_verb. cbn [it_pre it_d it_wv it_pv it_aw it_ap it_a it_g it_c].
  split; [exact Hwf|]. split; [exact Hpre|]. split; [exact Hlim|]. split; [|split; [|split; assumption]].
  - intros E. apply conv_arg_d_in_range; [exact (Hw E)|]. destruct Hlim as [L _]. rewrite E in L. unfold two63. lia.
  - intros E. apply f2i64_awk_int; [exact (Hp E)|]. destruct Hlim as [_ L]. rewrite E in L. unfold two63 in *. lia.
Qed.

Theorem item_ok_int chars ffmt pre d wv pv aw ap a v :
  wf_dir d = true -> is_int_conv (d_conv d) = true -> no_pct pre = true -> lim d wv pv ->
  (d_width d = WStar -> awk_int (v_num aw) = Some wv) ->
  (d_prec d = PrStar -> awk_int (v_num ap) = Some pv) ->
  awk_int (v_num a) = Some v ->
  (conv_ty (d_conv d) = TyU -> - two63 <= v < two64) ->
  int_ok d (resolve d wv pv) v ->
  exists g, item_ok chars ffmt (mkItem pre d wv pv aw ap a g (AInt v)).
Proof.
  intros Hwf Hic Hpre Hlim Hw Hp Ha Hu Hok.
  destruct (int_arg_print chars ffmt d wv pv a v Hic Ha Hu Hok) as (g & Hg & Hpr). exists g.
  apply item_ok_intro; try assumption.
  rewrite resolve_eff by (destruct (d_conv d); try discriminate; reflexivity). exact Hpr.
Qed.

Theorem item_ok_s chars ffmt pre d wv pv aw ap a s :
  wf_dir d = true -> d_conv d = Cs -> c_defined d = true -> no_pct pre = true -> lim d wv pv ->
  (d_width d = WStar -> awk_int (v_num aw) = Some wv) ->
  (d_prec d = PrStar -> awk_int (v_num ap) = Some pv) ->
  v_str ffmt a = Ok s ->
  ascii s = true \/ (d_width d = WNone /\ d_prec d = PrNone) ->
  item_ok chars ffmt (mkItem pre d wv pv aw ap a (GStr s) (AStr s)).
Proof.
  intros Hwf Hc Hdef Hpre Hlim Hw Hp Ha Hok. apply item_ok_intro; try assumption.
  - rewrite Hc. cbn [conv_ty conv_arg]. rewrite Ha. reflexivity.
  - rewrite resolve_eff by (rewrite Hc; reflexivity).
    intros f Hst. unfold c_directive. unfold c_defined in Hdef. rewrite Hc in *.
    cbn [go_conv_byte print_arg Z.eqb Pos.eqb orb].
    apply andb_true_iff in Hdef as [_ H48]. apply negb_true_iff in H48.
    destruct Hok as [Hasc | [W0 P0]].
    + rewrite (fmt_s_ascii chars f _ s Hst (st_space_pad f d wv pv Hst H48) Hasc). reflexivity.
    + destruct (fmt_s_plain chars f (resolve d wv pv) s Hst) as [E1 E2].
      * unfold resolve. rewrite W0. reflexivity.
      * unfold resolve. rewrite P0. reflexivity.
      * rewrite E1, E2. reflexivity.
Qed.

Theorem item_ok_c chars ffmt pre d wv pv aw ap a ch :
  wf_dir d = true -> d_conv d = Cc -> c_defined d = true -> no_pct pre = true -> lim d wv pv ->
  (d_width d = WStar -> awk_int (v_num aw) = Some wv) ->
  conv_c chars ffmt a = Ok ch -> rune_count ch = 1 ->
  item_ok chars ffmt (mkItem pre d wv pv aw ap a (GBytes ch) (AChar ch)).
Proof.
  intros Hwf Hc Hdef Hpre Hlim Hw Ha H1.
  unfold c_defined in Hdef. rewrite Hc in Hdef. apply andb_true_iff in Hdef as [Hdef HP]. apply andb_true_iff in Hdef as [_ H48].
  apply negb_true_iff in H48. destruct (d_prec d) eqn:EP; try discriminate.
  apply item_ok_intro; try assumption.
  - rewrite EP. discriminate.
  - rewrite Hc. cbn [conv_ty conv_arg]. rewrite Ha. reflexivity.
  - rewrite resolve_eff by (rewrite Hc; reflexivity).
    intros f Hst. unfold c_directive. rewrite Hc. cbn [go_conv_byte print_arg Z.eqb Pos.eqb].
    rewrite (fmt_s_char f _ ch Hst (st_space_pad f d wv pv Hst H48)); [reflexivity | | exact H1].
    unfold resolve. rewrite EP. reflexivity.
Qed.

(* e E f g G of an infinity or NaN *)
Theorem item_ok_nonfinite chars ffmt pre d wv pv aw ap a x :
  wf_dir d = true -> is_float_conv (d_conv d) = true -> no_pct pre = true -> lim d wv pv ->
  (d_width d = WStar -> awk_int (v_num aw) = Some wv) ->
  (d_prec d = PrStar -> awk_int (v_num ap) = Some pv) ->
  v_num a = x -> (match x with FFin _ _ => False | _ => True end) ->
  item_ok chars ffmt (mkItem pre d wv pv aw ap a (GNonFinite x) (ANonFin x)).
Proof.
  intros Hwf Hfc Hpre Hlim Hw Hp Hx Hnf. apply item_ok_intro; try assumption.
  - destruct (d_conv d); try discriminate; cbn [conv_ty conv_arg]; rewrite Hx; destruct x; try contradiction; reflexivity.
  - intros f Hst. cbn [print_arg]. rewrite (nf_format_nonfinite f _ x _ Hst Hnf).
    (* the specification of non-finite values does not look at the precision *)
    assert (E : forall r r' up, r_minus r = r_minus r' -> r_plus r = r_plus r' -> r_space r = r_space r' ->
                r_zero r = r_zero r' -> r_width r = r_width r' -> c_nonfinite r x up = c_nonfinite r' x up).
    { intros r r' up A B C D W. unfold c_nonfinite, c_field. rewrite A, B, C, D, W. reflexivity. }
    unfold c_directive.
    assert (R : forall up, c_nonfinite (resolve (eff_dir d pv) wv (eff_pv d pv)) x up = c_nonfinite (resolve d wv pv) x up).
    { intros up. apply E; destruct d as [fl w p cv]; unfold eff_dir, eff_pv, resolve, set_dprec; cbn [d_flags d_width d_prec d_conv];
        destruct p; try reflexivity; try (destruct (is_g cv); reflexivity);
        destruct ((pv <? 0) && negb (is_float_conv cv)); reflexivity. }
    rewrite R. destruct (d_conv d); try discriminate; reflexivity.
Qed.

Lemma sprintf_one chars ffmt it post extra : item_ok chars ffmt it -> no_pct post = true ->
  sprintf chars ffmt (it_pre it ++ render (it_d it) ++ post)
                     (args_for (it_d it) (it_aw it) (it_ap it) (it_a it) extra)
  = Ok (it_pre it ++ c_directive chars (it_d it) (it_wv it) (it_pv it) (it_c it) ++ post).
Proof. intros H Hp. exact (sprintf_items chars ffmt [it] post extra (Forall_cons _ H (Forall_nil _)) Hp). Qed.

Theorem sprintf_int_agree chars ffmt d pre post aw ap a extra wv pv v :
  wf_dir d = true -> is_int_conv (d_conv d) = true ->
  no_pct pre = true -> no_pct post = true ->
  lim d wv pv ->
  (d_width d = WStar -> awk_int (v_num aw) = Some wv) ->
  (d_prec d = PrStar -> awk_int (v_num ap) = Some pv) ->
  awk_int (v_num a) = Some v ->
  (conv_ty (d_conv d) = TyU -> - two63 <= v < two64) ->
  int_ok d (resolve d wv pv) v ->
  sprintf chars ffmt (pre ++ render d ++ post) (args_for d aw ap a extra)
  = Ok (pre ++ c_directive chars d wv pv (AInt v) ++ post).
Proof.
  intros Hwf Hic Hpre Hpost Hlim Hw Hp Ha Hu Hok.
  destruct (item_ok_int chars ffmt pre d wv pv aw ap a v Hwf Hic Hpre Hlim Hw Hp Ha Hu Hok) as [g Hg].
  exact (sprintf_one chars ffmt _ post extra Hg Hpost).
Qed.

Theorem sprintf_s_agree chars ffmt d pre post aw ap a extra wv pv s :
  wf_dir d = true -> d_conv d = Cs -> c_defined d = true ->
  no_pct pre = true -> no_pct post = true -> lim d wv pv ->
  (d_width d = WStar -> awk_int (v_num aw) = Some wv) ->
  (d_prec d = PrStar -> awk_int (v_num ap) = Some pv) ->
  v_str ffmt a = Ok s ->
  ascii s = true \/ (d_width d = WNone /\ d_prec d = PrNone) ->
  sprintf chars ffmt (pre ++ render d ++ post) (args_for d aw ap a extra)
  = Ok (pre ++ c_directive chars d wv pv (AStr s) ++ post).
Proof.
  intros Hwf Hc Hdef Hpre Hpost Hlim Hw Hp Ha Hok.
  exact (sprintf_one chars ffmt _ post extra (item_ok_s chars ffmt pre d wv pv aw ap a s Hwf Hc Hdef Hpre Hlim Hw Hp Ha Hok) Hpost).
Qed.

Theorem sprintf_c_agree chars ffmt d pre post aw ap a extra wv pv ch :
  wf_dir d = true -> d_conv d = Cc -> c_defined d = true ->
  no_pct pre = true -> no_pct post = true -> lim d wv pv ->
  (d_width d = WStar -> awk_int (v_num aw) = Some wv) ->
  conv_c chars ffmt a = Ok ch -> rune_count ch = 1 ->
  sprintf chars ffmt (pre ++ render d ++ post) (args_for d aw ap a extra)
  = Ok (pre ++ c_directive chars d wv pv (AChar ch) ++ post).
Proof.
  intros Hwf Hc Hdef Hpre Hpost Hlim Hw Ha H1.
  exact (sprintf_one chars ffmt _ post extra (item_ok_c chars ffmt pre d wv pv aw ap a ch Hwf Hc Hdef Hpre Hlim Hw Ha H1) Hpost).
Qed.

Theorem sprintf_nonfinite_agree chars ffmt d pre post aw ap a extra wv pv x :
  wf_dir d = true -> is_float_conv (d_conv d) = true ->
  no_pct pre = true -> no_pct post = true -> lim d wv pv ->
  (d_width d = WStar -> awk_int (v_num aw) = Some wv) ->
  (d_prec d = PrStar -> awk_int (v_num ap) = Some pv) ->
  v_num a = x -> (match x with FFin _ _ => False | _ => True end) ->
  sprintf chars ffmt (pre ++ render d ++ post) (args_for d aw ap a extra)
  = Ok (pre ++ c_directive chars d wv pv (ANonFin x) ++ post).
Proof.
  intros Hwf Hfc Hpre Hpost Hlim Hw Hp Hx Hnf.
  exact (sprintf_one chars ffmt _ post extra (item_ok_nonfinite chars ffmt pre d wv pv aw ap a x Hwf Hfc Hpre Hlim Hw Hp Hx Hnf) Hpost).
Qed.
