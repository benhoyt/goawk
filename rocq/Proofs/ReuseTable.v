(* C14, layer (a): obligations over the GENERATED table Gen/InterpFields.v (which function of package interp
   writes which field of struct interp) and the committed classification Model/Reuse.roles.
   Everything here is finite and decided by computation; a field added to the struct, a reset line removed,
   a new writer, a changed right-hand side changes the generated table and breaks one of these statements. *)
From Coq Require Import String List ZArith Bool.
From Verif Require Import Lib.Base Gen.InterpFields Model.Reuse.
Import ListNotations.
Open Scope string_scope.

(* fields certainly (re)assigned by a function on every path that does not return an error *)
Definition must_fields (l : list write) : list field := map w_field (filter w_must l).

Definition resetRand_fields : list field :=
  must_fields fn_ResetRand ++ map fst (filter (fun p => pair_mem p mutating_methods) methods_ResetRand).

(* written while a program runs, or by setExecuteConfig and what it calls (the Vars loop) *)
Definition mutable (f : field) : bool := mem f run_mutable || mem f may_setExecuteConfig.

Definition writers_of (f : field) : list string :=
  map fst (filter (fun p => String.eqb (w_field (snd p)) f) writes_elsewhere).

Definition reset_ok (f : field) : bool :=
  match role_of f with
  | Some RunState =>
      negb (mutable f) || mem f (must_fields fn_resetCore) || mem f (must_fields fn_setExecuteConfig)
  | Some VarState => mem f (must_fields fn_resetVars)
  | Some RandState => mem f resetRand_fields
  | Some ConfigSet =>
      mem f (must_fields fn_setExecuteConfig) ||
      (mem f (must_fields fn_Execute) && mem f (must_fields fn_ExecuteContext))
  | Some CtxState => mem f (must_fields fn_ExecuteContext)
  | Some ProgramConst => mem f const_fields && mem f (must_fields fn_newInterp)
  | Some ConfigOnce =>
      negb (mem f run_mutable) && forallb (String.eqb "initNativeFuncs") (writers_of f) &&
      mem "initNativeFuncs" calls_setExecuteConfig && mem f nil_tested
  | Some LineShadow =>
      (* written by setLine only (which also sets the record), and resetCore empties the record *)
      forallb (String.eqb "setLine") (writers_of f) && mem "setLine" (writers_of "line") &&
      mem "line" (must_fields fn_resetCore) && mem "haveFields" (must_fields fn_resetCore) &&
      mem "fields" (must_fields fn_resetCore) && mem "reparseCSV" (must_fields fn_resetCore)
  | Some Cache | Some Scratch => true
  | None => false
  end.

Definition unreset_fields : list field := filter (fun f => negb (reset_ok f)) all_fields.

(* side conditions that give the table its meaning *)
Definition table_wf : bool :=
  (* every struct field is classified, nothing else is *)
  forallb (fun f => mem f (map fst roles)) all_fields && forallb (fun f => mem f all_fields) (map fst roles) &&
  (* every field type is one the model knows the zero value of *)
  forallb (fun ft => match zero_of_type (mkEnv VNil VNil VNil VNil false) (snd ft) with Some _ => true | None => false end)
          struct_fields &&
  (* every function that writes a field is reachable from executeAll or setExecuteConfig *)
  match other_writers with [] => true | _ => false end &&
  (* every method called on a field value is classified as mutating or not *)
  forallb (fun t => pair_mem (snd (fst t), snd t) mutating_methods || pair_mem (snd (fst t), snd t) pure_methods)
          field_methods &&
  (* Execute and ExecuteContext: resetCore, then setExecuteConfig, then executeAll *)
  forallb (fun l => match l with
                    | ["resetCore"; "setExecuteConfig"; "executeAll"] => true
                    | _ => false
                    end) [calls_Execute; calls_ExecuteContext].

Definition reset_complete : Prop := table_wf = true /\ unreset_fields = [].

Lemma table_wf_holds : table_wf = true.
Proof. vm_compute. reflexivity. Qed.

(* every mutable RunState field is certainly assigned by resetCore or setExecuteConfig, every variable by
   resetVars, the random state by ResetRand, every ConfigSet field by setExecuteConfig or the prologue, the
   context fields by ExecuteContext, constants are written by newInterp only, nativeFuncs by initNativeFuncs
   only; no field is unclassified *)
Lemma reset_complete_holds : reset_complete.
Proof. split; [exact table_wf_holds | vm_compute; reflexivity]. Qed.

(* the three fields that used to leak (F-C14-1, F-C14-2, repaired) are written during a run and are now
   assigned by resetCore *)
Lemma formerly_leaking_reset :
  forallb (fun f => mem f may_run && mem f (must_fields fn_resetCore)) ["fieldNames"; "fieldIndexes"; "reparseCSV"] = true.
Proof. vm_compute. reflexivity. Qed.

(* ---------- the per-Interpreter caches survive resetCore by design: their entries must be functions of the key alone ----------
   formatCache is filled by parseFmtTypes, regexCache by compileRegex.  Neither filler (nor anything it calls)
   may mention a field of struct interp other than its own cache and the program constants: in particular
   nothing that setExecuteConfig, the prologue or a run writes (Chars, modes, CONVFMT ...), otherwise an entry made
   under one Config would be reused under another. *)
Definition cache_fillers : list (field * list field) :=
  [ ("formatCache", refs_parseFmtTypes); ("regexCache", refs_compileRegex) ].
Definition caches_config_independent : bool :=
  forallb (fun cf => has_role Cache (fst cf) && mem (fst cf) (snd cf) &&
                     forallb (fun f => String.eqb f (fst cf) || mem f const_fields) (snd cf)) cache_fillers &&
  (* the only writers of the two caches are their fillers *)
  forallb (String.eqb "parseFmtTypes") (writers_of "formatCache") &&
  forallb (String.eqb "compileRegex") (writers_of "regexCache").

Lemma caches_config_independent_holds : caches_config_independent = true.
Proof. vm_compute. reflexivity. Qed.

(* ---------- the hand-written model agrees with the generated table ---------- *)

(* the model value of a Go right-hand side that is a constant *)
Definition rhs_val (k : wkind) (rhs : string) : option val :=
  match k with
  | ClearMap => Some VNil
  | Whole =>
      if String.eqb rhs "nil" then Some VNil
      else if String.eqb rhs "0" then Some (VI 0)
      else if String.eqb rhs "false" then Some (VB false)
      else if String.eqb rhs """""" then Some (VS [])
      else if String.eqb rhs "num(0)" then Some v_num0
      else if String.eqb rhs "null()" then Some v_null
      else if String.eqb rhs "p.localArrays[:0]" then Some VNil
      else if String.eqb rhs """%.6g""" then Some (VS b_fmt6g)
      else if String.eqb rhs """ """ then Some (VS b_space)
      else if String.eqb rhs """\n""" then Some (VS b_nl)
      else if String.eqb rhs """\x1c""" then Some (VS b_subsep)
      else if String.eqb rhs "1.0" then Some (VF one_bits)
      else None
  | _ => None
  end.

Fixpoint binds_match (ws : list write) (bs : list (field * val)) : bool :=
  match ws, bs with
  | [], [] => true
  | w :: ws', (f, v) :: bs' =>
      String.eqb (w_field w) f && w_must w &&
      match rhs_val (w_kind w) (w_rhs w) with Some v' => val_eqb v v' | None => false end &&
      binds_match ws' bs'
  | _, _ => false
  end.

Definition dedup (l : list string) : list string :=
  fold_right (fun x acc => if mem x acc then acc else x :: acc) [] l.
Definition set_eqb (a b : list string) : bool := subset a b && subset b a.

Definition step_targets (l : list step) : list field :=
  flat_map (fun st => match st with SSet f _ _ => [f] | SInitOnce f _ => [f] | _ => [] end) l.

(* newInterp: the constant right-hand sides, and the whole-field writes in order *)
Definition newInterp_whole : list write := filter (fun w => match w_kind w with Whole => true | _ => false end) fn_newInterp.
Definition newInterp_consts_match : bool :=
  forallb (fun w => match rhs_val Whole (w_rhs w), alookup (w_field w) (newInterp_binds (mkEnv VNil VNil VNil VNil false)
                                                  (mkPc VNil VNil VNil VNil VNil VNil VNil)) with
                    | Some v, Some v' => val_eqb v v'
                    | None, Some _ => true
                    | _, None => false
                    end) newInterp_whole.

Definition kind_eqb (a b : wkind) : bool :=
  match a, b with
  | Whole, Whole | Elem, Elem | Sub, Sub | Addr, Addr | Delete, Delete | ClearMap, ClearMap
  | FillElems, FillElems | ClearElemMaps, ClearElemMaps => true
  | _, _ => false
  end.
(* w is the write (field, kind, rhs) and certainly executed; rhs "*" = any *)
Definition is_write (w : write) (f : string) (k : wkind) (rhs : string) : bool :=
  String.eqb (w_field w) f && kind_eqb (w_kind w) k && (String.eqb rhs "*" || String.eqb (w_rhs w) rhs) && w_must w.
Fixpoint strs_eqb (a b : list string) : bool :=
  match a, b with
  | [], [] => true
  | x :: a', y :: b' => String.eqb x y && strs_eqb a' b'
  | _, _ => false
  end.
Definition env0 := mkEnv VNil VNil VNil VNil false.
Definition pc0 := mkPc VNil VNil VNil VNil VNil VNil VNil.

Definition model_matches_table : bool :=
  binds_match fn_resetCore resetCore_binds &&
  (match fn_resetVars with
   | w1 :: w2 :: rest => is_write w1 "globals" FillElems "null()" && is_write w2 "arrays" ClearElemMaps "*" &&
                         binds_match rest resetVars_binds
   | _ => false
   end) &&
  (match fn_ResetRand, methods_ResetRand with
   | [w], [(f, m)] => is_write w "randSeed" Whole "1.0" && String.eqb f "random" && String.eqb m "Seed"
   | _, _ => false
   end) &&
  (match fn_Execute with [w] => is_write w "checkCtx" Whole "false" | _ => false end) &&
  (match fn_ExecuteContext with
   | [w1; w2; w3; w4] => is_write w1 "checkCtx" Whole "*" && is_write w2 "ctx" Whole "ctx" &&
                         is_write w3 "ctxDone" Whole "ctx.Done()" && is_write w4 "ctxOps" Whole "0"
   | _ => false
   end) &&
  strs_eqb (map w_field newInterp_whole) (map fst (newInterp_binds env0 pc0)) &&
  newInterp_consts_match &&
  set_eqb (dedup (map w_field fn_setExecuteConfig) ++ ["arrays"; "nativeFuncs"])
          (dedup (step_targets setExecuteConfig_steps)) &&
  forallb (fun w => w_must w || match w_kind w with Sub => true | _ => false end) fn_setExecuteConfig &&
  subset ["setArrayValue"; "setVarByName"; "initNativeFuncs"; "validateCSVInputConfig"; "validateCSVOutputConfig"]
         calls_setExecuteConfig.

(* the bindings of the hand-written resetCore / resetVars / ResetRand / prologue / newInterp / setExecuteConfig
   are, field by field and constant by constant, the writes the translator found in the Go functions *)
Lemma model_matches_table_holds : model_matches_table = true.
Proof. vm_compute. reflexivity. Qed.
