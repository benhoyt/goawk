(* C08: the accounting of one call of csvSplitter.scan: [advance] counts exactly the bytes
   consumed, and the token ($0) is a slice of the data the call was given - it cannot reach
   what the buffer holds behind the data, and the slice cannot panic. *)
From Verif Require Import Lib.Base Lib.Utf8 Model.Csv Proofs.CsvBase Proofs.CsvFuel.
From Coq Require Import ZifyBool.

Section Account.
Variable c : csv_cfg.
Variable e : bool.
Hypothesis Hsep : valid_sep (c_sep c).

(* what parse returns as [advance] accounts for every byte it consumed *)
Lemma parse_acct : forall f,
  (forall line data adv done cr adv' fields cr',
     parse_field c e f line data adv done cr = PDone adv' fields cr' ->
     exists dataF, suffix_of dataF data /\ adv' + zlen dataF = adv + zlen line + zlen data) /\
  (forall line data adv cur done cr adv' fields cr',
     parse_quoted c e f line data adv cur done cr = PDone adv' fields cr' ->
     exists dataF, suffix_of dataF data /\ adv' + zlen dataF = adv + zlen line + zlen data).
Proof.
  induction f as [|f [IHf IHq]]; split; intros until cr'; intros H; try discriminate.
  - rewrite parse_field_S in H. destruct (starts_quote line) eqn:Q.
    + destruct (starts_quote_inv _ Q) as [t ->]. rewrite zdrop_1_cons in H.
      destruct (IHq _ _ _ _ _ _ _ _ _ H) as (dF & Hs & Ha). exists dF. split; [exact Hs|]. zl. lia.
    + destruct (cut_sub (sep_bytes c) line) as [[field rest]|] eqn:E.
      * apply cut_sub_some_inv in E. subst line.
        destruct (IHf _ _ _ _ _ _ _ _ H) as (dF & Hs & Ha). exists dF. split; [exact Hs|].
        rewrite (sep_len_zlen c Hsep) in Ha. zl. lia.
      * injection H as <- _ _. exists data. split; [apply suffix_refl | lia].
  - rewrite parse_quoted_S in H. destruct (cut_byte 34 line) as [[pre line1]|] eqn:E.
    + apply cut_byte_some_inv in E as [-> _]. cbv zeta in H.
      destruct (Z.eqb_spec (next_rune line1) 34) as [R34|_].
      { destruct (next_rune_34 _ R34) as [t ->]. rewrite zdrop_1_cons in H.
        destruct (IHq _ _ _ _ _ _ _ _ _ H) as (dF & Hs & Ha). exists dF. split; [exact Hs|]. zl. lia. }
      destruct (Z.eqb_spec (next_rune line1) (c_sep c)) as [Rs|_].
      { destruct (next_rune_sep c _ Hsep Rs) as [t ->]. rewrite (sep_len_zlen c Hsep), zdrop_zlen_app in H.
        destruct (IHf _ _ _ _ _ _ _ _ H) as (dF & Hs & Ha). exists dF. split; [exact Hs|]. zl. lia. }
      destruct (len_newline line1 =? zlen line1).
      { injection H as <- _ _. exists data. split; [apply suffix_refl|]. zl. lia. }
      destruct (IHq _ _ _ _ _ _ _ _ _ H) as (dF & Hs & Ha). exists dF. split; [exact Hs|]. zl. lia.
    + destruct line as [|x line].
      * injection H as <- _ _. exists data. split; [apply suffix_refl|]. zl. lia.
      * cbv zeta in H. destruct (read_line data e) as [[[l d] inc]|] eqn:R; [|discriminate].
        apply read_line_acct in R as (Rz & Rs & Ri).
        destruct (IHq _ _ _ _ _ _ _ _ _ H) as (dF & Hs & Ha). exists dF.
        split; [eapply suffix_trans; eassumption | lia].
Qed.

(* where a row found by the two loops lies: [skip] and the start of its first line do not
   lie before the start, and its end lies behind that line's start and within the data *)
Lemma row_acct f f' data adv0 line d adv1 skip adv fields cr :
  skip_lines c e f data adv0 adv0 = SkLine line d adv1 skip ->
  parse_field c e f' line d adv1 [] false = PDone adv fields cr ->
  adv0 <= skip <= adv1 /\ adv1 + 1 <= adv <= adv0 + zlen data.
Proof.
  intros Sk P. apply skip_acct in Sk as (_ & Sa & S1 & S2 & Hline).
  destruct (proj1 (parse_acct _) _ _ _ _ _ _ _ _ P) as (dF & [pre ->] & Pa).
  rewrite zlen_app in Sa, Pa. pose proof (zlen_nonneg pre). pose proof (zlen_nonneg dF). lia.
Qed.

End Account.

(* how the token is finished: line terminator cut off, CRs removed after a CR LF in quotes *)
Definition finish_token (cr : bool) (t : bytes) : bytes :=
  let t := ztake (zlen t - len_newline t) t in if cr then remove_cr t else t.

Lemma slice_cap_inside (l stale : bytes) nz lo hi : 0 <= lo <= hi -> hi <= zlen l -> 0 <= nz ->
  slice_cap (l ++ stale) nz lo hi = Ok (ztake (hi - lo) (zdrop lo l)).
Proof.
  intros H1 H2 H3. unfold slice_cap. pose proof (zlen_nonneg stale).
  replace ((0 <=? lo) && (lo <=? hi) && (hi <=? zlen (l ++ stale) + nz)) with true by (zl; lia).
  replace (Z.to_nat (hi - zlen (l ++ stale))) with 0%nat by (zl; lia).
  cbn [repeat]. rewrite app_nil_r. f_equal. unfold ztake, zdrop.
  rewrite skipn_app. rewrite firstn_app. rewrite skipn_length.
  replace (Z.to_nat (hi - lo) - (length l - Z.to_nat lo))%nat with 0%nat by (unfold zlen in *; lia).
  cbn [firstn]. apply app_nil_r.
Qed.

(* the slice of a row that lies within the data does not reach behind the data *)
Lemma scan_done_inside c s data stale nz skip adv fields cr :
  0 <= skip <= adv -> adv <= zlen data -> 0 <= nz ->
  scan_done c s data stale nz skip adv fields cr =
    (mkSt true (st_row s + 1),
     if (st_row s =? 0) && c_header c then OHeader adv fields
     else ORecord adv (finish_token cr (ztake (adv - skip) (zdrop skip data))) fields).
Proof. intros H1 H2 H3. unfold scan_done. rewrite slice_cap_inside by lia. reflexivity. Qed.

(* The accounting of one call: [advance] stays within the data, the token is the finished
   slice data[skip:advance] - whatever the buffer holds behind the data - with [skip] behind
   a BOM the call stripped, and the slice never panics. *)
Theorem scan_accounting c s data stale nz e : valid_sep (c_sep c) -> 0 <= nz ->
  match snd (scan c s data stale nz e) with
  | ORecord adv tok fields =>
      0 <= adv <= zlen data /\
      exists skip cr, 0 <= skip <= adv /\
        (negb (st_noBOM s) && prefix_of bom data = true -> 3 <= skip) /\
        tok = finish_token cr (ztake (adv - skip) (zdrop skip data))
  | OHeader adv _ => 0 <= adv <= zlen data
  | OPanic => False
  | _ => True
  end.
Proof.
  intros Hv Hnz.
  destruct (scan_cases c s data stale nz e)
    as [-> | (line & d & adv1 & skip & adv & fields & cr & _ & Sk & P & ->)]; [exact I|].
  pose proof (row_acct c e Hv _ _ _ _ _ _ _ _ _ _ _ Sk P) as [H1 H2].
  pose proof (bdy_len s data) as [HB HA]. rewrite scan_done_inside by lia. cbn [snd].
  destruct ((st_row s =? 0) && c_header c); [lia|]. split; [lia|].
  exists skip, cr. split; [lia|]. split; [|reflexivity].
  intros B. unfold a0, isbom in H1. rewrite B in H1. lia.
Qed.
