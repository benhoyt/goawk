(* C06, part 1: the splitting and joining functions of Model/Fields.v obey the FS rules.
   Everything here is for ALL byte strings and match lists. *)
From Verif Require Import Lib.Base Lib.Dyadic Lib.Utf8 Lib.Regex Model.Fields.

(* literal separator: strings.Split *)

Lemma is_prefix_split t s : is_prefix t s = true -> s = t ++ zdrop (zlen t) s.
Proof.
  revert s; induction t as [|x t IH]; intros s H.
  - reflexivity.
  - destruct s as [|y s]; cbn [is_prefix] in H; [discriminate|].
    apply andb_true_iff in H as [H1 H2]. apply Z.eqb_eq in H1. subst y.
    rewrite zlen_cons. unfold zdrop.
    replace (Z.to_nat (1 + zlen t)) with (S (Z.to_nat (zlen t))) by (pose proof (zlen_nonneg t); lia).
    cbn [skipn app]. f_equal. apply IH. exact H2.
Qed.

Lemma is_prefix_app t s r : is_prefix t s = true -> is_prefix t (s ++ r) = true.
Proof.
  revert s; induction t as [|x t IH]; intros s H; [reflexivity|].
  destruct s as [|y s]; cbn [is_prefix] in H; [discriminate|].
  apply andb_true_iff in H as [H1 H2]. cbn [app is_prefix]. rewrite H1, (IH _ H2). reflexivity.
Qed.

Lemma is_prefix_self_app t r : is_prefix t (t ++ r) = true.
Proof. induction t as [|x t IH]; [reflexivity|]. cbn [app is_prefix]. rewrite Z.eqb_refl, IH. reflexivity. Qed.

Lemma find_sub_some sep s a b : find_sub sep s = Some (a, b) -> s = a ++ sep ++ b.
Proof.
  revert a b; induction s as [|c s IH]; intros a b H.
  - cbn [find_sub] in H. destruct (is_prefix sep []) eqn:E; [|discriminate].
    injection H as <- <-. cbn [app]. exact (is_prefix_split _ _ E).
  - cbn [find_sub] in H. destruct (is_prefix sep (c :: s)) eqn:E.
    + injection H as <- <-. cbn [app]. exact (is_prefix_split _ _ E).
    + destruct (find_sub sep s) as [[a' b']|] eqn:F; [|discriminate].
      injection H as <- <-. cbn [app]. f_equal. apply IH. reflexivity.
Qed.

Lemma find_sub_first sep s a b : find_sub sep s = Some (a, b) -> sep <> [] -> find_sub sep a = None.
Proof.
  intros H Hne. revert a b H; induction s as [|c s IH]; intros a b H.
  - cbn [find_sub] in H. destruct (is_prefix sep []) eqn:E; [|discriminate].
    destruct sep; [congruence|discriminate].
  - cbn [find_sub] in H. destruct (is_prefix sep (c :: s)) eqn:E.
    + injection H as <- <-. destruct sep; [congruence|reflexivity].
    + destruct (find_sub sep s) as [[a' b']|] eqn:F; [|discriminate].
      injection H as <- <-. cbn [find_sub].
      destruct (is_prefix sep (c :: a')) eqn:E2.
      * pose proof (find_sub_some _ _ _ _ F) as Hs. subst s.
        change (c :: a' ++ sep ++ b') with ((c :: a') ++ sep ++ b') in E.
        rewrite (is_prefix_app _ _ _ E2) in E. discriminate.
      * rewrite (IH _ _ eq_refl). reflexivity.
Qed.

Lemma find_sub_none_no_occurrence sep s :
  find_sub sep s = None -> forall a b, s <> a ++ sep ++ b.
Proof.
  induction s as [|c s IH]; intros H a b Heq.
  - cbn [find_sub] in H. destruct (is_prefix sep []) eqn:E; [discriminate|].
    destruct a; [|discriminate]. destruct sep; [discriminate|discriminate].
  - cbn [find_sub] in H. destruct (is_prefix sep (c :: s)) eqn:E; [discriminate|].
    destruct (find_sub sep s) as [[a' b']|] eqn:F; [discriminate|].
    destruct a as [|x a].
    + cbn [app] in Heq. rewrite Heq, is_prefix_self_app in E. discriminate.
    + cbn [app] in Heq. injection Heq as -> Hs. exact (IH eq_refl _ _ Hs).
Qed.

Lemma find_sub_shorter sep s a b :
  find_sub sep s = Some (a, b) -> sep <> [] -> (length b < length s)%nat.
Proof.
  intros H Hne. apply find_sub_some in H. subst s. rewrite !app_length.
  destruct sep; [congruence|]. cbn [length]. lia.
Qed.

Lemma join_cons sep a l : l <> [] -> join sep (a :: l) = a ++ sep ++ join sep l.
Proof. destruct l; [congruence|reflexivity]. Qed.

Lemma split_fuel_nonempty fuel sep s : split_fuel fuel sep s <> [].
Proof. destruct fuel; cbn [split_fuel]; [discriminate|]. destruct (find_sub sep s) as [[a b]|]; discriminate. Qed.

Lemma join_split_fuel fuel sep s : join sep (split_fuel fuel sep s) = s.
Proof.
  revert s; induction fuel as [|f IH]; intros s; cbn [split_fuel]; [reflexivity|].
  destruct (find_sub sep s) as [[a b]|] eqn:F; [|reflexivity].
  rewrite join_cons by apply split_fuel_nonempty. rewrite IH.
  symmetry. exact (find_sub_some _ _ _ _ F).
Qed.

Theorem join_split_lit sep s : join sep (split_lit sep s) = s.
Proof. apply join_split_fuel. Qed.

(* the fuel is never exhausted: no piece contains the separator *)
Lemma split_fuel_no_sep fuel sep s :
  sep <> [] -> (length s < fuel)%nat ->
  Forall (fun f => find_sub sep f = None) (split_fuel fuel sep s).
Proof.
  intros Hne. revert s; induction fuel as [|f IH]; intros s Hlen; [lia|].
  cbn [split_fuel]. destruct (find_sub sep s) as [[a b]|] eqn:F.
  - constructor; [exact (find_sub_first _ _ _ _ F Hne)|].
    apply IH. pose proof (find_sub_shorter _ _ _ _ F Hne). lia.
  - constructor; [exact F|constructor].
Qed.

Theorem split_lit_no_sep sep s :
  sep <> [] -> Forall (fun f => forall a b, f <> a ++ sep ++ b) (split_lit sep s).
Proof.
  intros Hne. eapply Forall_impl; [|apply (split_fuel_no_sep (S (length s)) sep s Hne); lia].
  intros f Hf. exact (find_sub_none_no_occurrence _ _ Hf).
Qed.

(* FS = " ": io.go splitBlanks (runs of space, tab, newline) *)

Definition nonspace (c : Z) : Prop := is_blank c = false.

(* the three laws that determine the function on every byte string:
   nothing from nothing; a blank-free non-empty run is one field;
   a blank between two parts separates them (and vanishes). *)
Lemma fields_bytes_run f cur inf :
  Forall nonspace f -> (f <> [] \/ inf = true) ->
  fields_bytes f cur inf = [cur ++ f].
Proof.
  revert cur inf; induction f as [|c f IH]; intros cur inf Hf Hne.
  - destruct Hne as [Hne| ->]; [congruence|]. cbn [fields_bytes]. rewrite app_nil_r. reflexivity.
  - inversion Hf as [|? ? Hc Hf']; subst. cbn [fields_bytes]. unfold nonspace in Hc. rewrite Hc.
    rewrite IH; [|exact Hf'|right; reflexivity]. rewrite <- app_assoc. reflexivity.
Qed.

Lemma fields_bytes_sep a sp b cur inf :
  is_blank sp = true ->
  fields_bytes (a ++ sp :: b) cur inf = fields_bytes a cur inf ++ fields_bytes b [] false.
Proof.
  intros Hsp. revert cur inf; induction a as [|c a IH]; intros cur inf.
  - cbn [app fields_bytes]. rewrite Hsp. destruct inf; reflexivity.
  - cbn [app fields_bytes]. destruct (is_blank c).
    + destruct inf; cbn [app]; rewrite IH; reflexivity.
    + apply IH.
Qed.

Theorem fields_bytes_nil : fields_bytes [] [] false = [].
Proof. reflexivity. Qed.

Theorem fields_bytes_one_run f :
  Forall nonspace f -> f <> [] -> fields_bytes f [] false = [f].
Proof. intros Hf Hne. rewrite fields_bytes_run; [reflexivity|exact Hf|left; exact Hne]. Qed.

Theorem fields_bytes_separator a sp b :
  is_blank sp = true ->
  fields_bytes (a ++ sp :: b) [] false = fields_bytes a [] false ++ fields_bytes b [] false.
Proof. apply fields_bytes_sep. Qed.

Corollary fields_bytes_leading sp b :
  is_blank sp = true -> fields_bytes (sp :: b) [] false = fields_bytes b [] false.
Proof. intros H. exact (fields_bytes_separator [] sp b H). Qed.

Corollary fields_bytes_trailing a sp :
  is_blank sp = true -> fields_bytes (a ++ [sp]) [] false = fields_bytes a [] false.
Proof. intros H. rewrite (fields_bytes_separator a sp [] H). cbn [fields_bytes]. apply app_nil_r. Qed.

Lemma fields_bytes_all_ok cs : forall cur inf,
  Forall nonspace cur -> (inf = false -> cur = []) -> (inf = true -> cur <> []) ->
  Forall (fun f => f <> [] /\ Forall nonspace f) (fields_bytes cs cur inf).
Proof.
  induction cs as [|c cs IH]; intros cur inf Hcur Hf Ht.
  - cbn [fields_bytes]. destruct inf; [|constructor].
    constructor; [|constructor]. split; [apply Ht; reflexivity|exact Hcur].
  - cbn [fields_bytes]. destruct (is_blank c) eqn:Ec.
    + destruct inf.
      * constructor; [split; [apply Ht; reflexivity|exact Hcur]|].
        apply IH; [constructor|reflexivity|discriminate].
      * apply IH; [constructor|reflexivity|discriminate].
    + apply IH.
      * apply Forall_app. split; [exact Hcur|constructor; [exact Ec|constructor]].
      * discriminate.
      * intros _. destruct cur; discriminate.
Qed.

Theorem fields_bytes_nonempty_spacefree cs :
  Forall (fun f => f <> [] /\ Forall nonspace f) (fields_bytes cs [] false).
Proof. apply fields_bytes_all_ok; [constructor|reflexivity|discriminate]. Qed.

Lemma fields_bytes_concat cs : forall cur inf,
  (inf = false -> cur = []) ->
  concat (fields_bytes cs cur inf) = cur ++ filter (fun c => negb (is_blank c)) cs.
Proof.
  induction cs as [|c cs IH]; intros cur inf Hc.
  - cbn [fields_bytes filter]. destruct inf; cbn [concat]; rewrite ?app_nil_r; [reflexivity|].
    rewrite Hc; reflexivity.
  - cbn [fields_bytes filter]. destruct (is_blank c) eqn:Ec; cbn [negb].
    + destruct inf; cbn [concat]; rewrite IH by reflexivity; [reflexivity|].
      rewrite Hc; reflexivity.
    + rewrite IH by discriminate. rewrite <- app_assoc. reflexivity.
Qed.

Theorem split_blanks_fields_ok s :
  Forall (fun f => f <> [] /\ Forall nonspace f) (split_blanks s).
Proof. apply fields_bytes_nonempty_spacefree. Qed.

Theorem split_blanks_concat s :
  concat (split_blanks s) = filter (fun c => negb (is_blank c)) s.
Proof. unfold split_blanks. rewrite fields_bytes_concat by reflexivity. reflexivity. Qed.

Theorem is_blank_spec b : is_blank b = true <-> b = 32 \/ b = 9 \/ b = 10.
Proof.
  unfold is_blank. rewrite !orb_true_iff, !Z.eqb_eq. tauto.
Qed.

(* regex FS: splitOnFieldSepRegex *)

Definition sub (ln : bytes) (a b : Z) : bytes := ztake (b - a) (zdrop a ln).

(* what FindAllStringIndex is relied on for: matches in order, inside the text *)
Fixpoint matches_sorted (lo hi : Z) (ms : list (Z * Z)) : Prop :=
  match ms with
  | [] => True
  | (a, b) :: ms' => lo <= a /\ a <= b /\ b <= hi /\ matches_sorted b hi ms'
  end.

(* fields and non-empty separators alternate and concatenate back to the text *)
Fixpoint rebuild (ln : bytes) (fl : list bytes) (ms : list (Z * Z)) : bytes :=
  match fl, ms with
  | f :: fl', (a, b) :: ms' => f ++ sub ln a b ++ rebuild ln fl' ms'
  | f :: _, [] => f
  | [], _ => []
  end.

Definition nonempty_matches (ms : list (Z * Z)) : list (Z * Z) :=
  filter (fun p => negb (fst p =? snd p)) ms.

Lemma zdrop_split {A} (l : list A) p a :
  0 <= p -> p <= a -> a <= zlen l -> zdrop p l = ztake (a - p) (zdrop p l) ++ zdrop a l.
Proof.
  intros H1 H2 H3. unfold zdrop, ztake.
  replace (Z.to_nat a) with (Z.to_nat p + Z.to_nat (a - p))%nat by lia.
  rewrite skipn_add. symmetry. apply firstn_skipn.
Qed.

Lemma split_re_go_spec ln ms : forall prev,
  0 <= prev -> matches_sorted prev (zlen ln) ms -> prev <= zlen ln ->
  exists fl, split_re_go ln ms prev = Ok fl /\
             length fl = S (length (nonempty_matches ms)) /\
             rebuild ln fl (nonempty_matches ms) = zdrop prev ln.
Proof.
  induction ms as [|[a b] ms IH]; intros prev Hp Hs Hle.
  - cbn [split_re_go]. rewrite slice_ok by lia. cbn [rbind].
    eexists. split; [reflexivity|]. split; [reflexivity|].
    cbn [rebuild nonempty_matches filter]. apply ztake_all.
    rewrite zlen_zdrop by lia. lia.
  - cbn [matches_sorted] in Hs. destruct Hs as (H1 & H2 & H3 & Hs).
    cbn [split_re_go]. destruct (a =? b) eqn:E.
    + apply Z.eqb_eq in E. subst b.
      unfold nonempty_matches. cbn [filter fst snd]. rewrite Z.eqb_refl. cbn [negb].
      apply IH; [lia| |lia].
      clear -Hs H1. destruct ms as [|[a' b'] ms]; [exact I|].
      cbn [matches_sorted] in *. intuition lia.
    + apply Z.eqb_neq in E.
      rewrite slice_ok by lia. cbn [rbind].
      destruct (IH b ltac:(lia) Hs H3) as (fl & Hfl & Hlen & Hre).
      rewrite Hfl. cbn [rbind]. eexists. split; [reflexivity|].
      unfold nonempty_matches in *. cbn [filter fst snd].
      replace (a =? b) with false by (symmetry; apply Z.eqb_neq; exact E). cbn [negb].
      split; [cbn [length]; rewrite Hlen; reflexivity|].
      cbn [rebuild]. rewrite Hre.
      symmetry. etransitivity; [apply (zdrop_split ln prev a); lia|]. f_equal.
      unfold sub. apply (zdrop_split ln a b); lia.
Qed.

Theorem split_re_rebuild ln ms :
  matches_sorted 0 (zlen ln) ms ->
  exists fl, split_re_go ln ms 0 = Ok fl /\
             length fl = S (length (nonempty_matches ms)) /\
             rebuild ln fl (nonempty_matches ms) = ln.
Proof.
  intros H. destruct (split_re_go_spec ln ms 0 ltac:(lia) H (zlen_nonneg ln)) as (fl & H1 & H2 & H3).
  exists fl. rewrite zdrop_0 in H3. auto.
Qed.

(* the RS="" rule: no field keeps a newline, and a CR before it is dropped *)

Lemma split_newlines_no_newline fl :
  Forall (fun f => forall a b, f <> a ++ [10] ++ b) (flat_map (fun f => split_lit [10] f) fl).
Proof.
  induction fl as [|f fl IH]; cbn [flat_map]; [constructor|].
  apply Forall_app. split; [|exact IH]. apply split_lit_no_sep. discriminate.
Qed.

(* strings.TrimSuffix(f, "\r") *)
Lemma trim_cr_cons2 c d r : trim_cr (c :: d :: r) = c :: trim_cr (d :: r).
Proof.
  cbn [trim_cr]. destruct c as [|p|p]; try reflexivity.
  repeat (destruct p as [p|p|]; try reflexivity).
Qed.

Lemma trim_cr_snoc l : trim_cr (l ++ [13]) = l.
Proof.
  induction l as [|c l IH]; [reflexivity|].
  change ((c :: l) ++ [13]) with (c :: (l ++ [13])).
  destruct (l ++ [13]) as [|d r] eqn:E; [destruct l; discriminate|].
  rewrite trim_cr_cons2, IH. reflexivity.
Qed.

Lemma trim_cr_incl l x : In x (trim_cr l) -> In x l.
Proof.
  induction l as [|c l IH]; [auto|].
  destruct l as [|d r].
  - intros H. assert (trim_cr [c] = [] \/ trim_cr [c] = [c]) as [E|E].
    { cbn [trim_cr]. destruct c as [|p|p]; auto. repeat (destruct p as [p|p|]; auto). }
    + rewrite E in H. destruct H.
    + rewrite E in H. exact H.
  - rewrite trim_cr_cons2. intros [H|H]; [left; exact H|right; apply IH; exact H].
Qed.

Theorem split_newlines_fields_have_no_newline fl : Forall (fun f => ~ In 10 f) (split_newlines fl).
Proof.
  unfold split_newlines. induction fl as [|f fl IH]; cbn [flat_map]; [constructor|].
  apply Forall_app. split; [|exact IH].
  apply Forall_map. pose proof (split_lit_no_sep [10] f ltac:(discriminate)) as H.
  eapply Forall_impl; [|exact H]. intros g Hg Hin.
  apply trim_cr_incl in Hin. apply in_split in Hin as (a & b & ->).
  exact (Hg a b eq_refl).
Qed.
