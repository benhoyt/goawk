(* C16: the former iteration cut-off (repaired, finding F-C16-1).  A forwarding
   chain f0 -> f1 -> ... -> f100 whose array is known only at the caller is
   satisfiable; the resolver with the constant limit 100 it had rejected it with
   "too many iterations"; the resolver as it is now accepts it.
   What the constant-limit resolver does on a chain is not found by running it:
   each pass over the functions, callees first, carries the array type exactly
   one link down the chain, so a chain of n functions needs n passes. *)
From Verif Require Import Lib.Base Model.Resolver Proofs.Resolver Proofs.ResolverSound Proofs.ResolverExact Proofs.ResolverFlat Proofs.ResolverMain.
From Coq Require Import Permutation.
Open Scope Z_scope.

Lemma rotate_perm {A} n (l : list A) : Permutation (rotate n l) l.
Proof.
  revert l. induction n as [|n IH]; intros l; cbn [rotate]; [apply Permutation_refl|].
  destruct l as [|x r]; [apply Permutation_refl|].
  eapply Permutation_trans; [apply IH|]. apply Permutation_sym. apply Permutation_cons_append.
Qed.

Lemma seed_oracle_perm seed : perm_oracle (seed_oracle seed).
Proof.
  intros k l. unfold seed_oracle.
  eapply Permutation_trans; [apply rotate_perm|].
  destruct (Nat.odd _); [apply Permutation_sym; apply Permutation_rev | apply Permutation_refl].
Qed.

Definition dec (i : Z) : list Z :=
  if i <? 10 then [48 + i]
  else if i <? 100 then [48 + i / 10; 48 + i mod 10]
  else [48 + i / 100; 48 + (i / 10) mod 10; 48 + i mod 10].
Definition chain_fname (i : Z) : name := 102 :: dec i.          (* "f<i>" *)
Definition n_a : name := [97].                                  (* "a" *)
Definition n_x : name := [120].                                 (* "x" *)

(* function f<i>(a) { f<i+1>(a) }   ...   function f<n-1>(a) { }
   BEGIN { x["k"] = x["k"] "a"; f0(x) } *)
Definition chain_prog (n : nat) : program :=
  {| p_natives := [];
     p_funcs := map (fun i : nat =>
                       {| f_name := chain_fname (Z.of_nat i); f_params := [n_a];
                          f_body := if (S i <? n)%nat
                                    then [Call (chain_fname (Z.of_nat (S i))) [ArgVar n_a]]
                                    else [] |}) (seq 0 n);
     p_main := [Use n_x TArray; Use n_x TArray; Call (chain_fname 0) [ArgVar n_x]] |}.

(* every variable and parameter an array, except the special variables *)
Definition chain_rho : assignment := fun k => negb (special (snd k)).

Definition chain_fd (nm : nat -> name) (n i : nat) : fdef :=
  {| f_name := nm i; f_params := [n_a];
     f_body := if (S i <? n)%nat then [Call (nm (S i)) [ArgVar n_a]] else [] |}.
Definition chain_of (nm : nat -> name) (n : nat) : program :=
  {| p_natives := []; p_funcs := map (chain_fd nm n) (seq 0 n);
     p_main := [Use n_x TArray; Use n_x TArray; Call (nm O) [ArgVar n_x]] |}.

Definition chain_name (i : nat) : name := chain_fname (Z.of_nat i).

Lemma chain_prog_of n : chain_prog n = chain_of chain_name n.
Proof. reflexivity. Qed.

Lemma walk_funcs_skips_main P l s : walk_funcs P (l ++ [[]]) s = walk_funcs P l s.
Proof.
  revert s. induction l as [|f l IH]; intros s; cbn [app walk_funcs]; [reflexivity|].
  destruct (is_empty f); [apply IH|]. destruct (find_func P f) as [[i fd]|]; [|apply IH].
  destruct (run_steps P f (flat_events (f_body fd)) s); [apply IH | reflexivity..].
Qed.

(* the first m functions from the last to the first: callees before callers *)
Fixpoint chain_down (nm : nat -> name) (m : nat) : list name :=
  match m with O => [] | S m' => nm m' :: chain_down nm m' end.

(* Names a function of the chain must not have: [] is the main program, a
   would make a callee a local variable of its caller, the others become globals. *)
Definition chain_reserved : list name := [[]; n_a; n_x; n_ARGV; n_ENVIRON; n_FIELDS].
Definition chain_names_ok (nm : nat -> name) (n : nat) : bool :=
  match first_dup [] (fnames (chain_of nm n)) with None => true | Some _ => false end
  && forallb (fun f => negb (mem f chain_reserved)) (fnames (chain_of nm n)).

Section Chain.
Local Open Scope nat_scope.
Variable nm : nat -> name.
Variable n : nat.
Notation P := (chain_of nm n).
Hypothesis Hn : 0 < n.
Hypothesis Hok : chain_names_ok nm n = true.

Lemma chain_first_dup : first_dup [] (fnames P) = None.
Proof. unfold chain_names_ok in Hok. destruct (first_dup [] (fnames P)); [discriminate | reflexivity]. Qed.

Lemma chain_nodup : NoDup (fnames P).
Proof. apply (first_dup_none _ _ chain_first_dup). Qed.

Lemma reserved_not_func v : mem v chain_reserved = true -> is_func P v = false.
Proof.
  intros Hv. apply mem_not_In. intros Hf. apply andb_true_iff in Hok. destruct Hok as [_ H].
  rewrite forallb_forall in H. specialize (H v Hf). rewrite Hv in H. discriminate.
Qed.

Lemma fd_in j : j < n -> In (chain_fd nm n j) (p_funcs P).
Proof. intros Hj. apply in_map. apply in_seq. lia. Qed.

Lemma nm_not v j : j < n -> mem v chain_reserved = true -> nm j <> v.
Proof.
  intros Hj Hv E. apply reserved_not_func in Hv. apply mem_not_In in Hv. apply Hv. rewrite <- E.
  apply (in_map f_name _ _ (fd_in j Hj)).
Qed.

Lemma nm_nonempty j : j < n -> nm j <> [].
Proof. intros Hj. apply nm_not; [exact Hj | reflexivity]. Qed.

Lemma nm_not_a j : j < n -> nm j <> n_a.
Proof. intros Hj. apply nm_not; [exact Hj | reflexivity]. Qed.

Lemma nm_inj i j : i < n -> j < n -> nm i = nm j -> i = j.
Proof.
  intros Hi Hj E. pose proof chain_nodup as Hnd. unfold fnames in Hnd. cbn [p_funcs chain_of] in Hnd.
  rewrite map_map in Hnd. cbn [f_name chain_fd] in Hnd.
  apply (proj1 (NoDup_nth _ (nm O)) Hnd); rewrite ?map_length, ?seq_length; try assumption.
  rewrite !(map_nth nm), !seq_nth by assumption. exact E.
Qed.

Lemma chain_find j : j < n -> exists i, find_func P (nm j) = Some (i, chain_fd nm n j).
Proof. intros Hj. apply (find_func_of_In P chain_nodup _ (fd_in j Hj)). Qed.

Lemma chain_info j :
  j < n -> exists i, func_info P (nm j) = Some {| fi_native := false; fi_index := i; fi_params := [n_a] |}.
Proof. intros Hj. destruct (chain_find j Hj) as [i E]. exists i. unfold func_info. rewrite E. reflexivity. Qed.

Lemma chain_body j :
  flat_events (f_body (chain_fd nm n j)) =
  if S j <? n then [SCallHead (nm (S j)) 1; SArgVar (nm (S j)) 0 n_a] else [].
Proof. cbn [chain_fd f_body]. destruct (S j <? n); reflexivity. Qed.

Lemma chain_main :
  flat_events (p_main P) = [SUse n_x TArray; SUse n_x TArray; SCallHead (nm 0) 1; SArgVar (nm 0) 0 n_x].
Proof. reflexivity. Qed.

Lemma fd_inv fd : In fd (p_funcs P) -> exists j, j < n /\ fd = chain_fd nm n j.
Proof.
  intros H. apply in_map_iff in H. destruct H as [j [<- Hj]]. apply in_seq in Hj.
  exists j. split; [lia | reflexivity].
Qed.

(* The chain is well-formed: a variable with a reserved name is not a function,
   and a callee is a function with one parameter that is not a parameter of its caller. *)

Lemma global_ok_reserved cur v : mem v chain_reserved = true -> global_ok P cur v = true.
Proof. intros Hv. unfold global_ok. rewrite (reserved_not_func v Hv). apply orb_true_r. Qed.

Lemma wf_use cur v t : mem v chain_reserved = true -> wf_step P cur (SUse v t) = true.
Proof. apply global_ok_reserved. Qed.

Lemma callee_not_param j j' : j < n -> j' < n -> mem (nm j') (params_of P (nm j)) = false.
Proof.
  intros Hj Hj'. destruct (chain_find j Hj) as [i E]. unfold params_of. rewrite E.
  apply mem_not_In. intros [H|[]]. exact (nm_not_a j' Hj' (eq_sym H)).
Qed.

Lemma wf_call_head cur j :
  j < n -> cur = [] \/ mem (nm j) (params_of P cur) = false -> wf_step P cur (SCallHead (nm j) 1) = true.
Proof.
  intros Hj H. destruct (chain_info j Hj) as [i E]. cbn [wf_step]. rewrite E.
  destruct H as [-> | ->]; [reflexivity | rewrite andb_false_r; reflexivity].
Qed.

Lemma wf_arg cur j v : j < n -> mem v chain_reserved = true -> wf_step P cur (SArgVar (nm j) 0 v) = true.
Proof.
  intros Hj Hv. destruct (chain_info j Hj) as [i E]. cbn [wf_step]. unfold arg_ok.
  rewrite E, (global_ok_reserved cur v Hv). reflexivity.
Qed.

Lemma chain_of_wf : wf P = true.
Proof.
  apply wf_spec. split; [exact chain_nodup|]. split; [|split; [|split]].
  - intros fd Hfd. destruct (fd_inv fd Hfd) as (j & Hj & ->). exact (nm_nonempty j Hj).
  - split; [|split]; apply reserved_not_func; reflexivity.
  - intros fd Hfd. destruct (fd_inv fd Hfd) as (j & Hj & ->). rewrite chain_body.
    destruct (Nat.ltb_spec (S j) n) as [Hj'|_]; [|reflexivity].
    cbn [forallb chain_fd f_name].
    rewrite (wf_call_head (nm j) (S j) Hj' (or_intror (callee_not_param j (S j) Hj Hj'))).
    rewrite (wf_arg (nm j) (S j) n_a Hj' eq_refl). reflexivity.
  - rewrite chain_main. cbn [forallb].
    rewrite (wf_use [] n_x TArray eq_refl).
    rewrite (wf_call_head [] 0 Hn (or_introl eq_refl)).
    rewrite (wf_arg [] 0 n_x Hn eq_refl). reflexivity.
Qed.

(* The chain is satisfiable: the only constraints beside the fixed ones say
   that x is an array and equate x and the parameters, none of them special. *)

Lemma rho_scope cur v : chain_rho (scope_key P cur v) = negb (special v).
Proof. unfold chain_rho. rewrite scope_key_snd. reflexivity. Qed.

Lemma constr_arg cur j v :
  j < n -> constr_of_step P cur (SArgVar (nm j) 0 v) = [CEq (scope_key P cur v) (nm j, n_a)].
Proof. intros Hj. destruct (chain_info j Hj) as [i E]. cbn [constr_of_step]. rewrite E. reflexivity. Qed.

Lemma base_holds c : In c base_constraints -> holds chain_rho c.
Proof.
  intros H. apply in_app_or in H. destruct H as [H|H].
  - destruct H as [<-|[<-|[<-|[]]]]; reflexivity.
  - apply in_map_iff in H. destruct H as [v [<- Hv]].
    cbn [holds]. unfold chain_rho, special. cbn [snd]. rewrite (proj2 (mem_In _ _) Hv). reflexivity.
Qed.

Lemma chain_of_sat : sat P.
Proof.
  exists chain_rho. intros c Hc. apply in_app_or in Hc. destruct Hc as [Hc|Hc]; [exact (base_holds c Hc)|].
  apply in_app_or in Hc. destruct Hc as [Hc|Hc].
  - apply in_flat_map in Hc. destruct Hc as [fd [Hfd Hc]]. destruct (fd_inv fd Hfd) as (j & Hj & ->).
    rewrite chain_body in Hc. destruct (Nat.ltb_spec (S j) n) as [Hj'|_]; [|destruct Hc].
    cbn [flat_map] in Hc. rewrite (constr_arg _ _ n_a Hj') in Hc. destruct Hc as [<-|[]].
    cbn [holds]. rewrite rho_scope. reflexivity.
  - rewrite chain_main in Hc. cbn [flat_map] in Hc. rewrite (constr_arg _ _ n_x Hn) in Hc.
    destruct Hc as [<-|[<-|[<-|[]]]]; cbn [holds]; rewrite rho_scope; reflexivity.
Qed.

(* The tables the passes go through: the parameters of the first k functions
   are known to be arrays, those of the others are not known yet, there is no
   other local, and the globals recorded so far are gs, all of them arrays. *)
Definition chain_tab (k : nat) (gs : list name) (t : vtable) : Prop :=
  (forall j, j < n -> get t (nm j, n_a) = Some (if j <? k then TArray else TUnknown)) /\
  (forall f v : name, f <> [] -> v <> n_a -> get t (f, v) = None) /\
  (forall v, get t (gk v) = if mem v gs then Some TArray else None).

Definition learn (k : nat) (s : state) : state :=
  {| st_vars := put (st_vars s) (nm k, n_a) TArray; st_updates := (st_updates s + 1)%Z |}.

Lemma tab_learn k gs s : k < n -> chain_tab k gs (st_vars s) -> chain_tab (S k) gs (st_vars (learn k s)).
Proof.
  intros Hk (Ha & Hl & Hg). cbn [learn st_vars]. split; [|split].
  - intros j Hj. rewrite get_put. destruct (Nat.eq_dec j k) as [->|Hne].
    + rewrite key_eqb_refl, (proj2 (Nat.ltb_lt k (S k))) by lia. reflexivity.
    + rewrite (proj2 (key_eqb_neq _ _)), (Ha j Hj).
      * destruct (Nat.ltb_spec j k), (Nat.ltb_spec j (S k)); try reflexivity; lia.
      * intros E. injection E as E. apply Hne. apply nm_inj; assumption.
  - intros f v Hf Hv. rewrite get_put_other; [apply Hl; assumption|]. intros E. injection E as _ E. contradiction.
  - intros v. rewrite get_put_other; [apply Hg|]. intros E. injection E as E _. symmetry in E. exact (nm_nonempty k Hk E).
Qed.

Lemma tab_global k gs t v : chain_tab k gs t -> chain_tab k (v :: gs) (put t (gk v) TArray).
Proof.
  intros (Ha & Hl & Hg). split; [|split].
  - intros j Hj. rewrite get_put_other; [apply Ha; exact Hj|]. intros E. injection E as E _. exact (nm_nonempty j Hj E).
  - intros f w Hf Hw. rewrite get_put_other; [apply Hl; assumption|]. intros E. injection E as E _. contradiction.
  - intros w. rewrite get_put. cbn [mem existsb]. unfold key_eqb. cbn [fst snd]. rewrite neqb_refl. cbn [andb].
    destruct (neqb w v); [reflexivity | apply Hg].
Qed.

Lemma tab_init : chain_tab 0 [] (init_vars P).
Proof.
  assert (Hnone : forall k, (forall j, j < n -> k <> (nm j, n_a)) -> get (init_vars P) k = None).
  { intros k Hk. destruct (get (init_vars P) k) eqn:G; [exfalso | reflexivity].
    destruct (init_vars_key P k) as (fd & p & Hfd & Hp & ->); [congruence|].
    destruct (fd_inv fd Hfd) as (j & Hj & ->). destruct Hp as [<-|[]]. exact (Hk j Hj eq_refl). }
  split; [|split].
  - intros j Hj. apply (init_vars_param P (chain_fd nm n j) n_a); [apply fd_in; exact Hj | left; reflexivity].
  - intros f v _ Hv. apply Hnone. intros j _ E. injection E as _ E. contradiction.
  - intros v. apply Hnone. intros j Hj E. injection E as E _. symmetry in E. exact (nm_nonempty j Hj E).
Qed.

(* the first use of a global: ARGV, ENVIRON, FIELDS before the first pass, x in it *)
Lemma record_global k gs s v :
  chain_tab k gs (st_vars s) -> mem v chain_reserved = true -> special v = false -> mem v gs = false ->
  exists s', record_var P s [] v TArray = ROk s' /\ chain_tab k (v :: gs) (st_vars s')
             /\ st_updates s' = (st_updates s + 1)%Z.
Proof.
  intros Ht Hv Hs Hg. eexists. split; [|split].
  - apply record_new; [|apply reserved_not_func; exact Hv].
    rewrite (lookup_global _ _ Hs). destruct Ht as (_ & _ & Hget). rewrite Hget, Hg. reflexivity.
  - apply tab_global. exact Ht.
  - reflexivity.
Qed.

Lemma call_head (cur : name) s j :
  j < n -> cur = [] \/ get (st_vars s) (cur, nm j) = None -> visit_step P cur s (SCallHead (nm j) 1) = ROk s.
Proof.
  intros Hj H. destruct (chain_info j Hj) as [i E]. cbn [visit_step]. rewrite (not_local _ _ _ H), E. reflexivity.
Qed.

Lemma arg_same (cur : name) s j v sc ty0 vf :
  j < n -> lookup_var (st_vars s) cur v = Some (sc, ty0, vf) -> get (st_vars s) (nm j, n_a) = Some ty0 ->
  visit_step P cur s (SArgVar (nm j) 0 v) = ROk s.
Proof.
  intros Hj L G. destruct (chain_info j Hj) as [i E]. cbn [visit_step]. rewrite E. cbn [fi_native fi_params nth_error].
  unfold get_or_unknown, type_of_lookup. rewrite L, G.
  pose proof (record_quiet P s cur v TUnknown _ _ _ L (or_introl eq_refl)) as R.
  destruct ty0; cbn [ty_eqb negb andb]; exact R.
Qed.

Lemma arg_push (cur : name) s j v sc vf :
  j < n -> lookup_var (st_vars s) cur v = Some (sc, TArray, vf) -> get (st_vars s) (nm j, n_a) = Some TUnknown ->
  visit_step P cur s (SArgVar (nm j) 0 v) = ROk (learn j s).
Proof.
  intros Hj L G. destruct (chain_info j Hj) as [i E]. cbn [visit_step]. rewrite E. cbn [fi_native fi_params nth_error].
  unfold get_or_unknown, type_of_lookup. rewrite L, G. cbn [ty_eqb negb andb].
  apply record_set with (sc := Local); [|discriminate]. apply lookup_local; [apply nm_nonempty; exact Hj | exact G].
Qed.

Lemma use_quiet (cur : name) s v typ sc vf :
  lookup_var (st_vars s) cur v = Some (sc, typ, vf) -> visit_step P cur s (SUse v typ) = ROk s.
Proof. intros L. apply (record_quiet P s cur v typ sc typ vf L). right. reflexivity. Qed.

Lemma walk_cons j r s :
  j < n ->
  walk_funcs P (nm j :: r) s = rbind2 (run_steps P (nm j) (flat_events (f_body (chain_fd nm n j))) s) (walk_funcs P r).
Proof.
  intros Hj. destruct (chain_find j Hj) as [i E]. cbn [walk_funcs].
  rewrite (proj2 (is_empty_false _) (nm_nonempty j Hj)), E. reflexivity.
Qed.

(* the caller's a and the callee's a are both known or both unknown *)
Lemma body_quiet j k gs s :
  j < n -> chain_tab k gs (st_vars s) -> S j <> k \/ n <= k ->
  run_steps P (nm j) (flat_events (f_body (chain_fd nm n j))) s = ROk s.
Proof.
  intros Hj (Ha & Hl & _) Hk. rewrite chain_body. destruct (Nat.ltb_spec (S j) n) as [Hj'|_]; [|reflexivity].
  pose proof (nm_nonempty j Hj) as Hne.
  eapply run_steps_cons; [apply call_head; [exact Hj' | right; apply Hl; [exact Hne | apply nm_not_a; exact Hj']]|].
  eapply run_steps_cons; [|reflexivity].
  apply arg_same with (sc := Local) (ty0 := if j <? k then TArray else TUnknown) (vf := nm j); [exact Hj' | |].
  - apply lookup_local; [exact Hne | apply Ha; exact Hj].
  - rewrite (Ha _ Hj'). destruct (Nat.ltb_spec j k), (Nat.ltb_spec (S j) k); try reflexivity; lia.
Qed.

(* the caller's a is known to be an array, the callee's a is not known yet *)
Lemma body_push j gs s :
  S j < n -> chain_tab (S j) gs (st_vars s) ->
  run_steps P (nm j) (flat_events (f_body (chain_fd nm n j))) s = ROk (learn (S j) s).
Proof.
  intros Hj' (Ha & Hl & _). assert (Hj : j < n) by lia.
  pose proof (nm_nonempty j Hj) as Hne. rewrite chain_body, (proj2 (Nat.ltb_lt _ _) Hj').
  eapply run_steps_cons; [apply call_head; [exact Hj' | right; apply Hl; [exact Hne | apply nm_not_a; exact Hj']]|].
  eapply run_steps_cons; [|reflexivity].
  apply arg_push with (sc := Local) (vf := nm j); [exact Hj' | |].
  - apply lookup_local; [exact Hne|]. rewrite (Ha j Hj), (proj2 (Nat.ltb_lt j (S j))) by lia. reflexivity.
  - rewrite (Ha _ Hj'), Nat.ltb_irrefl. reflexivity.
Qed.

Lemma walk_quiet m : forall k gs s,
  m <= n -> chain_tab k gs (st_vars s) -> k = 0 \/ m < k \/ n <= k -> walk_funcs P (chain_down nm m) s = ROk s.
Proof.
  induction m as [|m IH]; intros k gs s Hm Ht Hk; [reflexivity|].
  cbn [chain_down]. rewrite walk_cons, (body_quiet m k gs) by (assumption || lia). apply (IH k gs); [lia | exact Ht | lia].
Qed.

Lemma walk_push m : forall k gs s,
  m <= n -> chain_tab k gs (st_vars s) -> 0 < k <= m -> k < n -> walk_funcs P (chain_down nm m) s = ROk (learn k s).
Proof.
  induction m as [|m IH]; intros k gs s Hm Ht Hk Hkn; [lia|].
  cbn [chain_down]. rewrite walk_cons by lia. destruct (Nat.eq_dec (S m) k) as [<-|Hne].
  - rewrite (body_push m gs) by assumption. apply (walk_quiet m (S (S m)) gs); [lia | apply tab_learn; assumption | lia].
  - rewrite (body_quiet m k gs) by (assumption || lia). apply (IH k gs); [lia | exact Ht | lia | exact Hkn].
Qed.

Lemma main_quiet k gs s :
  0 < k -> chain_tab k gs (st_vars s) -> mem n_x gs = true -> run_steps P [] (flat_events (p_main P)) s = ROk s.
Proof.
  intros Hk (Ha & _ & Hg) Hx.
  assert (Lx : lookup_var (st_vars s) [] n_x = Some (Global, TArray, [])).
  { rewrite lookup_global by reflexivity. rewrite Hg, Hx. reflexivity. }
  rewrite chain_main.
  do 2 (eapply run_steps_cons; [apply (use_quiet _ _ _ _ _ _ Lx)|]).
  eapply run_steps_cons; [apply call_head; [exact Hn | left; reflexivity]|].
  eapply run_steps_cons; [|reflexivity].
  apply (arg_same _ _ _ _ _ _ _ Hn Lx). rewrite (Ha _ Hn), (proj2 (Nat.ltb_lt 0 k) Hk). reflexivity.
Qed.

Lemma main_first gs s :
  chain_tab 0 gs (st_vars s) -> mem n_x gs = false ->
  exists s', run_steps P [] (flat_events (p_main P)) s = ROk s' /\ chain_tab 1 (n_x :: gs) (st_vars s')
             /\ st_updates s' = (st_updates s + 2)%Z.
Proof.
  intros Ht Hx.
  destruct (record_global 0 gs s n_x Ht) as (s1 & R1 & Ht1 & U1); [reflexivity | reflexivity | exact Hx |].
  assert (Lx : lookup_var (st_vars s1) [] n_x = Some (Global, TArray, [])).
  { rewrite lookup_global by reflexivity. destruct Ht1 as (_ & _ & Hg). rewrite Hg. cbn [mem existsb].
    rewrite neqb_refl. reflexivity. }
  exists (learn 0 s1). split; [|split].
  - rewrite chain_main.
    eapply run_steps_cons; [exact R1|].
    eapply run_steps_cons; [apply (use_quiet _ _ _ _ _ _ Lx)|].
    eapply run_steps_cons; [apply call_head; [exact Hn | left; reflexivity]|].
    eapply run_steps_cons; [|reflexivity].
    apply (arg_push _ _ _ _ _ _ Hn Lx). destruct Ht1 as (Ha & _). apply (Ha _ Hn).
  - apply tab_learn; assumption.
  - cbn [learn st_updates]. rewrite U1. lia.
Qed.

Notation order := (chain_down nm n ++ [[]]).

Lemma walk_chain k gs s :
  0 < k -> chain_tab k gs (st_vars s) -> mem n_x gs = true ->
  walk_ordered P order s = ROk (if k <? n then learn k s else s).
Proof.
  intros Hk Ht Hx. unfold walk_ordered. rewrite walk_funcs_skips_main. destruct (Nat.ltb_spec k n) as [Hkn|Hkn].
  - rewrite (walk_push n k gs) by (assumption || lia). apply (main_quiet (S k) gs); [lia | apply tab_learn; assumption | exact Hx].
  - rewrite (walk_quiet n k gs) by (assumption || lia). apply (main_quiet k gs); assumption.
Qed.

(* From a table in which the first k parameters are known there are n - k
   passes that learn one more and one that learns nothing; the loop gives up
   at the end of pass number cut (counted from 0) if there is one. *)
Lemma pass_loop_chain d : forall k cut gs s u,
  chain_tab k gs (st_vars s) -> mem n_x gs = true -> k + d = n -> 0 < k -> st_updates s <> u ->
  (cut <= d -> pass_loop P order cut s u = RErr ETooManyIter) /\
  (d < cut -> exists s', pass_loop P order cut s u = ROk s').
Proof.
  induction d as [|d IH]; intros k cut gs s u Ht Hx Hkd Hk Hu;
    rewrite pass_loop_eq, (proj2 (Z.eqb_neq _ _) Hu), (walk_chain k gs) by assumption; cbn [rbind2].
  - rewrite (proj2 (Nat.ltb_ge k n)) by lia. destruct cut as [|cut]; [split; [reflexivity | lia]|].
    split; [lia|]. intros _. exists s. rewrite pass_loop_eq, Z.eqb_refl. reflexivity.
  - rewrite (proj2 (Nat.ltb_lt k n)) by lia. destruct cut as [|cut]; [split; [reflexivity | lia]|].
    destruct (IH (S k) cut gs (learn k s) (st_updates s)) as [IH1 IH2];
      [apply tab_learn; [lia | exact Ht] | exact Hx | lia | lia | cbn [learn st_updates]; lia |].
    split; intros Hc; [apply IH1 | apply IH2]; lia.
Qed.

Theorem chain_resolve_order cut :
  (cut < n -> resolve_order cut (chain_down nm n ++ [[]]) (chain_of nm n) = RErr ETooManyIter) /\
  (n <= cut -> exists F, resolve_order cut (chain_down nm n ++ [[]]) (chain_of nm n) = ROk F).
Proof.
  unfold resolve_order. rewrite chain_first_dup.
  destruct (record_global 0 [] {| st_vars := init_vars P; st_updates := 0 |} n_ARGV tab_init) as (s1 & -> & T1 & U1);
    [reflexivity..|]. cbn [rbind2].
  destruct (record_global 0 _ s1 n_ENVIRON T1) as (s2 & -> & T2 & U2); [reflexivity..|]. cbn [rbind2].
  destruct (record_global 0 _ s2 n_FIELDS T2) as (s3 & -> & T3 & U3); [reflexivity..|]. cbn [rbind2].
  (* the pass before the loop: nothing is known in the functions; the main program records x and f0's a *)
  unfold walk_ordered. rewrite walk_funcs_skips_main, (walk_quiet n 0 _ s3 (le_n n) T3) by lia.
  destruct (main_first _ s3 T3) as (s4 & -> & T4 & U4); [reflexivity|]. cbn [rbind2].
  destruct (pass_loop_chain (n - 1) 1 cut _ s4 (st_updates s3) T4 eq_refl) as [Hrej Hacc]; [lia..|].
  split; intros Hc.
  - rewrite Hrej by lia. reflexivity.
  - destruct Hacc as [s5 ->]; [lia|]. eexists. reflexivity.
Qed.

(* The resolver with the constant limit cut accepts the chain of n functions
   exactly when n <= cut, the functions being walked callees first (the only
   topological order of a chain). *)
Theorem chain_constant_limit cut pi :
  ordered_funcs pi (chain_of nm n) = Some (chain_down nm n ++ [[]]) ->
  (cut < n -> resolve_cut cut pi (chain_of nm n) = RErr ETooManyIter) /\
  (n <= cut -> exists F, resolve_cut cut pi (chain_of nm n) = ROk F).
Proof. intros Ho. unfold resolve_cut. rewrite chain_first_dup, Ho. apply chain_resolve_order. Qed.

End Chain.

(* what is evaluated: the names are distinct and not reserved, and topoSort
   under this oracle gives the one topological order *)
Lemma chain_names_101 : chain_names_ok chain_name 101 = true.
Proof. vm_compute. reflexivity. Qed.

Lemma chain_order_101 : ordered_funcs (seed_oracle 0) (chain_of chain_name 101) = Some (chain_down chain_name 101 ++ [[]]).
Proof. vm_compute. reflexivity. Qed.

Lemma chain_names_100 : chain_names_ok chain_name 100 = true.
Proof. vm_compute. reflexivity. Qed.

Lemma chain_order_100 : ordered_funcs (seed_oracle 0) (chain_of chain_name 100) = Some (chain_down chain_name 100 ++ [[]]).
Proof. vm_compute. reflexivity. Qed.

Lemma chain_wf : wf (chain_prog 101) = true.
Proof. rewrite chain_prog_of. exact (chain_of_wf chain_name 101 (Nat.lt_0_succ _) chain_names_101). Qed.

Lemma chain_sat : sat (chain_prog 101).
Proof. rewrite chain_prog_of. exact (chain_of_sat chain_name 101 (Nat.lt_0_succ _) chain_names_101). Qed.

(* before the repair: the constant 100 *)
Lemma chain_rejected_by_constant_limit : resolve_cut cutoff (seed_oracle 0) (chain_prog 101) = RErr ETooManyIter.
Proof.
  rewrite chain_prog_of.
  exact (proj1 (chain_constant_limit chain_name 101 (Nat.lt_0_succ _) chain_names_101 cutoff _ chain_order_101)
               (Nat.lt_succ_diag_r 100)).
Qed.

Lemma chain_100_accepted_by_constant_limit : exists F, resolve_cut cutoff (seed_oracle 0) (chain_prog 100) = ROk F.
Proof.
  rewrite chain_prog_of.
  exact (proj2 (chain_constant_limit chain_name 100 (Nat.lt_0_succ _) chain_names_100 cutoff _ chain_order_100)
               (le_n 100)).
Qed.

(* no constant is large enough for every program ([chain_constant_limit]); for 100 exactness is refuted outright *)
Definition constant_limit_exactness (cut : nat) : Prop :=
  forall pi P, perm_oracle pi -> wf P = true -> ((exists F, resolve_cut cut pi P = ROk F) <-> sat P).

Lemma constant_limit_100_refuted : ~ constant_limit_exactness cutoff.
Proof.
  intros H. destruct (H (seed_oracle 0) (chain_prog 101) (seed_oracle_perm 0) chain_wf) as [_ H2].
  destruct (H2 chain_sat) as [F HF]. rewrite chain_rejected_by_constant_limit in HF. discriminate.
Qed.

(* now: the same programs under the resolver as it is *)
Lemma chain_accepted : exists F, resolve (seed_oracle 0) (chain_prog 101) = ROk F.
Proof. exact (impl_accepts_satisfiable _ _ (seed_oracle_perm 0) (wf_wf0 _ chain_wf) chain_sat). Qed.

Lemma chain_accepted_impl : exists F, resolve_impl (chain_prog 101) = ROk F.
Proof. exact (impl_accepts_satisfiable _ _ name_order_oracle_perm (wf_wf0 _ chain_wf) chain_sat). Qed.
