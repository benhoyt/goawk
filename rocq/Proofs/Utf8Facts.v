(* Facts about Lib/Utf8.  [utf8_seq r s]: s is the well-formed UTF-8 sequence of r; encode_rune
   produces it, decode_rune reads it back and reads nothing else as a multi-byte rune.
   [runes s] are the chunks Go's `for range s` visits; they cover s, none is empty, and decoding
   looks at no byte beyond the width it reports.  Last, the matches of Lib/Regex, which walks
   these chunks, begin and end on chunk boundaries. *)
From Verif Require Import Lib.Base Lib.Utf8 Lib.Regex.

Lemma decode_rune_width s : s <> [] -> 1 <= snd (decode_rune s) <= zlen s.
Proof.
  destruct s as [|b0 t]; [congruence|]. intros _. rewrite zlen_cons. pose proof (zlen_nonneg t) as Ht.
  cbn [decode_rune].
  destruct (b0 <? 128); [cbn [snd]; lia|].
  destruct (in_rng 194 223 b0).
  { destruct t as [|b1 t1]; [cbn [snd]; lia|]. rewrite zlen_cons in *. pose proof (zlen_nonneg t1).
    destruct (is_cont b1); cbn [snd]; lia. }
  destruct (in_rng 224 239 b0).
  { destruct t as [|b1 [|b2 t2]]; try (cbn [snd]; lia). rewrite !zlen_cons in *. pose proof (zlen_nonneg t2).
    destruct (in_rng _ _ b1 && is_cont b2); cbn [snd]; lia. }
  destruct (in_rng 240 244 b0).
  { destruct t as [|b1 [|b2 [|b3 t3]]]; try (cbn [snd]; lia). rewrite !zlen_cons in *. pose proof (zlen_nonneg t3).
    destruct (in_rng _ _ b1 && is_cont b2 && is_cont b3); cbn [snd]; lia. }
  cbn [snd]. lia.
Qed.

Lemma in_rng_true lo hi b : lo <= b <= hi -> in_rng lo hi b = true.
Proof. intros H. unfold in_rng. apply andb_true_iff. split; apply Z.leb_le; lia. Qed.

Lemma in_rng_false lo hi b : b < lo \/ hi < b -> in_rng lo hi b = false.
Proof. intros H. unfold in_rng. apply andb_false_iff. destruct H; [left | right]; apply Z.leb_gt; lia. Qed.

(* [s] is the well-formed UTF-8 sequence (Unicode table 3-7) of the rune [r] *)
Inductive utf8_seq (r : Z) : bytes -> Prop :=
| Seq1 : r < 128 -> utf8_seq r [r]
| Seq2 b0 b1 : 194 <= b0 <= 223 -> 128 <= b1 <= 191 ->
    r = (b0 - 192) * 64 + (b1 - 128) -> utf8_seq r [b0; b1]
| Seq3 b0 b1 b2 : 224 <= b0 <= 239 -> 128 <= b1 <= 191 -> 128 <= b2 <= 191 ->
    (b0 = 224 -> 160 <= b1) -> (b0 = 237 -> b1 <= 159) ->
    r = (b0 - 224) * 4096 + (b1 - 128) * 64 + (b2 - 128) -> utf8_seq r [b0; b1; b2]
| Seq4 b0 b1 b2 b3 : 240 <= b0 <= 244 -> 128 <= b1 <= 191 -> 128 <= b2 <= 191 -> 128 <= b3 <= 191 ->
    (b0 = 240 -> 144 <= b1) -> (b0 = 244 -> b1 <= 143) ->
    r = (b0 - 240) * 262144 + (b1 - 128) * 4096 + (b2 - 128) * 64 + (b3 - 128) ->
    utf8_seq r [b0; b1; b2; b3].

Lemma encode_rune_seq r : 0 <= r < 55296 \/ 57343 < r <= 1114111 -> utf8_seq r (encode_rune r).
Proof.
  unfold encode_rune. intros H.
  replace ((r <? 0) || (1114111 <? r) || ((55296 <=? r) && (r <=? 57343))) with false by lia.
  destruct (Z.ltb_spec r 128); [apply Seq1; assumption|].
  destruct (Z.ltb_spec r 2048); [apply Seq2; Z.div_mod_to_equations; lia|].
  destruct (Z.ltb_spec r 65536); [apply Seq3; Z.div_mod_to_equations; lia|].
  apply Seq4; Z.div_mod_to_equations; lia.
Qed.

Lemma seq_unique r s s' : utf8_seq r s -> utf8_seq r s' -> s = s'.
Proof. intros H H'. destruct H, H'; try (exfalso; lia); repeat f_equal; lia. Qed.

Lemma decode_seq r s X : utf8_seq r s -> decode_rune (s ++ X) = (r, zlen s).
Proof.
  intros H. destruct H; subst; cbn [app decode_rune]; unfold in_rng, is_cont.
  - replace (r <? 128) with true by lia. reflexivity.
  - replace (b0 <? 128) with false by lia.
    replace ((194 <=? b0) && (b0 <=? 223)) with true by lia.
    replace ((128 <=? b1) && (b1 <=? 191)) with true by lia. reflexivity.
  - replace (b0 <? 128) with false by lia.
    replace ((194 <=? b0) && (b0 <=? 223)) with false by lia.
    replace ((224 <=? b0) && (b0 <=? 239)) with true by lia.
    replace ((128 <=? b2) && (b2 <=? 191)) with true by lia.
    destruct (Z.eqb_spec b0 224), (Z.eqb_spec b0 237);
      (replace ((_ <=? b1) && (b1 <=? _)) with true by lia); reflexivity.
  - replace (b0 <? 128) with false by lia.
    replace ((194 <=? b0) && (b0 <=? 223)) with false by lia.
    replace ((224 <=? b0) && (b0 <=? 239)) with false by lia.
    replace ((240 <=? b0) && (b0 <=? 244)) with true by lia.
    replace ((128 <=? b2) && (b2 <=? 191)) with true by lia.
    replace ((128 <=? b3) && (b3 <=? 191)) with true by lia.
    destruct (Z.eqb_spec b0 240), (Z.eqb_spec b0 244);
      (replace ((_ <=? b1) && (b1 <=? _)) with true by lia); reflexivity.
Qed.

Lemma decode_width_2 b0 b1 t : 194 <= b0 <= 223 -> 128 <= b1 <= 191 -> snd (decode_rune (b0 :: b1 :: t)) = 2.
Proof. intros H0 H1. exact (f_equal snd (decode_seq _ _ t (Seq2 _ b0 b1 H0 H1 eq_refl))). Qed.

Lemma decode_width_3 b0 b1 b2 t : 224 <= b0 <= 239 -> 128 <= b1 <= 191 ->
  (b0 = 224 -> 160 <= b1) -> (b0 = 237 -> b1 <= 159) -> 128 <= b2 <= 191 ->
  snd (decode_rune (b0 :: b1 :: b2 :: t)) = 3.
Proof. intros H0 H1 Hlo Hhi H2. exact (f_equal snd (decode_seq _ _ t (Seq3 _ b0 b1 b2 H0 H1 H2 Hlo Hhi eq_refl))). Qed.

Lemma decode_width_4 b0 b1 b2 b3 t : 240 <= b0 <= 244 -> 128 <= b1 <= 191 ->
  (b0 = 240 -> 144 <= b1) -> (b0 = 244 -> b1 <= 143) -> 128 <= b2 <= 191 -> 128 <= b3 <= 191 ->
  snd (decode_rune (b0 :: b1 :: b2 :: b3 :: t)) = 4.
Proof.
  intros H0 H1 Hlo Hhi H2 H3.
  exact (f_equal snd (decode_seq _ _ t (Seq4 _ b0 b1 b2 b3 H0 H1 H2 H3 Hlo Hhi eq_refl))).
Qed.

(* utf8.DecodeRune returns something else than (RuneError, 1) only for a well-formed sequence *)
Lemma decode_rune_inv l r w : decode_rune l = (r, w) -> r <> rune_error \/ 1 < w ->
  exists s t, l = s ++ t /\ utf8_seq r s /\ w = zlen s.
Proof.
  intros H Hr.
  assert (Hbad : (rune_error, 1) = (r, w) -> False) by (intros E; injection E as <- <-; lia).
  destruct l as [|b0 t]; [cbn in H; injection H as <- <-; lia|]. cbn [decode_rune] in H.
  destruct (Z.ltb_spec b0 128).
  { injection H as <- <-. exists [b0], t. split; [reflexivity|]. split; [apply Seq1; assumption|reflexivity]. }
  unfold in_rng, is_cont in H.
  destruct ((194 <=? b0) && (b0 <=? 223)) eqn:E2.
  { destruct t as [|b1 t]; [destruct (Hbad H)|].
    destruct ((128 <=? b1) && (b1 <=? 191)) eqn:C1; [|destruct (Hbad H)].
    injection H as <- <-. exists [b0; b1], t. split; [reflexivity|]. split; [apply Seq2; lia|reflexivity]. }
  destruct ((224 <=? b0) && (b0 <=? 239)) eqn:E3.
  { destruct t as [|b1 [|b2 t]]; [destruct (Hbad H) | destruct (Hbad H) |].
    match type of H with (if ?cnd then _ else _) = _ => destruct cnd eqn:C1 end; [|destruct (Hbad H)].
    injection H as <- <-. exists [b0; b1; b2], t. split; [reflexivity|]. split; [|reflexivity].
    destruct (Z.eqb_spec b0 224), (Z.eqb_spec b0 237); apply Seq3; lia. }
  destruct ((240 <=? b0) && (b0 <=? 244)) eqn:E4; [|destruct (Hbad H)].
  destruct t as [|b1 [|b2 [|b3 t]]]; [destruct (Hbad H) | destruct (Hbad H) | destruct (Hbad H) |].
  match type of H with (if ?cnd then _ else _) = _ => destruct cnd eqn:C1 end; [|destruct (Hbad H)].
  injection H as <- <-. exists [b0; b1; b2; b3], t. split; [reflexivity|]. split; [|reflexivity].
  destruct (Z.eqb_spec b0 240), (Z.eqb_spec b0 244); apply Seq4; lia.
Qed.

(* utf8.DecodeRune consumes 1 to 4 bytes: one, or a well-formed sequence *)
Lemma decode_rune_width_pos s : s <> [] -> 1 <= snd (decode_rune s) <= 4.
Proof.
  intros Hne. pose proof (decode_rune_width s Hne) as Hw. destruct (decode_rune s) as [r w] eqn:E. cbn [snd] in *.
  destruct (Z.eq_dec w 1) as [->|N]; [lia|]. assert (W : 1 < w) by lia.
  destruct (decode_rune_inv s r w E (or_intror W)) as (q & t & _ & Hq & ->). destruct Hq; cbn; lia.
Qed.

(* decoding looks at no byte beyond the width it reports: a prefix that contains the whole
   first chunk decodes the same way *)
Lemma decode_rune_prefix p q :
  p <> [] -> snd (decode_rune (p ++ q)) <= zlen p -> decode_rune (p ++ q) = decode_rune p.
Proof.
  destruct p as [|b0 p']; [congruence|]. intros _.
  cbn [app decode_rune].
  destruct (b0 <? 128); [reflexivity|].
  destruct (in_rng 194 223 b0).
  { destruct p' as [|b1 p1]; cbn [app]; [|reflexivity].
    destruct q as [|c1 q1]; [reflexivity|].
    destruct (is_cont c1); cbn [snd]; [|reflexivity].
    rewrite zlen_cons, zlen_nil. lia. }
  destruct (in_rng 224 239 b0).
  { destruct p' as [|b1 [|b2 p2]]; cbn [app]; [| |reflexivity].
    - destruct q as [|c1 [|c2 q2]]; try reflexivity.
      destruct (in_rng _ _ c1 && is_cont c2); cbn [snd]; [|reflexivity].
      rewrite zlen_cons, zlen_nil. lia.
    - destruct q as [|c2 q2]; try reflexivity.
      destruct (in_rng _ _ b1 && is_cont c2); cbn [snd]; [|reflexivity].
      rewrite !zlen_cons, zlen_nil. lia. }
  destruct (in_rng 240 244 b0).
  { destruct p' as [|b1 [|b2 [|b3 p3]]]; cbn [app]; [| | |reflexivity].
    - destruct q as [|c1 [|c2 [|c3 q3]]]; try reflexivity.
      destruct (in_rng _ _ c1 && is_cont c2 && is_cont c3); cbn [snd]; [|reflexivity].
      rewrite zlen_cons, zlen_nil. lia.
    - destruct q as [|c2 [|c3 q3]]; try reflexivity.
      destruct (in_rng _ _ b1 && is_cont c2 && is_cont c3); cbn [snd]; [|reflexivity].
      rewrite !zlen_cons, zlen_nil. lia.
    - destruct q as [|c3 q3]; try reflexivity.
      destruct (in_rng _ _ b1 && is_cont b2 && is_cont c3); cbn [snd]; [|reflexivity].
      rewrite !zlen_cons, zlen_nil. lia. }
  reflexivity.
Qed.

Lemma runes_fuel_irrel : forall f1 f2 s, (length s <= f1)%nat -> (length s <= f2)%nat ->
  runes_fuel f1 s = runes_fuel f2 s.
Proof.
  induction f1 as [|f1 IH]; intros f2 s H1 H2.
  - destruct s; [|cbn [length] in H1; lia]. destruct f2; reflexivity.
  - destruct f2 as [|f2].
    + destruct s; [reflexivity|cbn [length] in H2; lia].
    + cbn [runes_fuel]. destruct s as [|b t] eqn:Es; [reflexivity|]. rewrite <- Es in *.
      assert (Hne : s <> []) by (rewrite Es; discriminate).
      pose proof (decode_rune_width s Hne) as Hw.
      pose proof (length_zdrop_lt (snd (decode_rune s)) s ltac:(lia) ltac:(lia)).
      f_equal. apply IH; lia.
Qed.

Lemma runes_nil : runes [] = [].
Proof. reflexivity. Qed.

Lemma runes_cons s : s <> [] ->
  runes s = ztake (snd (decode_rune s)) s :: runes (zdrop (snd (decode_rune s)) s).
Proof.
  intros Hne. destruct s as [|b t]; [congruence|].
  pose proof (decode_rune_width (b :: t) Hne) as Hw.
  pose proof (length_zdrop_lt (snd (decode_rune (b :: t))) (b :: t) ltac:(lia) ltac:(lia)) as Hl.
  unfold runes at 1. cbn [length runes_fuel]. f_equal.
  unfold runes. apply runes_fuel_irrel; [|lia]. cbn [length] in Hl. lia.
Qed.

(* induction over the chunks of a string *)
Lemma runes_ind (P : bytes -> Prop) :
  P [] ->
  (forall s, s <> [] -> P (zdrop (snd (decode_rune s)) s) -> P s) ->
  forall s, P s.
Proof.
  intros H0 Hstep s.
  assert (forall n s, (length s <= n)%nat -> P s) as Hall.
  { induction n as [|n IH]; intros s0 Hl.
    - destruct s0; [exact H0|cbn [length] in Hl; lia].
    - destruct s0 as [|b t] eqn:Es; [exact H0|]. rewrite <- Es in *.
      assert (Hne : s0 <> []) by (rewrite Es; discriminate).
      apply Hstep; [exact Hne|]. apply IH.
      pose proof (decode_rune_width s0 Hne).
      pose proof (length_zdrop_lt (snd (decode_rune s0)) s0 ltac:(lia) ltac:(lia)). lia. }
  apply (Hall (length s)). lia.
Qed.

Lemma runes_concat s : concat (runes s) = s.
Proof.
  induction s as [|s Hne IH] using runes_ind; [reflexivity|].
  rewrite (runes_cons s Hne). cbn [concat]. rewrite IH. apply ztake_zdrop.
Qed.

Lemma runes_nonempty_chunks s : Forall (fun c => c <> []) (runes s).
Proof.
  induction s as [|s Hne IH] using runes_ind; [constructor|].
  rewrite (runes_cons s Hne). constructor; [|exact IH].
  pose proof (decode_rune_width s Hne) as Hw. intros Hc.
  assert (zlen (ztake (snd (decode_rune s)) s) = snd (decode_rune s)) as Hz by (apply zlen_ztake; lia).
  rewrite Hc, zlen_nil in Hz. lia.
Qed.

(* the chunks after the first k are the chunks of the rest of the string *)
Lemma runes_skipn k : forall s, runes (concat (skipn k (runes s))) = skipn k (runes s).
Proof.
  induction k as [|k IH]; intros s.
  - cbn [skipn]. rewrite runes_concat. reflexivity.
  - destruct s as [|b t] eqn:Es; [reflexivity|]. rewrite <- Es.
    assert (Hne : s <> []) by (rewrite Es; discriminate).
    rewrite (runes_cons s Hne). cbn [skipn]. apply IH.
Qed.

(* the first k chunks are the chunks of the prefix they form *)
Lemma runes_firstn k : forall s, runes (concat (firstn k (runes s))) = firstn k (runes s).
Proof.
  induction k as [|k IH]; intros s; [reflexivity|].
  destruct s as [|b t] eqn:Es; [reflexivity|]. rewrite <- Es.
  assert (Hne : s <> []) by (rewrite Es; discriminate).
  rewrite (runes_cons s Hne). cbn [firstn concat].
  set (w := snd (decode_rune s)). set (c := ztake w s). set (s' := zdrop w s).
  set (p := concat (firstn k (runes s'))).
  pose proof (decode_rune_width s Hne) as Hw. fold w in Hw.
  assert (Hzc : zlen c = w) by (apply zlen_ztake; lia).
  assert (Hcne : c <> []) by (intros Hc; rewrite Hc, zlen_nil in Hzc; lia).
  (* s = c ++ p ++ q *)
  assert (Hs : s = (c ++ p) ++ concat (skipn k (runes s'))).
  { rewrite <- app_assoc. unfold p. rewrite <- concat_app, firstn_skipn, runes_concat.
    unfold c, s'. symmetry. apply ztake_zdrop. }
  assert (Hdec : decode_rune (c ++ p) = decode_rune s).
  { transitivity (decode_rune ((c ++ p) ++ concat (skipn k (runes s')))); [|rewrite <- Hs; reflexivity].
    symmetry. apply decode_rune_prefix.
    - destruct c; [congruence|discriminate].
    - rewrite <- Hs. fold w. rewrite zlen_app. pose proof (zlen_nonneg p). lia. }
  assert (Hne2 : c ++ p <> []) by (destruct c; [congruence|discriminate]).
  rewrite (runes_cons (c ++ p) Hne2). rewrite Hdec. fold w. rewrite <- Hzc.
  rewrite ztake_zlen_app, zdrop_zlen_app. f_equal. unfold p. apply IH.
Qed.

Lemma concat_ztake_zdrop (cs : list bytes) k : concat cs = concat (ztake k cs) ++ concat (zdrop k cs).
Proof. rewrite <- concat_app, ztake_zdrop. reflexivity. Qed.

Lemma zdrop_concat_chunks (cs : list bytes) k :
  zdrop (zlen (concat (ztake k cs))) (concat cs) = concat (zdrop k cs).
Proof. rewrite (concat_ztake_zdrop cs k) at 1. apply zdrop_zlen_app. Qed.

Lemma ztake_concat_chunks (cs : list bytes) k :
  ztake (zlen (concat (ztake k cs))) (concat cs) = concat (ztake k cs).
Proof. rewrite (concat_ztake_zdrop cs k) at 1. apply ztake_zlen_app. Qed.

Lemma zlen_concat_ztake_le (cs : list bytes) k : 0 <= zlen (concat (ztake k cs)) <= zlen (concat cs).
Proof.
  rewrite (concat_ztake_zdrop cs k) at 1. rewrite zlen_app.
  pose proof (zlen_nonneg (concat (ztake k cs))). pose proof (zlen_nonneg (concat (zdrop k cs))). lia.
Qed.

Lemma zlen_concat_ztake_mono (cs : list bytes) ka kb : ka <= kb ->
  zlen (concat (ztake ka cs)) <= zlen (concat (ztake kb cs)).
Proof.
  intros H. replace (ztake ka cs) with (ztake ka (ztake kb cs)); [apply zlen_concat_ztake_le|].
  unfold ztake. rewrite firstn_firstn. f_equal. lia.
Qed.

Lemma zlen_chunks_le (cs : list bytes) : Forall (fun c => c <> []) cs -> zlen cs <= zlen (concat cs).
Proof.
  induction 1 as [|c cs Hc _ IH]; [rewrite !zlen_nil; cbn; lia|].
  cbn [concat]. rewrite zlen_app, zlen_cons.
  destruct c; [congruence|]. rewrite zlen_cons. pose proof (zlen_nonneg c). lia.
Qed.

Lemma rune_count_le s : 0 <= rune_count s <= zlen s.
Proof.
  unfold rune_count. split; [apply zlen_nonneg|].
  rewrite <- (runes_concat s) at 2. apply zlen_chunks_le, runes_nonempty_chunks.
Qed.

Lemma runes_zdrop_chunks s k : runes (concat (zdrop k (runes s))) = zdrop k (runes s).
Proof. apply runes_skipn. Qed.

Lemma runes_ztake_zdrop_chunks s n k :
  runes (concat (ztake n (zdrop k (runes s)))) = ztake n (zdrop k (runes s)).
Proof.
  rewrite <- (runes_zdrop_chunks s k) at 2. rewrite <- (runes_zdrop_chunks s k) at 1.
  apply runes_firstn.
Qed.

(* ASCII text: one chunk per byte *)
Lemma runes_ascii s : forallb (fun b => b <? 128) s = true -> runes s = map (fun b => [b]) s.
Proof.
  induction s as [|b t IH]; intros Ha; [reflexivity|].
  cbn [forallb] in Ha. apply andb_true_iff in Ha as [Hb Ht].
  rewrite runes_cons by discriminate. cbn [decode_rune]. rewrite Hb. cbn [snd map].
  change (ztake 1 (b :: t)) with [b]. change (zdrop 1 (b :: t)) with t.
  f_equal. apply IH, Ht.
Qed.

Lemma concat_singletons (l : bytes) : concat (map (fun b => [b]) l) = l.
Proof. induction l as [|b t IH]; cbn [map concat app]; [reflexivity|rewrite IH; reflexivity]. Qed.

Lemma rune_count_ascii s : forallb (fun b => b <? 128) s = true -> rune_count s = zlen s.
Proof. intros H. unfold rune_count. rewrite (runes_ascii s H). apply zlen_map. Qed.

(* matches start and end where `for range s` stops: the engine's results are offsets
   of chunk boundaries; the other facts about them follow *)
Lemma longest_boundary r : forall cs st off best e,
  longest r st cs off best = Some e ->
  best = Some e \/ exists k, 0 <= k /\ k <= zlen cs /\ e = off + zlen (concat (ztake k cs)).
Proof.
  intros cs; revert r; induction cs as [|c cs IH]; intros r st off best e H.
  - cbn [longest] in H. destruct (nullable st (is_nil []) r); [|left; exact H].
    injection H as <-. right. exists 0. repeat split; cbn; lia.
  - cbn [longest] in H.
    set (best' := if nullable st (is_nil (c :: cs)) r then Some off else best) in *.
    pose proof (zlen_nonneg cs) as Hcs.
    assert (best' = Some e -> best = Some e \/
            exists k, 0 <= k /\ k <= zlen (c :: cs) /\ e = off + zlen (concat (ztake k (c :: cs)))) as Hb.
    { unfold best'. destruct (nullable st (is_nil (c :: cs)) r); [|auto].
      intros Hx; injection Hx as <-. right. exists 0. rewrite zlen_cons. split; [lia|]. split; [lia|].
      rewrite ztake_0. cbn [concat]. change (zlen (@nil Z)) with 0. lia. }
    destruct (is_none (deriv st (rune_of c) r)); [apply Hb; exact H|].
    destruct (IH _ _ _ _ _ H) as [Hl|(k & Hk0 & Hk1 & He)]; [apply Hb; exact Hl|].
    right. exists (k + 1). rewrite zlen_cons. repeat split; try lia.
    rewrite ztake_cons by lia. replace (k + 1 - 1) with k by lia. rewrite zlen_concat_cons. lia.
Qed.

Lemma search_boundary r : forall cs off a b,
  search r cs off = Some (a, b) ->
  exists ka kb, 0 <= ka /\ ka <= kb /\ kb <= zlen cs /\
    a = off + zlen (concat (ztake ka cs)) /\ b = off + zlen (concat (ztake kb cs)).
Proof.
  intros cs; induction cs as [|c cs IH]; intros off a b H.
  - cbn [search] in H. destruct (longest r (off =? 0) [] off None) as [e|] eqn:El; [|discriminate].
    injection H as <- <-. destruct (longest_boundary _ _ _ _ _ _ El) as [Hx|(k & H0 & H1 & He)]; [discriminate|].
    exists 0, k. split; [lia|]. split; [lia|]. split; [lia|]. split; [cbn; lia|exact He].
  - cbn [search] in H. destruct (longest r (off =? 0) (c :: cs) off None) as [e|] eqn:El.
    + injection H as <- <-. destruct (longest_boundary _ _ _ _ _ _ El) as [Hx|(k & H0 & H1 & He)]; [discriminate|].
      exists 0, k. split; [lia|]. split; [lia|]. split; [lia|]. split; [cbn; lia|exact He].
    + destruct (IH _ _ _ H) as (ka & kb & H0 & H1 & H2 & Ha & Hb).
      exists (ka + 1), (kb + 1). rewrite zlen_cons. repeat split; try lia.
      * rewrite ztake_cons by lia. replace (ka + 1 - 1) with ka by lia. rewrite zlen_concat_cons. lia.
      * rewrite ztake_cons by lia. replace (kb + 1 - 1) with kb by lia. rewrite zlen_concat_cons. lia.
Qed.

Lemma find_from_bounds r s pos a b :
  0 <= pos <= zlen s -> find_from r s pos = Some (a, b) -> pos <= a /\ a <= b /\ b <= zlen s.
Proof.
  intros Hp H. unfold find_from in H.
  destruct (search_boundary _ _ _ _ _ H) as (ka & kb & H0 & H1 & H2 & -> & ->).
  pose proof (zlen_concat_ztake_mono (runes (zdrop pos s)) ka kb H1).
  pose proof (zlen_concat_ztake_le (runes (zdrop pos s)) ka).
  pose proof (zlen_concat_ztake_le (runes (zdrop pos s)) kb) as B. rewrite runes_concat, zlen_zdrop in B by lia. lia.
Qed.
