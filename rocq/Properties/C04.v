(* C04 — Expressions group by the POSIX AWK precedence and associativity table.
   Only statements closed by [exact] of a lemma proved in Proofs/, non-vacuity examples,
   refuted full statements with their witnesses, and Print Assumptions.

   Vocabulary (Proofs/PrecSpec.v): [table]/[tlevel]/[lreq]/[rreq] = the POSIX table as data;
   [par full pe req e] = e with grouping nodes inserted (full=false: only where the table requires
   them; full=true: around every operand; pe=true: as a print argument, where an exposed > is
   parenthesised); [flat] = the tokens of a tree with explicit grouping nodes;
   [pp_min pe e] = flat (par false pe 0 e), [pp_full pe e] = fully parenthesised writing;
   [wf e] = group-free tree derivable from the grammar (lvalues where required, right operand of
   concatenation starts with an operand-only token, no bare /re/ after ~, no $$x++).
   Fix round: _cond now reads the branches of ?: with the tower's own expr()/printExpr() (repair of
   F-C04-1/2), so [fits]/[ok] treat the branches in the tower of the condition.
   [p_lv n LExpr pc None ts] = the model of parser.expr() (pc=false) / parser.printExpr() (pc=true)
   with fuel n. *)
From Verif Require Import Lib.Base Model.ExprAst Model.ExprParser Proofs.ExprParserMono Proofs.ExprParserRel
  Proofs.PrecSpec Proofs.ExprParserPrinted Proofs.ExprParserMin Proofs.ExprParserPrint Gen.ConcatStart Proofs.ExprParserTable.

(* more fuel never changes an answer other than "out of fuel" *)
Theorem C04_fuel_monotone : forall n m l pc pend ts r,
  (n <= m)%nat -> p_lv n l pc pend ts = POk r -> p_lv m l pc pend ts = POk r.
Proof. intros n m l pc pend ts r H. apply p_lv_mono. exact H. Qed.
Print Assumptions C04_fuel_monotone.

(* general lemma: any writing that respects the table (fits), at any position k of either tower,
   followed by a token no open level consumes, is read back as exactly the tree written *)
Theorem C04_parse_printed : forall e k pc rest,
  fits pc (rk k) e -> ok pc e (hd_tok rest) = true -> (pc = true -> k <> LGetline) ->
  (tok_cont pc (hd_tok rest) <= rk k)%nat ->
  exists n0, forall n, (n0 <= n)%nat -> p_lv n k pc None (flat e ++ rest) = POk (e, rest).
Proof. exact parse_printed. Qed.
Print Assumptions C04_parse_printed.

(* both printers produce writings that respect the table, for every well-formed tree *)
Theorem C04_printers_fit : forall e, wf e -> forall full pc pe req,
  (pc = true -> pe = true) -> fits pc (pos req) (par full pe req e).
Proof. intros e H full pc pe req. apply fits_par; [apply fits_pnode | exact H]. Qed.
Print Assumptions C04_printers_fit.

(* MAIN: for every well-formed tree of any depth, in the plain tower (pe=false) and in the print
   tower (pe=true), the minimal and the fully parenthesised writing are both accepted and both
   yield e once grouping nodes are removed *)
Theorem C04_main : forall e pe rest,
  wf e -> tok_cont false (hd_tok rest) = 0%nat ->
  exists n0, forall n, (n0 <= n)%nat ->
    exists e1 e2,
      p_lv n LExpr pe None (pp_min pe e ++ rest) = POk (e1, rest) /\
      p_lv n LExpr pe None (pp_full pe e ++ rest) = POk (e2, rest) /\
      strip e1 = e /\ strip e2 = e.
Proof. exact pp_min_full_parse. Qed.
Print Assumptions C04_main.

(* print a1, .., an > dest: > is the redirection, never a comparison — for ALL well-formed arguments
   and both writings.  This is the full statement that was refuted before the repair of F-C04-1
   (the guard "the last argument does not end in an unparenthesised ?:" is gone). *)
Definition C04_print_gt_full_statement : Prop := print_gt_full_statement.
Theorem C04_print_gt : C04_print_gt_full_statement.
Proof. exact print_gt_is_redirect. Qed.
Print Assumptions C04_print_gt.

(* the same for a pipe (formerly refuted, F-C04-2) *)
Definition C04_print_pipe_full_statement : Prop := print_pipe_full_statement.
Theorem C04_print_pipe : C04_print_pipe_full_statement.
Proof. exact print_pipe_is_redirect. Qed.
Print Assumptions C04_print_pipe.

(* all three redirection tokens > >> | at once *)
Theorem C04_print_redirects : forall rt rd fl a args dest rest,
  redir_of rt = Some rd ->
  all_wf wf (a :: args) -> wf dest ->
  let args' := map (par fl true 0) (a :: args) in
  let dest' := par fl false 0 dest in
  tok_cont false (hd_tok rest) = 0%nat ->
  exists n0, forall n, (n0 <= n)%nat ->
    p_simple_stmt n (TPrint :: commas flat args' ++ rt :: flat dest' ++ rest)
    = POk (TopPrint false rd (Some dest') args', rest).
Proof. exact print_redirects. Qed.
Print Assumptions C04_print_redirects.

(* F-C04-3 (deliberate, left as it is): the table statement without the $$x++ guard of wf is false *)
Definition C04_table_full_statement : Prop := table_full_statement. (* wf without the $$x++ guard *)
Theorem C04_table_refuted : ~ C04_table_full_statement.            (* $$x++ is read as $(($x)++) *)
Proof. exact table_full_refuted. Qed.
Print Assumptions C04_table_refuted.

(* `expr | getline` binds looser than concatenation (and than everything down to ||): the whole
   expression to the left of the bar is the command *)
Theorem C04_getline_binds_looser : forall e rest,
  wf e -> (3 <= tlevel e)%nat -> tok_cont false (hd_tok rest) = 0%nat ->
  exists n0, forall n, (n0 <= n)%nat ->
    p_lv n LExpr false None (pp_min false e ++ TPipe :: TGetline :: rest)
    = POk (EGetline (Some (par false false 0 e)) None None, rest).
Proof. exact getline_binds_looser. Qed.
Print Assumptions C04_getline_binds_looser.

Corollary C04_getline_after_concat : forall l r rest,
  wf (EBinary BConcat l r) -> tok_cont false (hd_tok rest) = 0%nat ->
  exists n0, forall n, (n0 <= n)%nat ->
    p_lv n LExpr false None (pp_min false (EBinary BConcat l r) ++ TPipe :: TGetline :: rest)
    = POk (EGetline (Some (par false false 0 (EBinary BConcat l r))) None None, rest).
Proof. intros l r rest H. apply getline_binds_looser; [exact H | cbn; lia]. Qed.
Print Assumptions C04_getline_after_concat.

(* table theorems (Gen/ConcatStart.v is regenerated from lexer/token.go and parser.concat() on every
   check): the model's "starts a concatenation operand" predicate is, on every token, the loop condition
   of parser.concat() as written (fixed tokens + FIRST_FUNC..LAST_FUNC with its comparison operators);
   the model's built-in tokens are exactly that range *)
Theorem C04_concat_start_table :
  forallb (fun t => opt_bool_eqb (concat_start t) (go_concat_start (tok_name t))) all_toks = true.
Proof. exact concat_start_is_generated. Qed.
Print Assumptions C04_concat_start_table.

Theorem C04_func_range_table :
  take_through last_func (drop_until first_func token_names) = map bfn_name all_bfn /\
  concat_lo = first_func /\ concat_hi = last_func.
Proof. split; [exact func_range_is_model | exact concat_bounds_are_func_range]. Qed.
Print Assumptions C04_func_range_table.

(* ---- non-vacuity ---- *)

(* x = 1 + 2 * - 3 ^ 2 ? a[1] : $ 2 "s"   is well-formed *)
Definition ex_tree : expr :=
  EAssign (EVar [120])
    (ECond (EBinary BAdd (ENum [49]) (EBinary BMul (ENum [50]) (EUnary UMinus (EBinary BPow (ENum [51]) (ENum [50])))))
           (EIndex [97] [ENum [49]])
           (EBinary BConcat (EField (ENum [50])) (EStr [115]))).
Example C04_ex_wf : wf ex_tree.
Proof.
  cbn. repeat (first [ match goal with |- _ /\ _ => split | |- _ \/ _ => right end
                     | reflexivity | exact I | discriminate | (intros; congruence) | lia
                     | (intros _ pe; destruct pe; cbn) | (intros pe; destruct pe; cbn) ]).
Qed.
Example C04_ex_pp_min :
  pp_min false ex_tree =
  [TName [120]; TAssign; TNumber [49]; TAdd; TNumber [50]; TMul; TSub; TNumber [51]; TPow; TNumber [50];
   TQuestion; TName [97]; TLBracket; TNumber [49]; TRBracket; TColon; TDollar; TNumber [50]; TString [115]].
Proof. vm_compute. reflexivity. Qed.
Example C04_ex_parse : exists g, parse_expr false (pp_min false ex_tree) = POk (g, []) /\ strip g = ex_tree.
Proof. eexists. split; vm_compute; reflexivity. Qed.
Example C04_ex_parse_full : exists g, parse_expr false (pp_full false ex_tree) = POk (g, []) /\ strip g = ex_tree.
Proof. eexists. split; vm_compute; reflexivity. Qed.

(* the former witnesses of F-C04-1/2 on the model of the repaired parser:
   print 1 ? 2 : 3 > "f"  redirects,  print 1 ? 2 : 3 | "f"  pipes *)
Example C04_ex_print_cond_gt :
  p_simple_stmt 60 (TPrint :: pp_min true w_cond ++ TGreater :: pp_min false w_dest ++ [TRBrace])
  = POk (TopPrint false RGreater (Some w_dest) [w_cond], [TRBrace]).
Proof. exact w_print_gt_computed. Qed.
Example C04_ex_print_cond_pipe :
  p_simple_stmt 60 (TPrint :: pp_min true w_cond ++ TPipe :: pp_min false w_dest ++ [TRBrace])
  = POk (TopPrint false RPipe (Some w_dest) [w_cond], [TRBrace]).
Proof. exact w_print_pipe_computed. Qed.
(* and a comparison inside a branch of a print argument is written with parentheses *)
Example C04_ex_print_cond_branch :
  pp_min true (ECond (ENum [49]) (EBinary BGt (ENum [50]) (ENum [49])) (ENum [51]))
  = [TNumber [49]; TQuestion; TLParen true; TNumber [50]; TGreater; TNumber [49]; TRParen; TColon; TNumber [51]].
Proof. vm_compute. reflexivity. Qed.

(* getline: "a" "b" | getline  is  ("a" "b") | getline, and  x = "c" | getline y  assigns the result *)
Example C04_ex_getline_concat :
  parse_expr false [TString [97]; TString [98]; TPipe; TGetline]
  = POk (EGetline (Some (EBinary BConcat (EStr [97]) (EStr [98]))) None None, []).
Proof. vm_compute. reflexivity. Qed.
Example C04_ex_getline_assign :
  parse_expr false [TName [120]; TAssign; TString [99]; TPipe; TGetline; TName [121]]
  = POk (EAssign (EVar [120]) (EGetline (Some (EStr [99])) (Some (EVar [121])) None), []).
Proof. vm_compute. reflexivity. Qed.
