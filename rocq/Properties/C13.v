(* C13 — Output reaches each destination completely, in order, exactly once.
   Only statements closed by [exact] of a lemma proved in Proofs/Streams*.v,
   Print Assumptions, non-vacuity examples, and the refuted full statements
   with their witnesses.  The model is rocq/Model/Streams.v; the vocabulary of
   the statements (expected_file, expected_stdout, alias_free, ...) is
   rocq/Proofs/StreamsSpec.v. *)
From Verif Require Import Lib.Base Model.Streams Proofs.StreamsBase Proofs.StreamsSpec
  Proofs.StreamsStdout Proofs.StreamsOrder Proofs.StreamsFiles Proofs.StreamsMisc Proofs.StreamsWriter
  Proofs.StreamsPrefix Proofs.StreamsTrace Proofs.StreamsReuse.

(* ---------- delivered_in_order ---------- *)

(* Files.  For every program, every command behaviour, every buffer size,
   every mode of Output and every failure offset of standard output: when the
   run has ended -- normally, by exit, or by a run-time error -- no stream is
   left open and every file t holds exactly
     its old contents (or nothing, from the last "> t" open on)
     followed by every write to t in program order
   (expected_file replays the log: EvOpen n KFile true empties, EvWrite and
   EvChildAppend append).  Premises: the destinations do not alias. *)
Theorem C13_delivered_in_order_files :
  forall (E : env) (F P Q : name -> Prop), alias_free E F P Q ->
  forall (fs0 : list (name * bytes)) (limit : option nat) (ops : list op) (s : state) (r : result),
  Forall (op_within F P Q) ops ->
  run E (init_state fs0 limit) ops = (s, r) ->
  st_outs s = [] /\ forall t, fs_get (st_fs s) t = expected_file E fs0 (st_log s) t.
Proof. exact files_delivered. Qed.
Print Assumptions C13_delivered_in_order_files.

(* Standard output, when its writer never fails: at the end of the run the
   writer has received exactly the writes of the program and of its children
   in the order they were issued -- nothing is left in goawk's buffer. *)
Theorem C13_delivered_in_order_stdout :
  forall (E : env) (fs : list (name * bytes)) (ops : list op) (s : state) (r : result),
  run E (init_state fs None) ops = (s, r) -> sk_data (st_sink s) = expected_stdout (st_log s).
Proof. exact (stdout_at_end None). Qed.
Print Assumptions C13_delivered_in_order_stdout.

(* Standard output when its writer accepts L bytes and then fails, at any
   offset, in any history, with any Output: what the writer has received at
   the end of the run is exactly the first L bytes of the issued stream (all
   of it if it is shorter) -- never reordered, duplicated or corrupted. *)
Theorem C13_stdout_prefix :
  forall (L : nat) (E : env) (fs : list (name * bytes)) (ops : list op) (s : state) (r : result),
  run E (init_state fs (Some L)) ops = (s, r) ->
  sk_data (st_sink s) = firstn L (expected_stdout (st_log s)).
Proof. exact (fun L => stdout_at_end (Some L)). Qed.
Print Assumptions C13_stdout_prefix.

(* Program order.  The log the theorems above replay is the program's own
   order: the EvWrite events of a run, oldest first, are print statements of
   the program, in program order, each with exactly the bytes of that
   statement and a destination that statement names (statements that fail
   before writing, or are not reached, contribute nothing). *)
Theorem C13_program_order :
  forall E s0 ops s r, writes (st_log s0) = [] -> run E s0 ops = (s, r) ->
  sub_trace ops (rev (writes (st_log s))).
Proof. exact program_order. Qed.
Print Assumptions C13_program_order.

(* the buffer of a file/command stream is a FIFO: flushed ++ kept = old ++ new *)
Theorem C13_stream_buffer_fifo : forall cap buf p f r, buf_bytes cap buf p = (f, r) -> f ++ r = buf ++ p.
Proof. exact buf_bytes_spec. Qed.
Print Assumptions C13_stream_buffer_fifo.

(* one name = one stream until close(): while a stream is open for n, > n,
   >> n and | n all write to it; nothing is opened and nothing is truncated *)
Theorem C13_one_stream_per_name : forall E s n r r' ps, amem n (st_outs s) = true ->
  step E s (Print (DRedir r n) ps) = step E s (Print (DRedir r' n) ps).
Proof. exact one_stream_per_name. Qed.
Print Assumptions C13_one_stream_per_name.

Theorem C13_print_to_open_stream : forall E s n r ps os, amem n (st_ins s) = false -> alookup n (st_outs s) = Some os ->
  exists s' os', step E s (Print (DRedir r n) ps) = (set_outs s' (aset n os' (st_outs s')), if os_err os' then Fail else Running) /\
    write_ostream E (add_log s (EvWrite (match os_kind os with KFile => WFile n | KCmd => WCmd n end) (concat ps))) n os (concat ps) = (s', os').
Proof. exact print_to_open_stream. Qed.
Print Assumptions C13_print_to_open_stream.

(* ---------- a reused Interpreter ---------- *)
(* however a run went and ended, its closeAll leaves no output or input stream registered *)
Theorem C13_run_closes_everything : forall E s ops,
  st_outs (fst (run E s ops)) = [] /\ st_ins (fst (run E s ops)) = [].
Proof. exact run_closes_everything. Qed.
Print Assumptions C13_run_closes_everything.

(* every Execute on a reused Interpreter starts with no registered stream (closeAll closed them
   all, resetCore forgot them all -- and forgot nothing that was still open), on the file system
   the earlier runs left: a name is opened afresh in every run *)
Theorem C13_every_execute_starts_clean : forall E limit progs s,
  st_outs s = [] -> st_ins s = [] ->
  Forall (fun s0 => st_outs s0 = [] /\ st_ins s0 = []) (starts E s limit progs) /\
  Forall (fun sr => st_outs (fst sr) = [] /\ st_ins (fst sr) = []) (run_many E s limit progs).
Proof. exact every_execute_starts_clean. Qed.
Print Assumptions C13_every_execute_starts_clean.

Theorem C13_reset_core_keeps_files : forall s limit, st_fs (reset_core s limit) = st_fs s.
Proof. exact reset_core_keeps_files. Qed.
Print Assumptions C13_reset_core_keeps_files.

(* ---------- flush_before_child ---------- *)
(* Every process (system, print | cmd, cmd | getline) starts when goawk holds
   no byte of standard output that could still be delivered: its buffer is
   empty, or the writer has failed for good.  All histories, all failures. *)
Theorem C13_flush_before_child :
  forall E s0 ops s r, Forall start_ok (st_log s0) -> run E s0 ops = (s, r) -> Forall start_ok (st_log s).
Proof. exact flush_before_child. Qed.
Print Assumptions C13_flush_before_child.

(* ---------- close_status ---------- *)
(* close(n) returns: the exit status / 256+signal / 512+signal (core) / -1 of
   the command n denotes, 0 for a file, -1 if n is not open *)
Theorem C13_close_status : forall E s n s' oc, good E s -> step E s (Close n) = (s', oc) ->
  oc = Running /\ exists rest, st_obs s' = ORet (close_code E s n) :: rest.
Proof. exact close_status. Qed.
Print Assumptions C13_close_status.

(* close() of a command stream ALWAYS waits for the command and reports the
   command's own exit status -- whatever the final Flush of goawk's buffered
   data into the command's stdin did (EPIPE because the command closed or never
   read its stdin, a sticky earlier error, nothing to flush), whatever state
   standard output is in, whether or not the program waited for the command's
   marker.  The status is what waitExitCode makes of the command's wait status
   (copy_failed can only turn a 0 into -1); the wait is on the log (EvClose). *)
Theorem C13_close_cmd_waits_and_reports : forall E s n os s' oc,
  alookup n (st_ins s) = None -> alookup n (st_outs s) = Some os -> os_kind os = KCmd ->
  step E s (Close n) = (s', oc) ->
  oc = Running /\
  exists copy_failed rest l,
    let code := fst (wait_result (c_exit (e_spec E n)) copy_failed) in
    st_obs s' = ORet code :: rest /\ st_log s' = EvClose n false code :: l.
Proof. exact close_cmd_waits_and_reports. Qed.
Print Assumptions C13_close_cmd_waits_and_reports.

(* a non-zero exit status, a signal, a core dump is reported exactly, always *)
Theorem C13_close_cmd_status_nonzero : forall E s n os s' oc,
  alookup n (st_ins s) = None -> alookup n (st_outs s) = Some os -> os_kind os = KCmd ->
  c_exit (e_spec E n) <> Exited 0 ->
  step E s (Close n) = (s', oc) ->
  exists rest, st_obs s' = ORet (wait_code (c_exit (e_spec E n))) :: rest.
Proof. exact close_cmd_status_nonzero. Qed.
Print Assumptions C13_close_cmd_status_nonzero.

(* [good] holds throughout every run whose standard output never fails *)
Theorem C13_good_throughout : forall E fs ops s r, exec E (init_state fs None) ops = (s, r) -> good E s.
Proof. intros E fs ops s r H. change s with (fst (s, r)). rewrite <- H. apply exec_good, init_good. Qed.
Print Assumptions C13_good_throughout.

(* ---------- write_failure_surfaces ---------- *)
(* full statement: the writer under Output accepts k bytes and then fails; no
   child writes to stdout; the program's own statements wrote more than k
   bytes => the run ends in an error *)
Definition C13_write_failure_surfaces_full : Prop :=
  forall (E : env) (fs : list (name * bytes)) (k : nat) (ops : list op) (s : state) (r : result),
  (forall c, c_stdout (e_spec E c) = [] /\ c_echo (e_spec E c) = false) ->
  run E (init_state fs (Some k)) ops = (s, r) ->
  (k < length (own_stdout (st_log s)))%nat -> r = RError.

Definition quiet : cmdspec :=
  {| c_sink := None; c_append := []; c_stdout := []; c_echo := false; c_drain := true; c_closes := false; c_exit := Exited 0 |}.
Definition env_of (m : omode) : env :=
  {| e_spec := fun _ => quiet; e_bad := fun _ => false; e_mode := m; e_fcap := 64 |}.

(* FALSE for a buffered Output (F-C13-1): print "hello" into a 16-byte
   bufio.Writer whose writer fails after 3 bytes: status 0, no error *)
Theorem C13_write_failure_surfaces_refuted : ~ C13_write_failure_surfaces_full.
Proof.
  intros H.
  pose (ops := [Print DStdout [[104; 101; 108; 108; 111]; [10]]]).
  pose proof (H (env_of (Buf 16)) [] 3%nat ops _ _ (fun _ => conj eq_refl eq_refl) (surjective_pairing _)) as X.
  vm_compute in X. assert (Y : RStatus 0 = RError) by (apply X; repeat constructor). discriminate.
Qed.
Print Assumptions C13_write_failure_surfaces_refuted.

(* TRUE for an unbuffered Output (a plain io.Writer or an *os.File) *)
Theorem C13_write_failure_surfaces_partial_unbuffered :
  forall (E : env), e_mode E = Unbuf \/ e_mode E = OsFile ->
  (forall c, c_stdout (e_spec E c) = [] /\ c_echo (e_spec E c) = false) ->
  forall fs k ops s r, run E (init_state fs (Some k)) ops = (s, r) ->
  (k < length (own_stdout (st_log s)))%nat -> r = RError.
Proof. exact write_failure_unbuffered. Qed.
Print Assumptions C13_write_failure_surfaces_partial_unbuffered.

(* buffered Output: once any Flush has failed, the next print fails the run *)
Theorem C13_write_failure_surfaces_partial_buffered :
  forall E cap s ps ops, e_mode E = Buf cap -> bw_err (st_out s) = true -> ps <> [] ->
  snd (run E s (Print DStdout ps :: ops)) = RError.
Proof. exact write_failure_after_failed_flush. Qed.
Print Assumptions C13_write_failure_surfaces_partial_buffered.

(* ---------- single_writer ---------- *)
(* full statement: goawk never uses Output while a live print | cmd child that
   has been given something to write to the shared stdout -- so that the
   goroutine os/exec runs for it may be inside Output.Write -- is not waited for *)
Definition C13_single_writer_full : Prop :=
  forall (E : env) (fs : list (name * bytes)) (limit : option nat) (ops : list op),
  st_overlap (fst (run E (init_state fs limit) ops)) = false.

Definition cat_env (m : omode) : env :=
  {| e_spec := fun _ => {| c_sink := None; c_append := []; c_stdout := []; c_echo := true; c_drain := true; c_closes := false; c_exit := Exited 0 |};
     e_bad := fun _ => false; e_mode := m; e_fcap := 64 |}.

(* FALSE whenever Output is not an *os.File (F-C13-2):
   print "x" | "cat"; fflush("cat"); print "h" *)
Theorem C13_single_writer_refuted : ~ C13_single_writer_full.
Proof.
  intros H.
  pose proof (H (cat_env Unbuf) [] None [Print (DRedir RPipe 14) [[120]]; Fflush (Some 14); Print DStdout [[104]]]) as X.
  vm_compute in X. discriminate.
Qed.
Print Assumptions C13_single_writer_refuted.

(* a child that writes nothing to the shared stdout (since fix c445299, childWriter) never makes
   that goroutine touch Output: print "x" | "cmd"; print "h" is no longer a witness *)
Example C13_silent_child_no_overlap : forall m, In m [OsFile; Unbuf; Buf 16] ->
  let s := fst (run (env_of m) (init_state [] None) [Print (DRedir RPipe 10) [[120]]; Print DStdout [[104]]]) in
  st_overlap s = false /\ st_unmod s = false /\ sk_data (st_sink s) = [104].
Proof. intros m [<- | [<- | [<- | []]]]; vm_compute; auto. Qed.

(* TRUE when Output is an *os.File (children then write to the descriptor themselves) *)
Theorem C13_single_writer_partial :
  forall (E : env), e_mode E = OsFile -> forall fs limit ops,
  st_overlap (fst (run E (init_state fs limit) ops)) = false.
Proof. intros E Hm fs limit ops. rewrite (single_writer_osfile E Hm). reflexivity. Qed.
Print Assumptions C13_single_writer_partial.

(* ---------- the hypotheses are satisfiable; the model computes ---------- *)
(* names as in harness/c13: files 1 2, "cat >> c1" = 10 -> file 3, "cat >> c2; exit 3" = 11 -> file 4,
   "printf xyz >> s2; exit 2" = 13 -> file 5, "printf SYSOUT" = 12 *)
Definition spec0 (c : name) : cmdspec :=
  if c =? 10 then {| c_sink := Some 3; c_append := []; c_stdout := []; c_echo := false; c_drain := true; c_closes := false; c_exit := Exited 0 |}
  else if c =? 11 then {| c_sink := Some 4; c_append := []; c_stdout := []; c_echo := false; c_drain := true; c_closes := false; c_exit := Exited 3 |}
  else if c =? 12 then {| c_sink := None; c_append := []; c_stdout := [83; 89; 83]; c_echo := false; c_drain := false; c_closes := false; c_exit := Exited 0 |}
  else if c =? 13 then {| c_sink := Some 5; c_append := [120; 121; 122]; c_stdout := []; c_echo := false; c_drain := false; c_closes := false; c_exit := Exited 2 |}
  else quiet.
Definition env0 (m : omode) : env := {| e_spec := spec0; e_bad := fun n => n =? 9; e_mode := m; e_fcap := 8 |}.
Definition F0 (n : name) : Prop := n = 1 \/ n = 2.
Definition P0 (c : name) : Prop := c = 10 \/ c = 11.
Definition Q0 (c : name) : Prop := c = 10 \/ c = 11 \/ c = 12 \/ c = 13.

Example C13_alias_free_example : forall m, alias_free (env0 m) F0 P0 Q0.
Proof.
  intros m. unfold F0, P0, Q0. constructor.
  - intros c [-> | ->]; auto.
  - intros c t [-> | [-> | [-> | ->]]]; cbn; intros H; try discriminate; injection H as <-; intros [X | X]; discriminate.
  - intros c1 c2 t [-> | ->] [-> | [-> | [-> | ->]]] Hne; cbn; intros H; try congruence; injection H as <-; congruence.
Qed.

Definition prog0 : list op :=
  [ Print DStdout [[97]; [10]];                 (* print "a" *)
    Print (DRedir RTrunc 1) [[98; 98; 98; 98; 98; 98; 98; 98; 98; 98]];   (* printf "bbbbbbbbbb" > f1 (overflows the 8-byte buffer) *)
    Print (DRedir RPipe 10) [[99]];             (* printf "c" | "cat >> c1" *)
    System 13;                                  (* system("printf xyz >> s2; exit 2") *)
    Print (DRedir RAppend 1) [[100]];           (* >> f1: same stream, no second open *)
    Close 10; Close 10;
    System 12;
    Print DStdout [[101]];
    Exit 3;
    Print DStdout [[102]] ].

Example C13_within_example : Forall (op_within F0 P0 Q0) prog0.
Proof. unfold prog0. repeat (apply Forall_cons; [cbn; unfold F0, P0, Q0; try exact I; lia|]). apply Forall_nil. Qed.

(* a command that has closed its stdin (17: exec 0<&-; : > m1 (file 6); exit 3 -- 18 the same with
   marker 7, "late\n" on the shared stdout and exit 5): the program waits for the marker, then closes *)
Definition spec1 (c : name) : cmdspec :=
  if c =? 17 then {| c_sink := Some 6; c_append := []; c_stdout := []; c_echo := false; c_drain := false; c_closes := true; c_exit := Exited 3 |}
  else if c =? 18 then {| c_sink := Some 7; c_append := []; c_stdout := [108; 97; 116; 101; 10]; c_echo := false; c_drain := false; c_closes := true; c_exit := Exited 5 |}
  else quiet.
Definition env1 (m : omode) : env := {| e_spec := spec1; e_bad := fun _ => false; e_mode := m; e_fcap := 8 |}.

Example C13_epipe_example : forall m, In m [OsFile; Unbuf; Buf 16] ->
  let (s, r) := run (env1 m) (init_state [] None)
      [ Print DStdout [[97]]; Print (DRedir RPipe 18) [[120]]; AwaitFile 7; Close 18;
        Print (DRedir RPipe 17) [[121]]; AwaitFile 6; Fflush (Some 17); Close 17; Print DStdout [[122]] ] in
  r = RStatus 0 /\
  sk_data (st_sink s) = [97; 108; 97; 116; 101; 10; 122] /\      (* a late\n z : the child's output is there before close returns *)
  rev (st_obs s) = [ORet 0; ORet 5; ORet 0; ORet (-1); ORet 3] /\ (* marker read, close = 5; marker read, fflush = -1, close = 3 *)
  st_unmod s = false.
Proof. intros m [<- | [<- | [<- | []]]]; vm_compute; repeat split; auto. Qed.

(* three runs on one Interpreter: run 1 leaves > f1 and | 10 open; run 2 opens f1 afresh (> truncates
   again) and starts the command again; run 3 finds neither open *)
Example C13_reused_example : forall m, In m [OsFile; Unbuf; Buf 16] ->
  let rs := run_many (env0 m) (init_state [(1, [111; 108; 100])] None) None
      [ [Print (DRedir RTrunc 1) [[97]]; Print (DRedir RPipe 10) [[120]]];
        [Print (DRedir RTrunc 1) [[98]]; Print (DRedir RPipe 10) [[121]]; Close 10];
        [Close 1; Close 10; Print (DRedir RAppend 1) [[99]]] ] in
  map (fun sr => (fs_get (st_fs (fst sr)) 1, fs_get (st_fs (fst sr)) 3, rev (st_obs (fst sr)))) rs =
  [ ([97], [120], []); ([98], [120; 121], [ORet 0]); ([98; 99], [120; 121], [ORet (-1); ORet (-1)]) ].
Proof. intros m [<- | [<- | [<- | []]]]; vm_compute; reflexivity. Qed.

(* the run of prog0: files, stdout, close/system results, exit status; the
   same whether Output is buffered or not *)
Example C13_run_example : forall m, In m [OsFile; Unbuf; Buf 4] ->
  let (s, r) := run (env0 m) (init_state [(1, [111; 108; 100])] None) prog0 in
  r = RStatus 3 /\
  sk_data (st_sink s) = [97; 10; 83; 89; 83; 101] /\
  fs_get (st_fs s) 1 = [98; 98; 98; 98; 98; 98; 98; 98; 98; 98; 100] /\
  fs_get (st_fs s) 3 = [99] /\ fs_get (st_fs s) 5 = [120; 121; 122] /\
  rev (st_obs s) = [ORet 2; ORet 0; ORet (-1); ORet 0] /\
  Forall start_ok (st_log s) /\ st_unmod s = false.
Proof.
  intros m [<- | [<- | [<- | []]]]; vm_compute; repeat split; auto;
    repeat constructor; auto.
Qed.
