(* C02 — Running any accepted program never crashes the host.
   Statements only (closed by [exact]), non-vacuity examples, the refuted full statement for the
   one-byte record separator, and the primitive no-panic theorems of other properties restated. *)
From Coq Require Import String.
From Verif Require Import Lib.Base Lib.Dyadic Model.Ast Model.Instr Model.Compiler Model.Prims Model.VM
  Model.Encode Model.Verifier Model.Decode Model.PrimsToy Gen.Consts Gen.Panics
  Proofs.VerifierBase Proofs.VerifierSound Proofs.VerifierProgram Proofs.VerifierDepth Proofs.VerifierPanics Proofs.Decode Proofs.VerifierShape.
From Verif Require Import Properties.C01.

(* ---- 1. the bytecode verifier is sound ------------------------------------------------- *)

(* For EVERY implementation P of the interpreter's primitive operations whose CallBuiltin takes
   and leaves the numbers of values that vm.go's callBuiltin does ([prims_shape]), every function
   table F all of whose bodies pass the check, every code unit C that passes the check for a
   frame of [nlocals] values with [d0] values above the base: from ANY machine state with that
   frame length and a call depth not above the maximum, ANY stack holding at least d0 values,
   for ANY number of steps, the machine of Model/VM.v never reaches [VStuck] -- no evaluation-stack
   underflow, no fetch or jump off an instruction boundary, no frame index outside the frame, no
   call of a function that is not in the table.  Unbounded in inputs, state and steps. *)
Theorem C02_checked_code_never_stuck :
  forall (value St err : Type) (P : prims value St err), prims_shape P ->
  forall F : list cfunc, check_funcs F = true ->
  forall nlocals infunc d0 dend C, check_code (ftable_of F) nlocals infunc d0 dend C = true ->
  forall fuel stk (m : mstate value St),
    d0 <= zlen stk -> zlen (frame m) = nlocals -> depth m <= maxCallDepth ->
    run P F fuel C 0 stk m <> VStuck.
Proof. intros ? ? ? P Hs F HF ? ? ? ? ? Hc fuel stk m Hd Hf _. exact (check_code_never_stuck _ _ _ P Hs F HF _ _ _ _ _ Hc fuel stk m Hd Hf). Qed.
Print Assumptions C02_checked_code_never_stuck.

(* ... and when the unit completes the evaluation stack is exactly where the annotation says
   (back at the frame base for statements), frame and call depth are restored; Return leaves a
   function with the stack at the activation's base; a for-in break never escapes its unit. *)
Theorem C02_checked_code_balanced :
  forall (value St err : Type) (P : prims value St err), prims_shape P ->
  forall F : list cfunc, check_funcs F = true ->
  forall nlocals infunc d0 dend C, check_code (ftable_of F) nlocals infunc d0 dend C = true ->
  forall fuel stk (m : mstate value St),
    d0 <= zlen stk -> zlen (frame m) = nlocals -> depth m <= maxCallDepth ->
    match run P F fuel C 0 stk m with
    | VDone stk' m' => zlen stk' = zlen stk - d0 + dend /\ zlen (frame m') = nlocals /\ depth m' = depth m
    | VRet _ stk' m' => infunc = true /\ zlen stk' = zlen stk - d0 /\ depth m' = depth m
    | VBrk _ _ => False
    | VStuck => False
    | _ => True
    end.
Proof. intros ? ? ? P Hs F HF ? ? ? ? ? Hc fuel stk m Hd Hf _. exact (check_code_balanced _ _ _ P Hs F HF _ _ _ _ _ Hc fuel stk m Hd Hf). Qed.
Print Assumptions C02_checked_code_balanced.

(* whole program: every unit (BEGIN, END, each pattern, each action body) of a program that
   passes [check_program], started the way executeAll / execActions start it *)
Theorem C02_checked_program_never_stuck :
  forall (value St err : Type) (P : prims value St err) (p : cprogram),
  prims_shape P -> check_program p = true ->
  forall c dend, unit_of p c dend ->
  forall fuel stk (s : St),
    match run P (c_funcs p) fuel c 0 stk {| ms := s; frame := []; depth := 0 |} with
    | VStuck => False
    | VDone stk' m' => zlen stk' = zlen stk + dend /\ frame m' = [] /\ depth m' = 0
    | VRet _ _ _ => False
    | VBrk _ _ => False
    | _ => True
    end.
Proof. exact checked_program_never_stuck. Qed.
Print Assumptions C02_checked_program_never_stuck.

(* the call depth of EVERY machine state visited during a run of checked code stays at or below
   maxCallDepth (the value regenerated from interp/vm.go); one call more is the run-time error *)
Theorem C02_call_depth_bounded :
  forall (value St err : Type) (P : prims value St err), prims_shape P ->
  forall F : list cfunc, check_funcs F = true ->
  forall nlocals infunc d0 dend C, check_code (ftable_of F) nlocals infunc d0 dend C = true ->
  forall fuel stk (m : mstate value St),
    d0 <= zlen stk -> zlen (frame m) = nlocals -> depth m <= maxCallDepth ->
    all_states P F (fun m' => depth m' <= maxCallDepth) fuel C 0 stk m.
Proof. exact check_code_depth_bounded. Qed.
Print Assumptions C02_call_depth_bounded.

(* table operands: every instruction the machine can fetch from checked code addresses a
   global, array, special variable, constant, native function inside its table *)
Theorem C02_limits_sound : forall L C,
  check_limits L C = true -> forall ip i, fetch C ip = Some i -> instr_in_limits L i = true.
Proof. exact check_limits_sound. Qed.
Print Assumptions C02_limits_sound.

(* ---- 2. the decoder that feeds the verifier with the real compiled code ------------------ *)

(* decoding inverts the plain encoding, for every code list whose instructions have an opcode *)
Theorem C02_decode_inverts_encoding : forall c, forallb encodable c = true -> decode (enc_raw c) = Some c.
Proof. exact decode_enc_raw. Qed.
Print Assumptions C02_decode_inverts_encoding.

(* ... and the words Model/Encode.v emits (what C01 compares word for word with the Go
   compiler's output) decode to the same code with every constant replaced by its table index *)
Theorem C02_decode_inverts_compiler_encoding : forall p c,
  forallb scopes_encodable c = true -> decode (fst (enc_code p c)) = Some (abs_code p c).
Proof. exact decode_enc_code. Qed.
Print Assumptions C02_decode_inverts_compiler_encoding.

(* the verdict does not depend on constants: the code decoded from the words the compiler model
   emits passes the check exactly when the model's own code does (so, with C01's word-for-word
   correspondence, a passed check on the real words of an explored program is a passed check on
   the code Model/Compiler.v produces for it) *)
Theorem C02_check_decoded_iff_encoded : forall FT nl inf d0 dend p c,
  forallb scopes_encodable c = true ->
  exists c', decode (fst (enc_code p c)) = Some c' /\
             check_code FT nl inf d0 dend c' = check_code FT nl inf d0 dend c.
Proof. exact check_decoded_iff_encoded. Qed.
Print Assumptions C02_check_decoded_iff_encoded.

(* every opcode of internal/compiler/opcodes.go (regenerated table) has exactly one decoder entry *)
Theorem C02_opcode_table_complete : op_tab_ok = true.
Proof. exact op_tab_complete. Qed.
Print Assumptions C02_opcode_table_complete.

(* ---- 3. every panic-raising / panic-handling site of the repository is classified --------- *)

Theorem C02_all_panic_sites_classified : forall s, In s sites -> classify s <> None.
Proof. exact all_sites_classified. Qed.
Print Assumptions C02_all_panic_sites_classified.

Theorem C02_classification_has_no_stale_entry : entries_live = true.
Proof. exact entries_are_live. Qed.
Print Assumptions C02_classification_has_no_stale_entry.

(* no site is classified reachable any more (the three that were -- ParseProgram's re-panic,
   fromNative, setSpecial's MustCompile -- are protected by the repairs of F-C02-1, 3, 4, 7) *)
Theorem C02_reachable_sites : reachable_sites = [].
Proof. exact reachable_sites_are. Qed.
Print Assumptions C02_reachable_sites.

(* ---- 4. the one run-time MustCompile: setSpecial(RS) with a one-byte separator (was F-C02-1, repaired) ---- *)

(* no empty or one-byte record separator -- any of the 256 bytes -- makes setSpecial panic *)
Theorem C02_rs_one_byte_never_panics : forall rs, (length rs <= 1)%nat -> set_rs_short rs = RsOk.
Proof. exact rs_one_byte_never_panics. Qed.
Print Assumptions C02_rs_one_byte_never_panics.

(* the utf8.ValidString test is what prevents it: MustCompile(QuoteMeta(b)) alone panics exactly
   on the non-ASCII bytes *)
Theorem C02_rs_guard_is_needed : forall b, must_compile_quoted [b] = RsPanic <-> ~ (0 <= b < 128).
Proof. exact must_compile_quoted_exact. Qed.
Print Assumptions C02_rs_guard_is_needed.

(* the former witness: RS = "\xff" *)
Example C02_rs_former_witness : set_rs_short [255] = RsOk.
Proof. reflexivity. Qed.

(* ---- 4b. CSV/TSV input: $i after `getline var` (was finding F-C02-8, repaired) ------------------ *)

(* whatever sequence of records read by the main loop, records read by `getline var` /
   `getline arr[k]`, uses of NF, reads of $i and changes of INPUTMODE in the middle of the stream
   happens on a stream opened in CSV/TSV input mode (its splitter is fixed when the scanner is
   created), getField never indexes p.fieldsIsTrueStr out of range *)
Theorem C02_csv_fields_never_panic : forall ops, f_run fs_init ops <> None.
Proof. exact csv_fields_never_panic. Qed.
Print Assumptions C02_csv_fields_never_panic.

(* ... because a record read into a variable leaves the current record's fields as they were *)
Theorem C02_getline_var_keeps_fields : forall s n, f_step s (OGetlineVar n) = Some s.
Proof. exact getline_var_keeps_fields. Qed.
Print Assumptions C02_getline_var_keeps_fields.

(* the former witness: BEGIN { n = NF; getline x; print $1 } with a three-field first record *)
Example C02_csv_former_witness : f_run fs_init [ONF; OGetlineVar 3; OField 1] <> None.
Proof. discriminate. Qed.

(* NR == 1 { INPUTMODE = ""; n = NF; getline x; print $3 } on "p,q" / "a,b,c": the CSV scanner
   outlives the switch to default mode; getline restores p.fields whatever the current mode *)
Example C02_csv_mode_switch_witness :
  f_run fs_init [ORecord 2 1; OSetMode false; ONF; OGetlineVar 3; OField 3] <> None.
Proof. discriminate. Qed.

(* ---- non-vacuity ---------------------------------------------------------------------------- *)

(* a primitive record meeting [prims_shape] exists: any record, with CallBuiltin forced to the table *)
Example C02_hypothesis_satisfiable : prims_shape (reshape Z tstate unit toy_plain).
Proof. apply reshape_shape. Qed.

(* the compiled example program of C01 (function call, while with break/continue, print, for-in)
   passes the check and, run on the toy primitives, ends with the stack where it started *)
Definition ex_cfuncs : list cfunc := map comp_func ex_funcs.
Example C02_example_checks :
  check_funcs ex_cfuncs = true /\
  check_code (ftable_of ex_cfuncs) 0 false 0 0 (comp_block ex_prog) = true /\
  (exists m', run (reshape Z tstate unit toy_plain) ex_cfuncs 400 (comp_block ex_prog) 0 [5; 6] m0 = VDone [5; 6] m').
Proof. split; [vm_compute; reflexivity|]. split; [vm_compute; reflexivity|]. eexists. vm_compute. reflexivity. Qed.

(* what the check rejects: a Drop on an empty stack, a jump into the middle of an instruction,
   a local outside the frame, a call of a missing function, an unbalanced for-in body, a Return at
   top level -- and the machine really gets stuck on the first of them *)
Example C02_rejects :
  check_code [] 0 false 0 0 [IDrop] = false /\
  check_code [] 0 false 0 0 [IJump 1; INum 0; IDrop] = false /\
  check_code [] 1 true 0 0 [ILocal 1; IDrop] = false /\
  check_code [] 0 false 0 0 [ICallUser 0 []; IDrop] = false /\
  check_code [] 0 false 0 0 [IForIn SGlobal 0 SGlobal 0 2; INum 0] = false /\
  check_code [] 0 false 0 0 [IReturnNull] = false /\
  run toy_plain [] 5 [IDrop] 0 [] m0 = VStuck.
Proof. repeat split; vm_compute; reflexivity. Qed.

(* the decoder on real words: `BEGIN { print $1 }` as the Go compiler emits it *)
Example C02_decode_example :
  decode [opn "FieldInt"; 1; opn "Print"; 1; redir_tok RNone] = Some [IFieldInt 1; IPrint 1 RNone].
Proof. vm_compute. reflexivity. Qed.

(* ---- 5. primitive operations: no-panic theorems of other properties, as C02 corollaries ---- *)

From Verif Require Import Model.Builtins Proofs.BuiltinsBytes Properties.C10.

(* substr never slices out of range, whatever doubles arrive (NaN, +-inf, |x| >= 2^63)  [C10] *)
Theorem C02_prim_substr_no_panic : forall s x y, go_len s ->
  (exists r, substr_bytes s x = Ok r) /\ (exists r, substr_len_bytes s x y = Ok r).
Proof. intros s x y H. split; [exact (C10_substr_no_panic s x H)|exact (C10_substr_len_no_panic s x y H)]. Qed.
Print Assumptions C02_prim_substr_no_panic.

From Verif Require Import Model.Scanner Model.Splitters Proofs.Scanner Properties.C07.

(* record reading: for every RS and every delivery of the input no split function panics,
   advances outside the data or stalls  [C07] *)
Theorem C02_prim_record_reading_never_fails : forall (find : bytes -> option (Z * Z)),
  (forall d s e, find d = Some (s, e) -> 0 <= s /\ s <= e /\ e <= zlen d) ->
  forall rs last_eof chunks, reader_ok last_eof O chunks ->
  snd (scan unit record (goawk_split rs find) last_eof tt chunks) = Done.
Proof. exact C07_never_fails. Qed.
Print Assumptions C02_prim_record_reading_never_fails.

From Verif Require Import Model.Resolver Properties.C16.

(* the resolver never indexes Params out of range nor reflects on a missing native function  [C16] *)
Theorem C02_prim_resolver_no_panic : forall (pi : oracle) (P : program),
  resolve pi P <> RPanic.
Proof. exact C16_no_panic. Qed.
Print Assumptions C02_prim_resolver_no_panic.

From Coq Require Import Permutation.
From Verif Require Import Model.Native Proofs.NativeCheck Proofs.NativeCall Proofs.NativeRun Properties.C17.

(* calls of native Go functions whose signature checkNativeFunc accepts (user-defined types of the
   documented kinds included) never panic in callNative  [C17] *)
Theorem C02_prim_native_call_no_panic : forall pf pp ff tbl idx s body args,
  nindex tbl idx = NOk (s, body) -> wf_sig s -> acceptable_sig s = true -> body_ok s body ->
  (variadic s = true \/ zlen args <= zlen (params s)) ->
  exists r, call_native pf pp ff tbl idx args = NOk r.
Proof.
  intros pf pp ff tbl idx s body args H1 H2 H3 H6 H7.
  destruct (C17_valid_sig_no_panic pf pp ff tbl idx s body args H1 H2 H3 H6 H7) as [r [Hr _]].
  exists r. exact Hr.
Qed.
Print Assumptions C02_prim_native_call_no_panic.

(* whatever values Go's typing allows in Funcs (nil, non-functions, functions of any shape), in
   both iteration orders, for every called name and argument list: parse + set-up + call never
   panic  [C17] *)
Theorem C02_prim_funcs_values_never_panic : forall pf pp ff funcs_r funcs_i awk name args,
  NoDup (map fst funcs_i) -> Permutation.Permutation funcs_r funcs_i ->
  (forall n f, In (n, f) funcs_i -> go_typed f) ->
  forall k, run pf pp ff funcs_r funcs_i awk name args <> OPanic k.
Proof. exact C17_never_panics. Qed.
Print Assumptions C02_prim_funcs_values_never_panic.

From Verif Require Import Model.Printf Proofs.PrintfParse Properties.C09.

(* sprintf / printf: argument indexing, the %c slice, types[i+1], stars[0] and the cut of ".*" out
   of the cached format never go out of range, whatever the format and arguments  [C09] *)
Theorem C02_prim_sprintf_no_panic : forall chars ffmt format args,
  (forall x, PrintfParse.no_panic (ffmt x)) -> PrintfParse.no_panic (Printf.sprintf chars ffmt format args).
Proof. exact C09_sprintf_no_panic. Qed.
Print Assumptions C02_prim_sprintf_no_panic.

From Verif Require Import Model.Value Properties.C05.

(* the numeric-prefix scanner (hasNaNPrefix / hasInfPrefix / hasHexPrefix and the digit loops)
   never indexes past the string  [C05] *)
Theorem C02_prim_prefix_scan_no_panic : forall s, Value.scan_prefix s <> Value.PSPanic.
Proof. exact C05_prefix_scan_no_panic. Qed.
Print Assumptions C02_prim_prefix_scan_no_panic.

From Verif Require Import Model.Fields Proofs.FieldsSpec Properties.C06.

(* $0 / fields / NF: no script of record, field and NF updates makes the record code slice or
   index out of range  [C06] *)
Theorem C02_prim_fields_no_panic : forall rx am, C06.engine_ok rx am ->
  forall ops, Forall (FieldsSpec.op_safe rx) ops -> Fields.run rx am ops (Fields.init rx) <> Panic.
Proof. exact C06_no_panic. Qed.
Print Assumptions C02_prim_fields_no_panic.
