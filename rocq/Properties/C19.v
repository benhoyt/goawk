(* C19 - Parsing is deterministic; a parsed Program is immutable and shareable.
   Only statements closed by [exact] of a lemma proved in Proofs/, non-vacuity
   examples, refutation witnesses and Print Assumptions.

   Vocabulary.  [resolve pi P] is C16's model of resolver.Resolve (Model/Resolver.v),
   generic in the order [pi] in which the keys of each iterated map are seen (any
   permutation, each time it is asked: [perm_oracle]).  Since the repair of
   F-C19-1/1b/2 the code sorts those keys: what Go's randomised iteration delivers
   ([pi]) is sorted before use, the implementation is [resolve (sorting pi) P]
   (= resolve_sorting pi P).  [names_ok P]: function names are not empty (the parser).  [final_equiv F F']: two results have the same type for every variable
   and parameter, the same global indexes and the same local indexes;
   [lookup_final F fn v] is ResolvedProgram.LookupVar (scope, type, index) on a
   result - with func_info (LookupFunc, which does not depend on the run) all the
   compiler reads.  [order_outcomes cut P]: the outcomes of resolve_order over every
   permutation of the function list; [one_error cut P]: those of them that are
   errors are one and the same error (computable).
   Gen/ProgramWrites.v: the alias analysis of the repository source (translator/gen_c19.go). *)
From Verif Require Import Lib.Base Model.Resolver Model.Determinism Proofs.Resolver Proofs.ResolverExact
  Proofs.ResolverFlat Proofs.ResolverSound Proofs.DeterminismSort Proofs.DeterminismPerm
  Proofs.ResolverLoop Proofs.Determinism Proofs.DeterminismSorted Proofs.DeterminismTables Proofs.ResolverCutoff
  Gen.ProgramWrites.
From Coq Require Import Permutation String.

(* ============ 1. PARSING IS DETERMINISTIC ============================================== *)

(* THE FULL STATEMENT.  For every program - valid or not - and any two map iteration
   orders the resolver returns the SAME result: same verdict, same error, same tables
   (Leibniz equality of the whole result; no guard, not even names_ok). *)
Theorem C19_parse_deterministic : forall (pi pi' : oracle) (P : program),
  perm_oracle pi -> perm_oracle pi' -> resolve (sorting pi) P = resolve (sorting pi') P.
Proof. exact impl_parse_deterministic. Qed.
Print Assumptions C19_parse_deterministic.

Definition C19_full_statement : Prop :=
  forall pi pi' P, perm_oracle pi -> perm_oracle pi' ->
    same_result (resolve_sorting pi P) (resolve_sorting pi' P).

Theorem C19_full_statement_holds : C19_full_statement.
Proof.
  intros pi pi' P Hpi Hpi'. unfold resolve_sorting.
  rewrite (impl_parse_deterministic pi pi' P Hpi Hpi'). apply same_result_refl.
Qed.
Print Assumptions C19_full_statement_holds.

(* the implementation is C16's model under the oracle "sorted": a permutation oracle,
   so every theorem of C16 (sound, complete, exact, no panic, never "too many iterations") is a
   theorem about the implementation; and it is the run the model runner computes *)
Theorem C19_impl_is_instance : forall (pi : oracle) (P : program),
  perm_oracle pi -> perm_oracle (sorting pi) /\ resolve (sorting pi) P = resolve name_order_oracle P.
Proof. exact (fun pi P Hpi => conj (sorting_perm pi Hpi) (impl_is_name_order pi P Hpi)). Qed.
Print Assumptions C19_impl_is_instance.

(* ---- what holds for ANY order of the walk (also for the code before the repair, and
   for whatever order a later change may choose): the rest of this section ---- *)

(* TYPES AND INDEXES (no guard).  Two accepted runs of the resolver on the same
   program, under any two map iteration orders, agree on the type of every
   variable and parameter and on every index: index assignment is a function of
   the SET of names (globals are sorted before they are numbered, locals follow
   the parameter list), and the set of names in the finished table is a function
   of the program. *)
Theorem C19_accepted_deterministic : forall (pi pi' : oracle) (P : program) (F F' : final),
  perm_oracle pi -> perm_oracle pi' -> names_ok P ->
  resolve pi P = ROk F -> resolve pi' P = ROk F' -> final_equiv F F'.
Proof. exact accepted_deterministic. Qed.
Print Assumptions C19_accepted_deterministic.

(* ... hence the same answer to every LookupVar ... *)
Theorem C19_lookup_deterministic : forall F F',
  final_equiv F F' -> forall fn v, lookup_final F fn v = lookup_final F' fn v.
Proof. exact lookup_deterministic. Qed.
Print Assumptions C19_lookup_deterministic.

(* ... hence the same compiled program: anything computed from the syntax tree by
   asking LookupVar (the compiler: Model/Compiler.v is a function of the tree
   annotated with exactly these answers) gives the same result. *)
Theorem C19_compiled_deterministic : forall (A : Type)
    (compile : (name -> name -> option (scope * ty * Z)) -> A) (F F' : final),
  (forall l l', (forall fn v, l fn v = l' fn v) -> compile l = compile l') ->
  final_equiv F F' -> compile (lookup_final F) = compile (lookup_final F').
Proof. exact (@compiled_deterministic). Qed.
Print Assumptions C19_compiled_deterministic.

(* sort.Strings is canonical: the order in which the map delivered the names is irrelevant *)
Theorem C19_sorted_names_canonical : forall l l', Permutation l l' -> sort_names l = sort_names l'.
Proof. exact sort_names_canonical. Qed.
Print Assumptions C19_sorted_names_canonical.

(* An accepted program meets C16's precondition (calls name defined functions
   with at most as many arguments as parameters, no name clash): C16's theorems
   apply to everything the resolver accepts. *)
Theorem C19_accepted_wf : forall (pi : oracle) (P : program) (F : final),
  perm_oracle pi -> names_ok P -> resolve pi P = ROk F -> wf0 P = true.
Proof. exact accepted_wf0. Qed.
Print Assumptions C19_accepted_wf.

(* VERDICT under an arbitrary walk order - no guard since C16's repair of the pass limit
   (C16_never_gives_up: the resolver never answers "too many iterations").
   For EVERY program - valid or not - acceptance does not depend on the order of the walk. *)
Theorem C19_verdict_any_order : forall (pi pi' : oracle) (P : program),
  perm_oracle pi -> perm_oracle pi' -> names_ok P ->
  ((exists F, resolve pi P = ROk F) <-> (exists F', resolve pi' P = ROk F')).
Proof. exact verdict_any_order. Qed.
Print Assumptions C19_verdict_any_order.

(* ENUMERATION.  Whatever the map order, the outcome is one of the outcomes of
   resolve_order over the permutations of the function list: the quantification
   over oracles reduces to a finite enumeration (what modelrun computes). *)
Theorem C19_outcome_enumerated : forall (pi : oracle) (P : program),
  perm_oracle pi -> names_ok P -> In (resolve pi P) (order_outcomes (pass_fuel P) P).
Proof. exact outcome_enumerated. Qed.
Print Assumptions C19_outcome_enumerated.

(* ERROR MESSAGE under an arbitrary walk order (guard = the error set over all orders of
   the functions is a singleton; otherwise the order decides, see
   C19_ex_walk_order_decides_error). *)
Theorem C19_error_any_order : forall (pi pi' : oracle) (P : program) (e e' : rerr),
  perm_oracle pi -> perm_oracle pi' -> names_ok P -> one_error (pass_fuel P) P = true ->
  resolve pi P = RErr e -> resolve pi' P = RErr e' -> e = e'.
Proof. exact error_any_order. Qed.
Print Assumptions C19_error_any_order.

(* a program with at most one function: the whole result is determined *)
Theorem C19_single_function_deterministic : forall (pi pi' : oracle) (P : program),
  perm_oracle pi -> perm_oracle pi' -> names_ok P -> (List.length (p_funcs P) <= 1)%nat ->
  resolve pi P = resolve pi' P.
Proof. exact single_function_deterministic. Qed.
Print Assumptions C19_single_function_deterministic.

(* THE WHOLE RESULT under arbitrary walk orders (one guard left: the error set is a
   singleton): same verdict, same error, same types and indexes *)
Theorem C19_result_any_order : forall (pi pi' : oracle) (P : program),
  perm_oracle pi -> perm_oracle pi' -> names_ok P ->
  one_error (pass_fuel P) P = true ->
  same_result (resolve pi P) (resolve pi' P).
Proof. exact result_any_order. Qed.
Print Assumptions C19_result_any_order.

(* ---- why the sort is load-bearing: the order of the walk IS observable ---- *)

(* two functions with independent type errors: the generic resolver reports f's or g's
   error depending on which is walked first (the former F-C19-1); sorted: f's *)
Example C19_ex_walk_order_decides_error :
  names_ok two_bad /\
  resolve (front_oracle [102]) two_bad = RErr (EUse TArray n_a TScalar) /\
  resolve (front_oracle [103]) two_bad = RErr (EUse TArray n_b TScalar) /\
  resolve name_order_oracle two_bad = RErr (EUse TArray n_a TScalar).
Proof. exact (conj two_bad_names (conj two_bad_f_first (conj two_bad_g_first two_bad_sorted))). Qed.

(* DISASSEMBLY NAMES - full.  compiler.Program.nativeFuncNames (what Disassemble prints
   after CallNative) is filled from a map iteration over the functions, entering the
   native ones only (repair of F-C19-3): the entry for every index is independent of
   the order in which the map delivers the functions. *)
Theorem C19_disassembly_names : forall (P : program) (order order' : list name) (i : Z),
  Permutation order order' -> name_shown P order i = name_shown P order' i.
Proof. exact name_shown_deterministic. Qed.
Print Assumptions C19_disassembly_names.

(* the former witness: function f(a) { natv(a) } with the Go function natv, both index 0 *)
Example C19_ex_native_clash :
  name_shown native_clash [n_natv; [102]] 0%Z = Some n_natv /\
  name_shown native_clash [[102]; n_natv] 0%Z = Some n_natv.
Proof. exact (proj2 native_clash_shown). Qed.

(* ============ 2. A PARSED PROGRAM IS READ-ONLY (table theorems) ========================= *)

(* the alias set: where the Program enters package interp and which interpreter
   fields alias it (slice headers copied by newInterp share the backing arrays) *)
Theorem C19_alias_set : seeds = expected_seeds /\ alias_fields = expected_alias_fields.
Proof. exact (conj seeds_as_expected alias_set_as_expected). Qed.
Print Assumptions C19_alias_set.

(* PROGRAM READ-ONLY: nowhere in the repository is there an assignment, op-assignment,
   ++/--, append, copy, delete, clear, address-taking or channel send whose target
   may lie in memory reachable from a parser.Program held by an interpreter *)
Theorem C19_program_read_only : filter of_program write_sites = [].
Proof. exact program_read_only. Qed.
Print Assumptions C19_program_read_only.

(* the only foreign code that receives a reference into the Program: methods of
   *regexp.Regexp documented as safe for concurrent use; no call through a function
   value receives one *)
Theorem C19_program_escapes :
  forallb (fun s => str_mem (pw_text s) regexp_concurrency_safe && String.eqb (pw_kind s) "recv")
          (filter of_program ext_calls) = true /\
  map pw_text (filter of_program ext_calls) = ["(*regexp.Regexp).MatchString"%string] /\
  dyn_calls = [].
Proof.
  exact (conj program_escapes_only_to_safe_regexp_methods (conj shared_regex_methods_listed no_dynamic_escape)).
Qed.
Print Assumptions C19_program_escapes.

(* INTERPRETER STATE IS PRIVATE: the package-level variables are exactly the listed
   ones; outside func init the only write whose target may be reachable from one is
   the classified append in execShell (harmless: cap = len, see DeterminismTables.v);
   references to them leave the repository only to exec.Command and to
   concurrency-safe regexp methods *)
Theorem C19_interp_state_private :
  list_eqb2 pv_eqb pkg_vars expected_pkg_vars = true /\
  forallb (fun s => negb (of_program s) && existsb (key_eqb (site_key s)) classified_global_writes) write_sites = true /\
  forallb (fun s => str_mem (pw_text s) global_escape_ok) ext_calls = true /\
  assumed_fresh = ["os/exec.Command"%string; "os/exec.CommandContext"%string].
Proof.
  exact (conj pkg_vars_as_expected (conj all_write_sites_classified
          (conj globals_escape_only_to_known_functions analysis_assumptions))).
Qed.
Print Assumptions C19_interp_state_private.

(* NO OTHER ORDER-SENSITIVE SITE.  The `for ... range <map>` statements of the front end
   (parser, lexer, internal/ast, internal/resolver, internal/compiler), with their complete
   text, and the callers of IterVars/IterFuncs are exactly the classified ones
   (Proofs/DeterminismTables.v gives the reason for each: sorted before use / iterations
   independent / minimum under a total order / writes at distinct indexes) *)
Theorem C19_map_iteration_sites :
  list_eqb site5_eqb map_ranges (map fst classified_map_ranges) = true /\
  list_eqb site5_eqb iter_callers (map fst classified_iter_callers) = true.
Proof. exact (conj map_ranges_classified iter_callers_classified). Qed.
Print Assumptions C19_map_iteration_sites.

(* ============ non-vacuity ================================================================= *)

Example C19_ex_oracles : perm_oracle (front_oracle [102]) /\ perm_oracle (seed_oracle 5).
Proof. exact (conj (front_oracle_perm _) (seed_oracle_perm 5)). Qed.

(* the guards of the partial theorems hold for an accepted program with two functions ... *)
Example C19_ex_accepted : names_ok good_prog /\ one_error (pass_fuel good_prog) good_prog = true /\
  is_ok (resolve (front_oracle [102]) good_prog) = true /\ is_ok (resolve (front_oracle [103]) good_prog) = true.
Proof. exact good_prog_accepted. Qed.

(* ... and for a rejected one with a single erroneous function; the guard excludes the witness *)
Example C19_ex_one_error : names_ok one_bad /\ one_error (pass_fuel one_bad) one_bad = true /\
  resolve (front_oracle [103]) one_bad = RErr (EUse TArray n_a TScalar).
Proof. exact one_bad_guard. Qed.

Example C19_ex_guard_excludes_witness : one_error (pass_fuel two_bad) two_bad = false.
Proof. exact two_bad_guard. Qed.
