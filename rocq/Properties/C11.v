(* C11 — Input bookkeeping: NR, FNR, FILENAME, operands, getline, ranges, next, exit.
   Only statements closed by [exact] of a lemma proved in Proofs/, Print Assumptions and
   non-vacuity examples.  The two defects the first build found (F-C11-1, F-C11-2) are repaired in
   the tree; their former [_full_statement]s are theorems now (C11_next_anywhere..., C11_assign_value).

   Vocabulary (Model/Input.v, Proofs/Input*.v).  The AWK program is an ARBITRARY deterministic
   machine: a type [U] of program states, [step : U -> st -> req * U] (the next request of the
   program: a getline form, an assignment to NR/FNR/ARGV/ARGC/$0/a variable, a trace, or the end of
   the current block with outcome value / next / nextfile / exit / error) and
   [enter : blk -> U -> U] (start BEGIN, a pattern, a rule body, END).  Rule bodies, pattern
   expressions, functions and loops live inside [U]; the theorems hold for every [U], [step], [enter].
   [st] is the state of goawk's input subsystem; [log s] is the (ghost) history of events;
   [hist s] = the history oldest first.  [exec_all] = executeAll, [main_loop] = execActions,
   [exec_rules] = one record through all rules, [run] = p.execute of one block,
   [next_line] = nextLine, [do_getline] = the Getline* opcodes. *)
From Verif Require Import Lib.Base Model.Input Proofs.Input Proofs.InputHist Proofs.InputCtl
  Proofs.InputMain Proofs.InputScript Proofs.InputRange Proofs.InputHistory.

(* ------------------------------------------------------------------------------------------ *)
(* main_input_order + assign_operands_timing.
   For every program that leaves ARGV, ARGC and the file "-" alone (invariant [G] of its own state
   under which all its requests are [neutral]), at the end of every run -- normal end, exit, or
   run-time error -- the main-input events of the history (file opened, record delivered or
   abandoned by nextfile, assignment operand processed, unopenable operand), in order, followed by
   what the final state would still deliver, are exactly the stream [plan_ops] determined by the
   operand list: operands left to right, each var=value processed at the moment it is reached,
   empty operands skipped, stdin iff no file operand was seen. *)
Theorem C11_main_input_order :
  forall (U : Type) (step : U -> st -> req * U) (enter : blk -> U -> U) (e : env) (G : U -> Prop)
         (fuel : nat) (rules : list rule) (has_end : bool) (u : U) (a0 : bytes) (args : list bytes)
         (sin : list record) (u' : U) (s' : st),
    (forall u s, G u -> neutral (fst (step u s)) /\ G (snd (step u s))) ->
    (forall b u, G u -> G (enter b u)) -> G u ->
    exec_all U step enter e fuel rules has_end u (init_st a0 args sin) = FOk u' s' \/
    exec_all U step enter e fuel rules has_end u (init_st a0 args sin) = FErr u' s' ->
    pev_of (hist s') ++ plan e s' = plan_ops e args false sin.
Proof. exact main_input_order. Qed.
Print Assumptions C11_main_input_order.

(* If the main loop runs to the end of the input, the events it produced are exactly the plan of the
   state it started in, and (no nextfile) the (FILENAME, record) pairs delivered to the loop and to
   plain getline / getline var are exactly the records of that plan, in order. *)
Theorem C11_main_loop_complete :
  forall (U : Type) (step : U -> st -> req * U) (enter : blk -> U -> U) (e : env) (G : U -> Prop)
         fuel n rules flags u s u' s' fl',
    (forall u s, G u -> neutral (fst (step u s)) /\ G (snd (step u s))) ->
    (forall b u, G u -> G (enter b u)) -> G u ->
    main_loop U step enter e fuel n rules flags u s = LCont u' s' fl' ->
    exists new, log s' = new ++ log s /\ pev_of (rev new) = plan e s /\
                (no_skip new -> delivered (rev new) = recs_of (plan e s)).
Proof. exact main_loop_complete. Qed.
Print Assumptions C11_main_loop_complete.

(* the specification stream, equation by equation *)
Theorem C11_plan_no_operands : forall e sin,
  plan_ops e [] false sin = PFile b_dash :: map (PRec b_dash) sin /\ plan_ops e [] true sin = [].
Proof. exact plan_ops_end. Qed.
Theorem C11_plan_empty_operand : forall e ops hd sin, plan_ops e ([] :: ops) hd sin = plan_ops e ops hd sin.
Proof. exact plan_ops_empty. Qed.
Theorem C11_plan_assignment : forall e name ops hd sin v raw val,
  noargvars e = false -> parse_assign name = Some (v, raw) -> operand_value raw = Some val -> assign_ok v val = true ->
  plan_ops e (name :: ops) hd sin = PAssign v val :: plan_ops e ops hd sin.
Proof. exact plan_ops_assign. Qed.
Theorem C11_plan_dash : forall e ops hd sin,
  plan_ops e (b_dash :: ops) hd sin = PFile b_dash :: map (PRec b_dash) sin ++ plan_ops e ops true [].
Proof. exact plan_ops_dash. Qed.
Theorem C11_plan_file : forall e name ops hd sin recs,
  (if noargvars e then None else parse_assign name) = None -> name <> [] -> bytes_eqb name b_dash = false ->
  blookup (fs e) name = Some recs ->
  plan_ops e (name :: ops) hd sin = PFile name :: map (PRec name) recs ++ plan_ops e ops true sin.
Proof. exact plan_ops_file. Qed.
Theorem C11_plan_unopenable : forall e name ops hd sin,
  (if noargvars e then None else parse_assign name) = None -> name <> [] -> bytes_eqb name b_dash = false ->
  blookup (fs e) name = None ->
  plan_ops e (name :: ops) hd sin = PBad name :: plan_ops e ops hd sin.
Proof. exact plan_ops_nofile. Qed.
(* stdin iff no file operand: only empty operands and assignments => the assignments, then standard input *)
Theorem C11_stdin_iff_no_file_operand : forall e ops sin,
  Forall (skipped_operand e) ops ->
  exists assigns, Forall is_assign assigns /\
    plan_ops e ops false sin = assigns ++ PFile b_dash :: map (PRec b_dash) sin.
Proof. exact plan_ops_no_file_operand. Qed.
Print Assumptions C11_plan_file.
Print Assumptions C11_stdin_iff_no_file_operand.

(* every single call of nextLine moves a prefix of the plan into the history, never needs more
   fuel than argc - idx, and leaves ARGV and ARGC alone *)
Theorem C11_next_line_step : forall e s res s',
  next_line e s = (res, s') -> res <> NLUnmod ->
  res <> NLFuel /\
  exists new, log s' = new ++ log s /\ argv s' = argv s /\ argc s' = argc s /\
    pev_of (rev new) ++ plan e s' = plan e s.
Proof. exact next_line_plan. Qed.
Print Assumptions C11_next_line_step.

(* every request other than ARGV/ARGC edits and getline <"-" keeps history ++ plan constant *)
Theorem C11_request_step : forall e r s s', neutral r -> prim e r s = Some s' -> advances e s s'.
Proof. exact prim_advances. Qed.
Print Assumptions C11_request_step.

(* the same for the extracted script machine that the correspondence check runs *)
Theorem C11_script_main_input_order : forall e p fuel args sin k' s',
  clean_prog p = true ->
  script_exec e p fuel args sin = FOk k' s' \/ script_exec e p fuel args sin = FErr k' s' ->
  pev_of (hist s') ++ plan e s' = plan_ops e args false sin.
Proof. exact script_main_input_order. Qed.
Print Assumptions C11_script_main_input_order.

(* ------------------------------------------------------------------------------------------ *)
(* counters.  For EVERY program (no restriction), at the end of every run NR, FNR, FILENAME, the exit
   status and the variables are the fold of the history: NR +1 per record delivered (main loop,
   getline, getline var) and nothing else except explicit assignments (NR=... operand, NR = ...);
   FNR likewise and 0 at each file switch; FILENAME = the last file switched to; status = the last
   exit value; variables = operand assignments, program assignments and getline var in order. *)
Theorem C11_counters :
  forall (U : Type) (step : U -> st -> req * U) (enter : blk -> U -> U) (e : env)
         fuel rules has_end u a0 args sin u' s',
    exec_all U step enter e fuel rules has_end u (init_st a0 args sin) = FOk u' s' \/
    exec_all U step enter e fuel rules has_end u (init_st a0 args sin) = FErr u' s' ->
    obs_of s' = fold_left (obs_ev e) (hist s') (0, 0, [], 0, []).
Proof. exact counters_of_history. Qed.
Print Assumptions C11_counters.

(* one request, one call of nextLine: the observables move by exactly the new events *)
Theorem C11_counters_step : forall e r s s', prim e r s = Some s' -> tracks e s s'.
Proof. exact prim_tracks. Qed.
Theorem C11_counters_next_line : forall e s res s', next_line e s = (res, s') -> tracks e s s'.
Proof. exact next_line_tracks. Qed.

(* NR = NR0 + number of main-input records taken, over any stretch of any program that does not assign NR *)
Theorem C11_nr_counts_records :
  forall (U : Type) (step : U -> st -> req * U) (e : env) fuel u s o u' s',
    run U step e fuel u s = ROk o u' s' ->
    exists new, log s' = new ++ log s /\
      (forallb (fun v => negb (writes_nr v)) new = true -> NR s' = NR s + count_recs new).
Proof. exact nr_counts_records. Qed.
Print Assumptions C11_nr_counts_records.

(* FNR = number of records since the last file switch *)
Theorem C11_fnr_since_file_switch : forall l1 name l2 x,
  forallb (fun v => negb (writes_fnr v)) l2 = true ->
  fold_left fnr_ev (l1 ++ EvSetFile name :: l2) x = count_recs l2.
Proof. exact fnr_since_file_switch. Qed.

(* the exit status is the last exit value *)
Theorem C11_exit_status_last : forall l x n l',
  forallb (fun v => match v with EvExit _ => false | _ => true end) l' = true ->
  fold_left status_ev (l ++ EvExit n :: l') x = n.
Proof. exact status_fold_last. Qed.
Print Assumptions C11_exit_status_last.

(* ------------------------------------------------------------------------------------------ *)
(* the write sets of the getline forms *)

(* getline <file (any target): NR, FNR, FILENAME and the operand cursor are untouched *)
Theorem C11_getline_file_frame : forall e f tg s s',
  do_getline e (SFile f) tg s = Some s' ->
  NR s' = NR s /\ FNR s' = FNR s /\ FILENAME s' = FILENAME s /\ idx s' = idx s /\ cur s' = cur s /\
  argv s' = argv s /\ argc s' = argc s /\ had s' = had s.
Proof. exact getline_file_frame. Qed.
(* cmd | getline (any target): the same, and stdin is untouched *)
Theorem C11_getline_cmd_frame : forall e c tg s s',
  do_getline e (SCmd c) tg s = Some s' ->
  NR s' = NR s /\ FNR s' = FNR s /\ FILENAME s' = FILENAME s /\ idx s' = idx s /\ cur s' = cur s /\
  argv s' = argv s /\ argc s' = argc s /\ had s' = had s /\ stdin s' = stdin s.
Proof. exact getline_cmd_frame. Qed.
(* getline var (any source): $0 and the fields, hence NF, are untouched *)
Theorem C11_getline_var_frame : forall e sr v s s',
  do_getline e sr (TVar v) s = Some s' -> line s' = line s /\ fields s' = fields s.
Proof. exact getline_var_frame. Qed.
(* the same with the input mode spelled out: in default, CSV and TSV mode alike ([m] = None, Some 44,
   Some 9: the fields of a record are whatever the mode's splitter gives, [split_mode]) a getline into
   a variable -- unredirected, from a file, from a command -- changes neither $0 nor any field nor NF *)
Theorem C11_getline_var_frame_every_mode : forall (m : option Z) fs cmds globals nav sr v s s',
  do_getline (mkEnv fs cmds globals nav m) sr (TVar v) s = Some s' -> line s' = line s /\ fields s' = fields s.
Proof. exact (fun m fs cmds globals nav => getline_var_frame (mkEnv fs cmds globals nav m)). Qed.
(* ... and var receives the record read *)
Theorem C11_getline_var_value : forall e sr v s s',
  do_getline e sr (TVar v) s = Some s' -> ret s' = 1 ->
  exists l s1, rd_read e sr s = Some (1, l, s1) /\ blookup (vars s') v = Some l.
Proof. exact getline_var_value. Qed.
(* plain getline with a record available: $0, NF, NR, FNR *)
Theorem C11_getline_main_line : forall e s name r rest,
  cur s = Some (name, r :: rest) ->
  exists s', do_getline e SMain TLine s = Some s' /\ ret s' = 1 /\
    NR s' = NR s + 1 /\ FNR s' = FNR s + 1 /\ FILENAME s' = FILENAME s /\
    line s' = r /\ fields s' = split_mode e r /\ vars s' = vars s /\ cur s' = Some (name, rest).
Proof. exact getline_main_line. Qed.
(* getline var with a record available: var, NR, FNR -- not $0, not NF *)
Theorem C11_getline_main_var : forall e s name r rest v,
  cur s = Some (name, r :: rest) ->
  exists s', do_getline e SMain (TVar v) s = Some s' /\ ret s' = 1 /\
    NR s' = NR s + 1 /\ FNR s' = FNR s + 1 /\ FILENAME s' = FILENAME s /\
    line s' = line s /\ fields s' = fields s /\ vars s' = bupdate (vars s) v r /\ cur s' = Some (name, rest).
Proof. exact getline_main_var. Qed.
(* nextLine itself never touches $0, the fields, the getline streams, the output, the status *)
Theorem C11_next_line_frame : forall e s res s',
  next_line e s = (res, s') ->
  line s' = line s /\ fields s' = fields s /\ out s' = out s /\ rd s' = rd s /\ rdstdin s' = rdstdin s /\
  ret s' = ret s /\ status s' = status s.
Proof. exact next_line_frame. Qed.
Print Assumptions C11_getline_file_frame.
Print Assumptions C11_getline_var_frame.
Print Assumptions C11_next_line_frame.

(* ------------------------------------------------------------------------------------------ *)
(* range_spec: with side-effect-free patterns p1 p2 and the flag initially off, record i is selected
   iff some record j <= i matches p1 and no record in [j, i) matches p2 -- i.e. the selected records
   are the maximal segments from a p1-record through the next p2-record inclusive, possibly the same record *)
Theorem C11_range_spec : forall (p1 p2 : record -> bool) (recs : list record) (f : bool) (i : nat),
  nth i (range_select p1 p2 f recs) false = true <->
  (i < length recs)%nat /\
  ((f = true /\ forall k, (k < i)%nat -> p2 (nth k recs []) = false) \/
   exists j, (j <= i)%nat /\ p1 (nth j recs []) = true /\
             forall k, (j <= k < i)%nat -> p2 (nth k recs []) = false).
Proof. exact range_select_spec. Qed.
Print Assumptions C11_range_spec.

(* the range case of execActions is range_step: per-rule flag in, (matched, flag) out *)
Theorem C11_range_rule :
  forall (U : Type) (step : U -> st -> req * U) (enter : blk -> U -> U) (e : env) fuel r i f u s p1 p2,
    rk r = PRange -> pure_pat U step enter e fuel (BPat i false) p1 -> pure_pat U step enter e fuel (BPat i true) p2 ->
    exists u', eval_pat U step enter e fuel r i f u s =
               PVal (fst (range_step (p1 (line s)) (p2 (line s)) f)) (snd (range_step (p1 (line s)) (p2 (line s)) f)) u' s.
Proof. exact eval_pat_range. Qed.
Print Assumptions C11_range_rule.

(* end to end: the program  "p1, p2"  (one range rule, no action) with side-effect-free patterns: if the
   main loop reaches the end of input, it has printed exactly the records selected by range_select
   (C11_range_spec: the segments) among the records [recs] nextLine handed out, in order *)
Theorem C11_range_program_prints :
  forall (U : Type) (step : U -> st -> req * U) (enter : blk -> U -> U) (e : env) (fuel : nat) (p1 p2 : record -> bool),
    pure_pat U step enter e fuel (BPat 0 false) p1 -> pure_pat U step enter e fuel (BPat 0 true) p2 ->
    forall n f u s u' s' fl',
      main_loop U step enter e fuel n [mkRule PRange false] [f] u s = LCont u' s' fl' ->
      exists recs, delivers s s' recs /\
        out s' = rev (map OPrint (select (range_select p1 p2 f recs) recs)) ++ out s.
Proof. exact range_program_prints. Qed.
Print Assumptions C11_range_program_prints.

(* ------------------------------------------------------------------------------------------ *)
(* next / nextfile / exit *)

(* next_unwinds: the body of a matching rule ends with "next" (executed at any depth inside U:
   function, loop): the remaining rules are not run, nothing else changes, the loop continues *)
Theorem C11_next_unwinds :
  forall (U : Type) (step : U -> st -> req * U) (enter : blk -> U -> U) (e : env)
         fuel r rules i done f fl u s f' u1 s1 u2 s2,
    eval_pat U step enter e fuel r i f u s = PVal true f' u1 s1 -> has_body r = true ->
    run U step e fuel (enter (BBody i) u1) s1 = ROk ONext u2 s2 ->
    exec_rules U step enter e fuel (r :: rules) i done (f :: fl) u s = LCont u2 s2 (rev (f' :: done) ++ fl).
Proof. exact exec_rules_next. Qed.
(* nextfile_unwinds: the same, and the rest of the current file is dropped ... *)
Theorem C11_nextfile_unwinds :
  forall (U : Type) (step : U -> st -> req * U) (enter : blk -> U -> U) (e : env)
         fuel r rules i done f fl u s f' u1 s1 u2 s2,
    eval_pat U step enter e fuel r i f u s = PVal true f' u1 s1 -> has_body r = true ->
    run U step e fuel (enter (BBody i) u1) s1 = ROk ONextfile u2 s2 ->
    exec_rules U step enter e fuel (r :: rules) i done (f :: fl) u s = LCont u2 (drop_file s2) (rev (f' :: done) ++ fl).
Proof. exact exec_rules_nextfile. Qed.
(* ... so that the next record comes from the next operand *)
Theorem C11_nextfile_plan : forall e s, plan e (drop_file s) = planF e (argv s) (argc s) (idx s) (had s) (stdin s).
Proof. exact drop_file_plan. Qed.
Print Assumptions C11_next_unwinds.
Print Assumptions C11_nextfile_unwinds.

(* next anywhere in a main rule: also when it is executed inside a function called from the PATTERN
   expression the record is abandoned and the loop continues (the former full statement; finding
   F-C11-1 is repaired: execActions routes errNext/errNextfile from the pattern sites like from a body) *)
Theorem C11_next_anywhere :
  forall (U : Type) (step : U -> st -> req * U) (enter : blk -> U -> U) (e : env)
         fuel r rules i done f fl u s u1 s1,
    rk r = PExpr ->
    run U step e fuel (enter (BPat i false) u) s = ROk ONext u1 s1 ->
    exec_rules U step enter e fuel (r :: rules) i done (f :: fl) u s = LCont u1 s1 (rev (f :: done) ++ fl).
Proof. exact exec_rules_pat_next. Qed.
Theorem C11_nextfile_anywhere :
  forall (U : Type) (step : U -> st -> req * U) (enter : blk -> U -> U) (e : env)
         fuel r rules i done f fl u s u1 s1,
    rk r = PExpr ->
    run U step e fuel (enter (BPat i false) u) s = ROk ONextfile u1 s1 ->
    exec_rules U step enter e fuel (r :: rules) i done (f :: fl) u s = LCont u1 (drop_file s1) (rev (f :: done) ++ fl).
Proof. exact exec_rules_pat_nextfile. Qed.
(* from the start pattern of a closed range the flag stays off, from the stop pattern of an open range it stays on *)
Theorem C11_next_from_range_start :
  forall (U : Type) (step : U -> st -> req * U) (enter : blk -> U -> U) (e : env)
         fuel r rules i done fl u s u1 s1,
    rk r = PRange ->
    run U step e fuel (enter (BPat i false) u) s = ROk ONext u1 s1 ->
    exec_rules U step enter e fuel (r :: rules) i done (false :: fl) u s = LCont u1 s1 (rev (false :: done) ++ fl).
Proof. exact exec_rules_range_start_next. Qed.
Theorem C11_next_from_range_stop :
  forall (U : Type) (step : U -> st -> req * U) (enter : blk -> U -> U) (e : env)
         fuel r rules i done fl u s u1 s1,
    rk r = PRange ->
    run U step e fuel (enter (BPat i true) u) s = ROk ONext u1 s1 ->
    exec_rules U step enter e fuel (r :: rules) i done (true :: fl) u s = LCont u1 s1 (rev (true :: done) ++ fl).
Proof. exact exec_rules_range_stop_next. Qed.
(* nextfile at the two range sites (first pattern of a closed range, second pattern of an open range):
   the record is abandoned AND the rest of the current file is dropped ([drop_file], so that by
   C11_nextfile_plan the next record comes from the next operand); the flag keeps its value *)
Theorem C11_nextfile_from_range_start :
  forall (U : Type) (step : U -> st -> req * U) (enter : blk -> U -> U) (e : env)
         fuel r rules i done fl u s u1 s1,
    rk r = PRange ->
    run U step e fuel (enter (BPat i false) u) s = ROk ONextfile u1 s1 ->
    exec_rules U step enter e fuel (r :: rules) i done (false :: fl) u s = LCont u1 (drop_file s1) (rev (false :: done) ++ fl).
Proof. exact exec_rules_range_start_nextfile. Qed.
Theorem C11_nextfile_from_range_stop :
  forall (U : Type) (step : U -> st -> req * U) (enter : blk -> U -> U) (e : env)
         fuel r rules i done fl u s u1 s1,
    rk r = PRange ->
    run U step e fuel (enter (BPat i true) u) s = ROk ONextfile u1 s1 ->
    exec_rules U step enter e fuel (r :: rules) i done (true :: fl) u s = LCont u1 (drop_file s1) (rev (true :: done) ++ fl).
Proof. exact exec_rules_range_stop_nextfile. Qed.
Print Assumptions C11_nextfile_from_range_stop.
(* the OPENING record: the first pattern of a closed range matches and next / nextfile is executed in a
   function called from the second pattern on that same record: the range flag is SET afterwards -- the
   following records are in the range although none of them matched the first pattern *)
Theorem C11_next_from_range_stop_on_opening_record :
  forall (U : Type) (step : U -> st -> req * U) (enter : blk -> U -> U) (e : env)
         fuel r rules i done fl u s u1 s1 u2 s2,
    rk r = PRange ->
    run U step e fuel (enter (BPat i false) u) s = ROk (OVal true) u1 s1 ->
    run U step e fuel (enter (BPat i true) u1) s1 = ROk ONext u2 s2 ->
    exec_rules U step enter e fuel (r :: rules) i done (false :: fl) u s = LCont u2 s2 (rev (true :: done) ++ fl).
Proof. exact exec_rules_opening_record_next. Qed.
Theorem C11_nextfile_from_range_stop_on_opening_record :
  forall (U : Type) (step : U -> st -> req * U) (enter : blk -> U -> U) (e : env)
         fuel r rules i done fl u s u1 s1 u2 s2,
    rk r = PRange ->
    run U step e fuel (enter (BPat i false) u) s = ROk (OVal true) u1 s1 ->
    run U step e fuel (enter (BPat i true) u1) s1 = ROk ONextfile u2 s2 ->
    exec_rules U step enter e fuel (r :: rules) i done (false :: fl) u s = LCont u2 (drop_file s2) (rev (true :: done) ++ fl).
Proof. exact exec_rules_opening_record_nextfile. Qed.
Print Assumptions C11_next_from_range_stop_on_opening_record.
Print Assumptions C11_nextfile_from_range_stop_on_opening_record.

Print Assumptions C11_next_anywhere.
Print Assumptions C11_nextfile_anywhere.

(* the former witness  function f() { next }  f() { }  END { T(9) }  over file "f" = [a; b]:
   both records are read and abandoned, END runs, no error *)
Definition wit_next_prog : sprog :=
  mkProg [] [mkSRule (SPExpr (mkPat [SNext] CTrue)) (Some [])] [STrace 9 []] [].
Definition wit_env : env := mkEnv [([102], [[97]; [98]])] [] [] false None.
Example C11_ex_next_in_pattern :
  match script_exec wit_env wit_next_prog 50 [[102]] [] with
  | FOk _ s => NR s = 2 /\ out s = [OTrace 9 2 2 [102] [98] 1 0 [] [[98]]]
  | _ => False
  end.
Proof. vm_compute. split; reflexivity. Qed.

(* exit_semantics *)
(* exit in BEGIN: the main loop is not entered; END (if any) runs once, from the state BEGIN left *)
Theorem C11_exit_in_begin :
  forall (U : Type) (step : U -> st -> req * U) (enter : blk -> U -> U) (e : env) fuel rules has_end u s n u1 s1,
    run U step e fuel (enter BBegin u) s = ROk (OExit n) u1 s1 ->
    exec_all U step enter e fuel rules has_end u s =
    if negb has_end then FOk u1 s1
    else match run U step e fuel (enter BEnd u1) s1 with
         | RFuel => FFuel | RUnmod => FUnmod
         | ROk o3 u3 s3 => if is_exit o3 || is_val o3 then FOk u3 s3 else FErr u3 s3
         end.
Proof. exact exec_all_begin_exit. Qed.
(* exit in a main rule (or pattern): the rest of the input is skipped, END runs once from that state *)
Theorem C11_exit_in_main :
  forall (U : Type) (step : U -> st -> req * U) (enter : blk -> U -> U) (e : env) fuel rules has_end u s b u1 s1 n u2 s2,
    run U step e fuel (enter BBegin u) s = ROk (OVal b) u1 s1 ->
    main_loop U step enter e fuel fuel rules (map (fun _ => false) rules) u1 s1 = LStop (OExit n) u2 s2 ->
    rules <> [] ->
    exec_all U step enter e fuel rules has_end u s =
    if negb has_end then FOk u2 s2
    else match run U step e fuel (enter BEnd u2) s2 with
         | RFuel => FFuel | RUnmod => FUnmod
         | ROk o3 u3 s3 => if is_exit o3 || is_val o3 then FOk u3 s3 else FErr u3 s3
         end.
Proof. exact exec_all_main_exit. Qed.
Theorem C11_exit_in_rule_body :
  forall (U : Type) (step : U -> st -> req * U) (enter : blk -> U -> U) (e : env)
         fuel r rules i done f fl u s f' u1 s1 u2 s2 n,
    eval_pat U step enter e fuel r i f u s = PVal true f' u1 s1 -> has_body r = true ->
    run U step e fuel (enter (BBody i) u1) s1 = ROk (OExit n) u2 s2 ->
    exec_rules U step enter e fuel (r :: rules) i done (f :: fl) u s = LStop (OExit n) u2 s2.
Proof. exact exec_rules_exit. Qed.
(* exit stops the block it is in at once (in END: nothing more of END runs, and executeAll returns) *)
Theorem C11_exit_stops_block :
  forall (U : Type) (step : U -> st -> req * U) (e : env) fuel u s n u',
    step u s = (RDone (OExit n), u') ->
    exists s', run U step e (S fuel) u s = ROk (OExit n) u' s' /\
               status s' = match n with Some k => k | None => status s end /\ out s' = out s /\ NR s' = NR s.
Proof. exact run_exit_stops. Qed.
(* the input is exhausted: END runs once, from the state in which nextLine reported the end ... *)
Theorem C11_end_after_eof :
  forall (U : Type) (step : U -> st -> req * U) (enter : blk -> U -> U) (e : env) fuel rules has_end u s b u1 s1 u2 s2 fl,
    run U step e fuel (enter BBegin u) s = ROk (OVal b) u1 s1 ->
    main_loop U step enter e fuel fuel rules (map (fun _ => false) rules) u1 s1 = LCont u2 s2 fl ->
    (rules <> [] \/ has_end = true) ->
    exec_all U step enter e fuel rules has_end u s =
    if negb has_end then FOk u2 s2
    else match run U step e fuel (enter BEnd u2) s2 with
         | RFuel => FFuel | RUnmod => FUnmod
         | ROk o3 u3 s3 => if is_exit o3 || is_val o3 then FOk u3 s3 else FErr u3 s3
         end.
Proof. exact exec_all_main_eof. Qed.
(* ... end_sees_last_record: and in that state $0 and the fields are those left by the processing of
   the last record (s0 = state after the last iteration, or the initial one if there was no record) *)
Theorem C11_end_sees_last_record :
  forall (U : Type) (step : U -> st -> req * U) (enter : blk -> U -> U) (e : env) fuel rules n flags u s u' s' fl',
    main_loop U step enter e fuel n rules flags u s = LCont u' s' fl' ->
    exists s0, loop_reaches U step enter e fuel rules (u, s, flags) (u', s0, fl') /\
               next_line e s0 = (NLEof, s') /\ line s' = line s0 /\ fields s' = fields s0.
Proof. exact main_loop_end_record. Qed.
Print Assumptions C11_exit_in_begin.
Print Assumptions C11_exit_in_main.
Print Assumptions C11_end_sees_last_record.

(* ------------------------------------------------------------------------------------------ *)
(* assignment operands: name=value *)

(* an operand name=value with a well-formed name assigns exactly value, whatever bytes it contains
   (the former full statement; finding F-C11-2 is repaired: varRegex carries the s flag) *)
Theorem C11_assign_value : forall c rest v,
  is_alpha_ c = true -> forallb name_char rest = true ->
  parse_assign (c :: rest ++ 61 :: v) = Some (c :: rest, v).
Proof. exact parse_assign_spec. Qed.
Print Assumptions C11_assign_value.

(* the former witness: the operand "g=a\nb" now yields the value "a\nb" *)
Example C11_ex_assign_newline : parse_assign [103; 61; 97; 10; 98] = Some ([103], [97; 10; 98]).
Proof. vm_compute. reflexivity. Qed.

(* ------------------------------------------------------------------------------------------ *)
(* operation histories: several Execute calls on one Interpreter ([exec_history]: resetCore +
   setExecuteConfig + executeAll per run; [reset] = ResetVars between the runs).
   Every run is executeAll from the INITIAL input state [init_st] (operand cursor 1, no file seen,
   NR = FNR = 0, no open stream, status 0) and, inside exec_all, from all-false range flags: nothing of
   the input bookkeeping of run k-1 is visible in run k; only the program's own state U may be carried. *)
Theorem C11_history_runs_start_fresh :
  forall (U : Type) (step : U -> st -> req * U) (enter : blk -> U -> U) (a0 : bytes)
         reset fuel rules has_end u0 runs u,
    Forall2 (fun (r : run_in) (x : fin U) =>
               let '(e, args, sin) := r in
               exists uk, x = exec_all U step enter e fuel rules has_end uk (init_st a0 args sin))
            runs (exec_history U step enter a0 reset fuel rules has_end u0 u runs).
Proof. exact exec_history_fresh_input. Qed.
(* with ResetVars each run IS the fresh run *)
Theorem C11_history_reset_is_fresh :
  forall (U : Type) (step : U -> st -> req * U) (enter : blk -> U -> U) (a0 : bytes) fuel rules has_end u0 runs,
    exec_history U step enter a0 true fuel rules has_end u0 u0 runs =
    map (fun r : run_in => let '(e, args, sin) := r in
           exec_all U step enter e fuel rules has_end u0 (init_st a0 args sin)) runs.
Proof. exact exec_history_reset. Qed.
(* the history function the correspondence check evaluates ([script_history], extracted): with or
   without ResetVars it is the list of the fresh runs, and run k depends on the inputs of run k only *)
Theorem C11_script_history_is_fresh : forall p fuel reset runs u,
  exec_history (list stmt) (sstep p) (senter p) [103;111;97;119;107] reset fuel (map rule_of (sp_rules p))
               (match sp_end p with [] => false | _ => true end) [] u runs
  = script_history p fuel runs.
Proof. exact script_history_is_fresh. Qed.
Theorem C11_script_history_run_independent : forall p fuel runs k e args sin,
  nth_error runs k = Some (e, args, sin) ->
  nth_error (script_history p fuel runs) k = Some (script_exec e p fuel args sin).
Proof. exact script_history_nth. Qed.
Print Assumptions C11_history_runs_start_fresh.
Print Assumptions C11_script_history_is_fresh.
Print Assumptions C11_script_history_run_independent.

(* the seeded-defect shape: /S/,/E/ { T(1) }  run on f1 = [a; b S] (range open at the end of the run),
   then on f2 = [c]: the second run selects nothing *)
Definition ex_hist_env : env :=
  mkEnv [([102; 49], [[97]; [98; 32; 83]]); ([102; 50], [[99]])] [] [] false None.
Definition ex_hist_prog : sprog :=
  mkProg [] [mkSRule (SPRange (mkPat [] (CHas 83)) (mkPat [] (CHas 69))) (Some [STrace 1 []])] [] [].
Example C11_ex_history :
  map (fun x => match x with FOk _ s => Some (length (out s)) | _ => None end)
      (script_history ex_hist_prog 100 [(ex_hist_env, [[102; 49]], []); (ex_hist_env, [[102; 50]], [])])
  = [Some 1%nat; Some 0%nat].
Proof. vm_compute. reflexivity. Qed.

(* ------------------------------------------------------------------------------------------ *)
(* non-vacuity: the hypotheses are met by concrete programs, and the conclusions compute *)

Definition ex_env : env :=
  mkEnv [([102; 49], [[97]; [98; 32; 83]]); ([102; 50], [[99]])] [] [[103; 48]] false None.
(* BEGIN { }  { T(1) ; getline g0 }  END { T(9) }   over operands  f1 g0=1 "" f2 *)
Definition ex_prog : sprog :=
  mkProg [] [mkSRule SPNone (Some [STrace 1 [[103; 48]]; SGetline SMain (TVar [103; 48])])] [STrace 9 []] [].
Definition ex_args : list bytes := [[102; 49]; [103; 48; 61; 49]; []; [102; 50]].

Example C11_ex_clean : clean_prog ex_prog = true.
Proof. vm_compute. reflexivity. Qed.

(* the run ends normally; the whole plan was consumed; the history's events are the plan of the operands;
   NR = 3 records, FNR = 1, FILENAME = f2, g0 = "1" (getline g0 stored "b S", then the operand g0=1 was
   applied when f1 was exhausted, then the last getline g0 hit the end of input and stored nothing) *)
Example C11_ex_run :
  match script_exec ex_env ex_prog 100 ex_args [] with
  | FOk _ s => pev_of (hist s) = plan_ops ex_env ex_args false [] /\ plan ex_env s = [] /\
               NR s = 3 /\ FNR s = 1 /\ FILENAME s = [102; 50] /\ blookup (vars s) [103; 48] = Some [49] /\
               plan_ops ex_env ex_args false [] =
                 [PFile [102; 49]; PRec [102; 49] [97]; PRec [102; 49] [98; 32; 83]; PAssign [103; 48] [49];
                  PFile [102; 50]; PRec [102; 50] [99]]
  | _ => False
  end.
Proof. vm_compute. repeat split; reflexivity. Qed.

(* range: S..E segments; records: p, S, p, E, p, SE, p   (S = 83, E = 69) *)
Example C11_ex_range :
  range_select (fun r => mem_byte 83 r) (fun r => mem_byte 69 r) false
    [[112]; [83]; [112]; [69]; [112]; [83; 69]; [112]]
  = [false; true; true; true; false; true; false].
Proof. vm_compute. reflexivity. Qed.

(* the program  /S/,/E/  as a script: runs to the end and prints the segments of file f1 = [a; b S] *)
Definition ex_range_prog : sprog :=
  mkProg [] [mkSRule (SPRange (mkPat [] (CHas 83)) (mkPat [] (CHas 69))) None] [] [].
Example C11_ex_range_run :
  match script_exec ex_env ex_range_prog 100 [[102; 49]] [] with
  | FOk _ s => out s = [OPrint [98; 32; 83]]
  | _ => False
  end.
Proof. vm_compute. reflexivity. Qed.
(* its patterns are pure in the sense of C11_range_program_prints *)
Example C11_ex_pure_pat :
  pure_pat (list stmt) (sstep ex_range_prog) (senter ex_range_prog) ex_env 5 (BPat 0 false) (fun r => mem_byte 83 r).
Proof. intros u s. exists []. reflexivity. Qed.

(* CSV mode (separator 44): { getline g0; T(1) } over f1 = ["a,b,c"; "d"]: after the getline into g0
   the current record still has its three fields (the seeded-defect shape of round 3) *)
Definition ex_csv_env : env := mkEnv [([102; 49], [[97; 44; 98; 44; 99]; [100]])] [] [[103; 48]] false (Some 44).
Definition ex_csv_prog : sprog :=
  mkProg [] [mkSRule SPNone (Some [SGetline SMain (TVar [103; 48]); STrace 1 [[103; 48]]])] [] [].
Example C11_ex_csv_getline_var :
  match script_exec ex_csv_env ex_csv_prog 100 [[102; 49]] [] with
  | FOk _ s => out s = [OTrace 1 2 2 [102; 49] [97; 44; 98; 44; 99] 3 1 [[100]] [[97]; [98]; [99]]]
  | _ => False
  end.
Proof. vm_compute. reflexivity. Qed.

(* assignment operand parsing: "g0=x y" *)
Example C11_ex_assign : parse_assign [103; 48; 61; 120; 32; 121] = Some ([103; 48], [120; 32; 121]).
Proof. vm_compute. reflexivity. Qed.

(* a neutral machine exists for every U-invariant: the script machine with G = clean_block *)
Example C11_ex_neutral : forall k s, clean_block k = true ->
  neutral (fst (sstep ex_prog k s)) /\ clean_block (snd (sstep ex_prog k s)) = true.
Proof. exact (sstep_clean ex_prog C11_ex_clean). Qed.
