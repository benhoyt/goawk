(* C20 — The printed form of a program is a faithful AWK program.
   Statements closed by [exact] of a lemma proved in Proofs/ or in a few lines from such lemmas,
   non-vacuity examples, refuted full statements with their witnesses, and Print Assumptions.

   Vocabulary.  Model/Printer.v: [pe e] = the pieces (tokens and spaces) Expr.String() writes,
   [pst]/[pprogram] the same for statements and programs, [render] their text, [toks] their tokens;
   [quote] = ast.formatString, [format_regex] = formatRegex, [fmt_num] = NumExpr.String();
   [scan1]/[scan_body]/[scan_regex]/[parse_string] = lexer.scan/scanRegex/parseString;
   [lex_as ts text] = the text lexes to ts under the parser's protocol (ScanRegex where ts has REGEX).
   Proofs/PrinterGroup.v: [gp e] = e with a grouping node wherever parenthesize() writes parentheses.
   C04 (Proofs/PrecSpec.v): [flat] verbatim token writing, [fits pc k e] = the writing of e respects
   the table at a position of rank k (pc: inside the print tower) — the trees the parser builds and
   reads back unchanged (C04_parse_printed); [p_lv], [p_simple_stmt] = the parser model.
   Proofs/PrinterLex.v: [safe str_ok an sp ps] = every token of ps is lexable and is not followed by
   a byte that fuses with it; Proofs/PrinterQuote.v: [quote_safe s]; PrinterRegex.v: [regex_ok s]. *)
From Verif Require Import Lib.Base Lib.Dyadic Gen.Prec Model.ExprAst Model.ExprParser Model.Printer
  Proofs.ExprParserMono Proofs.ExprParserRel Proofs.PrecSpec Proofs.ExprParserPrinted
  Proofs.PrinterGroup Proofs.PrinterFits Proofs.PrinterFitsb Proofs.PrinterRegex Proofs.PrinterLex Proofs.PrinterQuote Proofs.PrinterStmt.

(* ---------------- token level: all trees ---------------- *)

(* the tokens Expr.String() writes are the verbatim writing of gp e, for every tree *)
Theorem C20_printed_tokens : forall e, toks (pe e) = flat (gp e).
Proof. exact toks_pe. Qed.
Print Assumptions C20_printed_tokens.

(* parenthesize only adds grouping nodes *)
Theorem C20_grouping_only : forall e, strip (gp e) = strip e.
Proof. exact strip_gp. Qed.
Print Assumptions C20_grouping_only.

(* the printer's parentheses never take a writing out of the table *)
Theorem C20_printer_fits : forall e pc k, fits pc k e -> fits pc k (gp e).
Proof. exact fits_gp. Qed.
Print Assumptions C20_printer_fits.

(* the hypothesis [fits] is decided by [fitsb]; the harness evaluates fitsb on every expression of
   every tree the real parser builds (image of the parser = trees that fit, on the fragment C04 covers) *)
Theorem C20_fits_decided : forall e pc k, fitsb pc k e = true -> fits pc k e.
Proof. exact fitsb_sound. Qed.
Print Assumptions C20_fits_decided.

(* MAIN (tokens): for every tree the parser can have built (fits), at any level k of either tower,
   the tokens of the printed text are read back as exactly gp e, which is e up to grouping nodes *)
Theorem C20_print_parse : forall e k pc rest,
  fits pc (rk k) e -> ok pc e (hd_tok rest) = true -> (pc = true -> k <> LGetline) ->
  (tok_cont pc (hd_tok rest) <= rk k)%nat ->
  exists n0, forall n, (n0 <= n)%nat ->
    p_lv n k pc None (toks (pe e) ++ rest) = POk (gp e, rest) /\ strip (gp e) = strip e.
Proof. exact print_parse_tokens. Qed.
Print Assumptions C20_print_parse.

(* printing the tree that was read back gives the same pieces, hence the same text: for every tree *)
Theorem C20_idempotent : forall e, pe (gp e) = pe e /\ render (pe (gp e)) = render (pe e).
Proof. intros e. split; [apply pe_gp | apply gp_idem_text]. Qed.
Print Assumptions C20_idempotent.

(* ---------------- text level ---------------- *)

(* ast.formatString / lexer.parseString: every byte string (quote_safe = all elements are bytes) is read back as itself *)
Theorem C20_string_roundtrip : forall s, quote_safe s = true ->
  forall rest sp, scan_body (quote s ++ rest) sp = STok (TString s) sp rest.
Proof. exact string_roundtrip. Qed.
Print Assumptions C20_string_roundtrip.

(* formatRegex / lexer.scanRegex: every regex value the lexer can produce is read back as itself *)
Theorem C20_regex_roundtrip : forall s rest, regex_ok s = true ->
  scan_regex false (regex_escape s ++ 47 :: rest) = Some (s, rest) /\
  scan_regex true (regex_escape s ++ 47 :: rest) = Some (61 :: s, rest).
Proof. intros s rest H. split; [apply regex_roundtrip | apply regex_roundtrip_eq]; exact H. Qed.
Print Assumptions C20_regex_roundtrip.

(* rendering a safe piece list and lexing it gives back its tokens *)
Theorem C20_render_lex : forall ps, safe quote_safe false false ps = true ->
  lex_as false (toks ps) (render ps) = true.
Proof. exact (render_lex quote_safe string_roundtrip). Qed.
Print Assumptions C20_render_lex.

(* the round trip of an expression, text to text: guard = the printed pieces are safe *)
Theorem C20_expr_roundtrip_partial : forall e,
  fits false 0 e -> safe quote_safe false false (pe e) = true ->
  lex_as false (toks (pe e)) (render (pe e)) = true /\
  (exists n0, forall n, (n0 <= n)%nat -> p_lv n LExpr false None (toks (pe e)) = POk (gp e, [])) /\
  strip (gp e) = strip e /\ render (pe (gp e)) = render (pe e).
Proof.
  intros e Hf Hs. split; [apply C20_render_lex; exact Hs|]. split; [|split; [apply strip_gp | apply gp_idem_text]].
  destruct (print_parse_tokens e LExpr false [] Hf) as [n0 H].
  - apply ok_zero. reflexivity.
  - discriminate.
  - cbn. lia.
  - exists n0. intros n Hn. rewrite <- (app_nil_r (toks (pe e))). apply (H n Hn).
Qed.
Print Assumptions C20_expr_roundtrip_partial.

(* UnaryExpr.String() never lets a unary + or - touch a byte of the same sign, for EVERY tree:
   the byte that follows the operator in the printed text is a space or the first byte of an operand
   text that does not begin with that sign (formerly defect F-C20-1: `- -y` printed `--y`) *)
Theorem C20_unary_adjacency : forall op v, exists rest,
  pe (EUnary op v) = PT (un_tok op) :: rest /\
  match op with
  | UMinus => ch (render rest) <> 45
  | UPlus => ch (render rest) <> 43
  | UNot => True
  end.
Proof.
  intros op v. rewrite pe_unary. eexists. split; [reflexivity|].
  destruct op; [exact I | |]; cbn [sign_clash];
    (destruct (ch1 (render (ppar _ v)) =? _) eqn:E; cbn [app];
     [cbn; discriminate | apply Z.eqb_neq in E; exact E]).
Qed.
Print Assumptions C20_unary_adjacency.

(* ---------------- statements (token level) ---------------- *)

(* print / printf a1, .., an : guard = every argument respects the table of the print tower *)
Theorem C20_print_stmt_partial : forall pf a args c rest,
  all_fit (fits true 0) (a :: args) -> stmt_stop c = true ->
  exists n0, forall n, (n0 <= n)%nat ->
    p_simple_stmt n (toks (print_pieces pf (a :: args) RNone None) ++ c :: rest)
    = POk (TopPrint pf RNone None (map gp (a :: args)), c :: rest).
Proof. exact print_stmt_tokens. Qed.
Print Assumptions C20_print_stmt_partial.

Theorem C20_print_redirect_partial : forall pf a args rd dest c rest,
  all_fit (fits true 0) (a :: args) -> rd <> RNone -> fits false 0 dest ->
  ok true (last (a :: args) a) (redir_tok rd) = true -> stmt_stop c = true ->
  exists n0, forall n, (n0 <= n)%nat ->
    p_simple_stmt n (toks (print_pieces pf (a :: args) rd (Some dest)) ++ c :: rest)
    = POk (TopPrint pf rd (Some (gp dest)) (map gp (a :: args)), c :: rest).
Proof. exact print_redirect_tokens. Qed.
Print Assumptions C20_print_redirect_partial.

Theorem C20_expr_stmt : forall e c rest,
  fits false 0 e -> stmt_stop c = true ->
  (match pe e with PT TPrint :: _ | PT TPrintf :: _ => False | _ => True end) ->
  exists n0, forall n, (n0 <= n)%nat ->
    p_simple_stmt n (toks (pe e) ++ c :: rest) = POk (TopExpr (gp e), c :: rest).
Proof. exact expr_stmt_tokens. Qed.
Print Assumptions C20_expr_stmt.

(* Stmts.String() indents the rendered text line by line: the tokens survive when no literal
   text holds a newline byte *)
Theorem C20_indent_partial : forall ps, forallb no_newline_literal ps = true ->
  toks (flat_map indent_piece ps) = toks ps.
Proof. exact indent_keeps_tokens. Qed.
Print Assumptions C20_indent_partial.

(* ---------------- the unguarded statements are false on the faithful model ---------------- *)

(* every byte string is read back from its quoted form (formerly refuted by "\u200bab" and
   "\U000e0001", defect F-C20-3; repaired: \u with all eight digits) *)
Definition C20_string_full_statement : Prop :=
  forall s, forallb byte_ok s = true ->
  forall rest sp, scan_body (quote s ++ rest) sp = STok (TString s) sp rest.
Theorem C20_string_roundtrip_all : C20_string_full_statement.
Proof. exact string_roundtrip. Qed.
Print Assumptions C20_string_roundtrip_all.

Definition w_neg_neg : expr := EUnary UMinus (EUnary UMinus (EVar [121])).     (* - -y  now prints  - -y *)
Definition w_plus_incr : expr := EUnary UPlus (EIncr IIncr true (EVar [121])).  (* + ++y *)
Example C20_ex_unary_text :
  render (pe w_neg_neg) = [45; 32; 45; 121] /\ lex_as false (toks (pe w_neg_neg)) (render (pe w_neg_neg)) = true /\
  render (pe w_plus_incr) = [43; 32; 43; 43; 121] /\ lex_as false (toks (pe w_plus_incr)) (render (pe w_plus_incr)) = true.
Proof. repeat split; vm_compute; reflexivity. Qed.

(* an infinite literal prints 1e999, which the NUMBER scanner reads back whole (formerly +Inf, F-C20-4) *)
Example C20_ex_infinite_literal :
  fmt_num (of_bits 9218868437227405312) = [49; 101; 57; 57; 57] /\
  num_ok (fmt_num (of_bits 9218868437227405312)) = true /\
  lex_as false (toks (pe (ENum (fmt_num (of_bits 9218868437227405312))))) (render (pe (ENum (fmt_num (of_bits 9218868437227405312))))) = true.
Proof. repeat split; vm_compute; reflexivity. Qed.

Definition w_zwsp_ab : bytes := [226; 128; 139; 97; 98].        (* U+200B a b : now printed with the escape backslash-u0000200b *)
Definition w_tag : bytes := [243; 160; 128; 129].               (* U+E0001 : now backslash-u000e0001 *)
Example C20_ex_nonprintable_runes :
  quote w_zwsp_ab = [34; 92; 117; 48; 48; 48; 48; 50; 48; 48; 98; 97; 98; 34] /\
  scan_body (quote w_zwsp_ab) false = STok (TString w_zwsp_ab) false [] /\
  scan_body (quote w_tag) false = STok (TString w_tag) false [].
Proof. repeat split; vm_compute; reflexivity. Qed.

Definition C20_print_stmt_full_statement : Prop := print_stmt_full_statement.
Theorem C20_print_stmt_refuted : ~ C20_print_stmt_full_statement.              (* F-C20-2: print (1, 2 > 1) *)
Proof. exact print_stmt_refuted. Qed.
Print Assumptions C20_print_stmt_refuted.

Definition C20_indent_full_statement : Prop := indent_full_statement.
Theorem C20_indent_refuted : ~ C20_indent_full_statement.                      (* F-C20-5: /a\<newline>b/ in a block *)
Proof. exact indent_refuted. Qed.
Print Assumptions C20_indent_refuted.

(* F-C20-6: 1234567.5 prints 1.23457e+06; that text denotes 1234570, which prints 1234570 *)
Example C20_ex_number_not_idempotent :
  fmt_num (FFin 2469135 (-1)) = [49; 46; 50; 51; 52; 53; 55; 101; 43; 48; 54] /\
  fmt_num (FFin 1234570 0) = [49; 50; 51; 52; 53; 55; 48].
Proof. split; vm_compute; reflexivity. Qed.

(* ---------------- non-vacuity ---------------- *)

(* x = 1 + 2 ^ -3 "s" ~ /a\/b/   is a writing that respects the table; Go prints  2 ^ (-3)  *)
Definition ex_tree : expr :=
  EAssign (EVar [120])
    (EBinary BMatch
       (EBinary BConcat (EBinary BAdd (ENum [49]) (EBinary BPow (ENum [50]) (EUnary UMinus (ENum [51])))) (EStr [115]))
       (EStrRegex [97; 47; 98])).
Example C20_ex_fits : fits false 0 ex_tree.
Proof. cbn. repeat (first [ match goal with |- _ /\ _ => split end | reflexivity | exact I | lia | discriminate ]). Qed.
Example C20_ex_text :
  render (pe ex_tree) = [120;32;61;32;49;32;43;32;50;32;94;32;40;45;51;41;32;34;115;34;32;126;32;47;97;92;47;98;47].
Proof. vm_compute. reflexivity. Qed.
Example C20_ex_safe : safe quote_safe false false (pe ex_tree) = true.
Proof. vm_compute. reflexivity. Qed.
Example C20_ex_lex : lex_as false (toks (pe ex_tree)) (render (pe ex_tree)) = true.
Proof. vm_compute. reflexivity. Qed.
Example C20_ex_parse : parse_expr false (toks (pe ex_tree)) = POk (gp ex_tree, []) /\ gp ex_tree <> ex_tree.
Proof. split; [vm_compute; reflexivity | discriminate]. Qed.

(* print x + 1, y > "f" : the guards of C20_print_redirect_partial hold *)
Example C20_ex_print_guard :
  all_fit (fits true 0) [EBinary BAdd (EVar [120]) (ENum [49]); EVar [121]] /\
  ok true (EVar [121]) (redir_tok RGreater) = true.
Proof. cbn. repeat (first [ match goal with |- _ /\ _ => split end | reflexivity | exact I | lia | discriminate ]). Qed.
(* ... and fail for the unwrapped  print (1, 2 > 1) *)
Example C20_ex_print_guard_fails : ~ all_fit (fits true 0) [w_one; w_gt].
Proof. cbn. intros (_ & (_ & H & _) & _). apply H; reflexivity. Qed.

(* strings and regexes *)
Example C20_ex_quote_safe : quote_safe [97; 34; 92; 10; 1; 255; 195; 169; 226; 128; 139; 122] = true.   (* a, double quote, backslash, LF, ^A, 0xff, e-acute, U+200B, z *)
Proof. vm_compute. reflexivity. Qed.
Example C20_ex_quote_safe_all : quote_safe w_zwsp_ab = true /\ quote_safe w_tag = true.
Proof. split; vm_compute; reflexivity. Qed.
Example C20_ex_regex_ok : regex_ok [97; 47; 92; 92; 47; 92; 46] = true.       (* a / \\ / \. *)
Proof. vm_compute. reflexivity. Qed.
