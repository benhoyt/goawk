(* C06 — $0, the fields and NF stay mutually consistent under every update.
   Only statements closed by [exact] of a lemma proved in Proofs/, their Print Assumptions,
   non-vacuity examples, and the witnesses for the defects of the pinned tree.

   Reading guide.  [rx]/[am] = the regular-expression engine (Go's regexp), a parameter;
   the only hypothesis on it is [am_sorted]: FindAllStringIndex returns matches in order
   and inside the text -- proved for the executable engine in C06_engine_ok.
   [run rx am ops (init rx) = Ok s] = "s is the state after the script ops" (ANY list of
   operations, any texts, separators, indexes; the script did not stop with an error).
   [view] = what a program can observe: ($0, the fields after forcing the lazy split, NF). *)
From Verif Require Import Lib.Base Lib.Dyadic Lib.Utf8 Lib.Regex Gen.Consts Model.Fields
  Proofs.FieldsSplit Proofs.FieldsInv Proofs.FieldsSpec Proofs.FieldsObs.

Definition engine_ok (rx : Type) (am : rx -> bytes -> list (Z * Z)) : Prop :=
  forall r s, matches_sorted 0 (zlen s) (am r s).

(* ---------------- invariants over every script ---------------- *)

(* After any script: once the record is split, the flag slice and the field slice have one
   length, int(NF) is the number of fields, and a compiled regex exists whenever FS
   (saved or current) has more than one character. *)
Theorem C06_Inv_reachable : forall rx am, engine_ok rx am ->
  forall ops s, run rx am ops (init rx) = Ok s -> Inv rx s.
Proof. exact Inv_reachable. Qed.
Print Assumptions C06_Inv_reachable.

(* No script makes the record code slice or index out of range (ModField/ModNF carry the
   program's own string function, required not to panic itself). *)
Theorem C06_no_panic : forall rx am, engine_ok rx am ->
  forall ops, Forall (op_safe rx) ops -> run rx am ops (init rx) <> Panic.
Proof. intros rx am H ops Hs. apply run_no_panic; [exact H|apply Inv_init|exact Hs]. Qed.
Print Assumptions C06_no_panic.

(* NF = number of fields, full statement: FALSE on the pinned tree (F-C06-1) ... *)
Theorem C06_NF_is_count_refuted : ~ NF_is_count_full_statement.
Proof. exact NF_is_count_refuted. Qed.
Print Assumptions C06_NF_is_count_refuted.

(* ... and true for every script that assigns only counts (integers printed as integers) to NF *)
Theorem C06_NF_is_count_partial : forall rx am, engine_ok rx am ->
  forall ops s, Forall (op_nf_guard rx) ops -> run rx am ops (init rx) = Ok s ->
  have rx s = true -> nf rx s = count_value (zlen (fields rx s)).
Proof. intros rx am H ops s Hg Hr. exact (NF_is_count_partial rx am H ops s Hg Hr). Qed.
Print Assumptions C06_NF_is_count_partial.

(* ---------------- reads ---------------- *)

(* $i, NF and a full view change nothing observable (they may perform the lazy split) *)
Theorem C06_reads_are_pure : forall rx am s o s' w,
  is_read rx o = true -> exec_op rx am s o = Ok (s', w) -> view rx am s' = view rx am s.
Proof. exact reads_are_pure. Qed.
Print Assumptions C06_reads_are_pure.

(* $x returns $0 for int(x) = 0, else the field counted from the front (x > 0) or from the
   end (x < 0), and "" outside 1..NF *)
Theorem C06_getfield_value : forall rx am, engine_ok rx am ->
  forall s x s' w l fl v, Inv rx s -> view rx am s = Ok (l, fl, v) ->
  exec_op rx am s (GetField rx (IConst x)) = Ok (s', w) ->
  w = OVal (if float_to_int x =? 0 then l else field_at fl (float_to_int x)).
Proof. intros rx am _. exact (getfield_returns_view rx am). Qed.
Print Assumptions C06_getfield_value.

Theorem C06_viewall_value : forall rx am s s' w,
  exec_op rx am s (ViewAll rx) = Ok (s', w) -> exists l v fl, view rx am s = Ok (l, fl, v) /\ w = OAll v fl.
Proof. exact viewall_returns_view. Qed.
Print Assumptions C06_viewall_value.

(* Reads are invisible for ever: deleting a read from (or inserting it into) ANY script changes
   nothing the rest of the script outputs nor how it ends.  Everything the lazy split
   consults -- FS, its regex, RS, the input mode -- is saved when the record is set (formerly
   F-C06-5: RS and the input mode were not).  No hypothesis on the regex engine at all. *)
Theorem C06_reads_invisible : forall rx am s o s' w ops,
  is_read_op rx o = true -> exec_op rx am s o = Ok (s', w) ->
  fst (trace rx am ops s') = fst (trace rx am ops s) /\
  same_end rx am (snd (trace rx am ops s')) (snd (trace rx am ops s)).
Proof. exact reads_invisible. Qed.
Print Assumptions C06_reads_invisible.

(* reads, getline var, and FS, OFS, RS, INPUTMODE, OUTPUTMODE changes leave the current record as
   it is: in particular a change of FS (or RS, or the input mode) does not re-split it *)
Theorem C06_pure_ops_keep_view : forall rx am s o s' w,
  is_pure rx o = true -> exec_op rx am s o = Ok (s', w) -> view rx am s' = view rx am s.
Proof. exact pure_ops_keep_view. Qed.
Print Assumptions C06_pure_ops_keep_view.

Theorem C06_setFS_pure : forall rx am s f r s', set_fs rx s f r = Ok s' -> view rx am s' = view rx am s.
Proof. exact setFS_pure. Qed.
Print Assumptions C06_setFS_pure.

(* ---------------- $0 assignment / a new record ---------------- *)

(* the new record is split with the FS (and its regex) in force at that moment *)
Theorem C06_assign_record_resplits : forall rx am s t b,
  view rx am (set_line rx s t b) =
  do fl <- split_record rx am (fs rx s) (fs_re rx s) (inmode rx s) (rs rx s) t;
  Ok (t, fl, count_value (zlen fl)).
Proof. exact assign_record_resplits. Qed.
Print Assumptions C06_assign_record_resplits.

(* ... unconditionally: whatever the state before (fields split or not, same text or not,
   flags set by earlier assignments or not), forcing the split of a freshly set record gives
   exactly this state -- fields = split of the text alone, every per-field "true string" flag
   false, NF = their number, FS/RS/input mode saved *)
Theorem C06_set_record_resets : forall rx am s t b,
  ensure_fields rx am (set_line rx s t b) =
  do fl <- split_record rx am (fs rx s) (fs_re rx s) (inmode rx s) (rs rx s) t;
  Ok (mkState rx t b fl (map (fun _ => false) fl) true (count_value (zlen fl))
              (fs rx s) (fs_re rx s) (fs rx s) (fs_re rx s) (rs rx s) (inmode rx s)
              (ofs rx s) (rs rx s) (inmode rx s) (outmode rx s)).
Proof. exact set_record_resets. Qed.
Print Assumptions C06_set_record_resets.

(* ... so no field of a freshly set record is ever a "true string" for comparisons: the typing
   probe (when $i is "10": is ($i < 9) the string or the numeric answer) never says string *)
Theorem C06_record_fields_are_strnum : forall rx am s t b x s' w,
  float_to_int x <> 0 ->
  exec_op rx am (set_line rx s t b) (TypeOf rx (IConst x)) = Ok (s', w) ->
  w = OTyp None \/ w = OTyp (Some false).
Proof. exact typeof_after_record. Qed.
Print Assumptions C06_record_fields_are_strnum.

(* ---------------- $i = t ---------------- *)

(* 1 <= i <= maxFieldIndex: intervening new fields empty, field i = t, $0 = the fields joined
   by the current OFS (CSV-encoded in CSV/TSV output mode: join_fields), NF = max(NF, i) *)
Theorem C06_setfield_spec : forall rx am, engine_ok rx am ->
  forall s s1 i t, Inv rx s -> ensure_fields rx am s = Ok s1 -> 1 <= i <= maxFieldIndex ->
  exists s', set_field rx am s i t = Ok s' /\
    fields rx s' = put (fields rx s1) i t /\
    zlen (fields_true rx s') = zlen (fields rx s') /\
    line rx s' = join_fields rx s (fields rx s') /\ line_true rx s' = true /\
    nf rx s' = count_value (Z.max (zlen (fields rx s1)) i) /\
    have rx s' = true /\
    fs rx s' = fs rx s /\ fs_re rx s' = fs_re rx s /\ saved_fs rx s' = saved_fs rx s /\ saved_re rx s' = saved_re rx s /\
    ofs rx s' = ofs rx s /\ rs rx s' = rs rx s /\ inmode rx s' = inmode rx s /\ outmode rx s' = outmode rx s.
Proof. intros rx am _. exact (set_field_pos rx am). Qed.
Print Assumptions C06_setfield_spec.

(* negative i counts from the last field; below the first field nothing happens *)
Theorem C06_setfield_negative : forall rx am s s1 i t,
  Inv rx s -> ensure_fields rx am s = Ok s1 -> i < 0 ->
  let j := zlen (fields rx s1) + 1 + i in
  (j < 1 -> set_field rx am s i t = Ok s1) /\
  (1 <= j -> j <= maxFieldIndex -> set_field rx am s i t = set_field rx am s j t).
Proof. exact set_field_neg. Qed.
Print Assumptions C06_setfield_negative.

Theorem C06_setfield_too_large : forall rx am s i t,
  i > maxFieldIndex -> set_field rx am s i t = Err (msg_field_too_large ++ dec_of_Z i).
Proof. exact set_field_too_large. Qed.
Print Assumptions C06_setfield_too_large.

(* the index reaches set_field as floatToInt(x) (saturating): a program's $(x) = t with
   trunc(x) > maxFieldIndex is the "too large" error however large x is (2^63, 1e30, ...) *)
Theorem C06_setfield_huge : forall rx am s m e t,
  ftrunc m e > maxFieldIndex ->
  exec_op rx am s (SetField rx (IConst (FFin m e)) t) =
  Err (msg_field_too_large ++ dec_of_Z (float_to_int (FFin m e))).
Proof. exact setfield_huge. Qed.
Print Assumptions C06_setfield_huge.

(* ... and reading $(x) beyond the last field, 2^63 and more included, gives "" *)
Theorem C06_getfield_huge : forall rx am, engine_ok rx am ->
  forall s m e s' w l fl v, Inv rx s -> view rx am s = Ok (l, fl, v) -> zlen fl < maxint ->
  zlen fl < ftrunc m e ->
  exec_op rx am s (GetField rx (IConst (FFin m e))) = Ok (s', w) -> w = OVal [].
Proof. intros rx am _. exact (getfield_huge rx am). Qed.
Print Assumptions C06_getfield_huge.

(* ---------------- sub / gsub / ++ / op= with $i or $0 as target ---------------- *)

(* f = the text the operation computes from the old one.  A substitution that was made
   (Some t) IS the assignment $(x) = t, whether or not t differs from the old text: so all of
   C06_setfield_spec / _negative / _too_large / C06_assign_record_resplits apply ($0 rebuilt
   with OFS, NF extended, $0 re-split with the FS in force) ... *)
Theorem C06_modfield_some_is_assignment : forall rx am s x f old s1 fl t,
  get_field rx am s (float_to_int x) = Ok (s1, old, fl) -> f old = Ok (Some t) ->
  exec_op rx am s (ModField rx (IConst x) f) = exec_op rx am s (SetField rx (IConst x) t).
Proof. exact modfield_some_is_assignment. Qed.
Print Assumptions C06_modfield_some_is_assignment.

(* ... and no substitution (None) is just the read of the target *)
Theorem C06_modfield_none_is_read : forall rx am s x f old s1 fl,
  get_field rx am s (float_to_int x) = Ok (s1, old, fl) -> f old = Ok None ->
  exec_op rx am s (ModField rx (IConst x) f) = Ok (s1, ONone) /\ view rx am s1 = view rx am s.
Proof. exact modfield_none_is_read. Qed.
Print Assumptions C06_modfield_none_is_read.

(* ---------------- NF = v ---------------- *)

(* n = int(v), 0 <= n <= maxFieldIndex: the fields are truncated to n or extended with empty
   ones, $0 is rebuilt; NF keeps the VALUE v (the root of F-C06-1) *)
Theorem C06_setnf_spec : forall rx am, engine_ok rx am ->
  forall s s1 v, Inv rx s -> ensure_fields rx am s = Ok s1 ->
  let n := f2i64 (vnum v) in 0 <= n <= maxFieldIndex ->
  exists s', set_nf rx am s v = Ok s' /\
    fields rx s' = resize n (fields rx s1) /\
    zlen (fields_true rx s') = zlen (fields rx s') /\
    line rx s' = join_fields rx s (fields rx s') /\ line_true rx s' = true /\
    nf rx s' = v /\ have rx s' = true /\
    fs rx s' = fs rx s /\ fs_re rx s' = fs_re rx s /\ saved_fs rx s' = saved_fs rx s /\ saved_re rx s' = saved_re rx s /\
    ofs rx s' = ofs rx s /\ rs rx s' = rs rx s /\ inmode rx s' = inmode rx s /\ outmode rx s' = outmode rx s.
Proof. intros rx am _. exact (set_nf_spec rx am). Qed.
Print Assumptions C06_setnf_spec.

Theorem C06_setnf_errors : forall rx am s v,
  let n := f2i64 (vnum v) in
  (n < 0 -> set_nf rx am s v = Err (msg_nf_negative ++ dec_of_Z n)) /\
  (n > maxFieldIndex -> set_nf rx am s v = Err (msg_nf_too_large ++ dec_of_Z n)).
Proof. exact set_nf_errors. Qed.
Print Assumptions C06_setnf_errors.

(* ---------------- the same, for every state a script can reach ---------------- *)

(* after ANY script, $i = t (1 <= i <= maxFieldIndex) makes the observable record
   ($0, fields, NF) = (fields joined, fields padded with "" and field i = t, max(NF, i)) *)
Theorem C06_reachable_setfield : forall rx am, engine_ok rx am ->
  forall ops s, run rx am ops (init rx) = Ok s ->
  forall s1 i t, ensure_fields rx am s = Ok s1 -> 1 <= i <= maxFieldIndex ->
  exists s', set_field rx am s i t = Ok s' /\
    view rx am s' = Ok (join_fields rx s (put (fields rx s1) i t), put (fields rx s1) i t,
                        count_value (Z.max (zlen (fields rx s1)) i)).
Proof. exact reachable_setfield. Qed.
Print Assumptions C06_reachable_setfield.

(* after ANY script, NF = v with 0 <= int(v) <= maxFieldIndex: fields cut or padded to int(v), $0 rebuilt *)
Theorem C06_reachable_setnf : forall rx am, engine_ok rx am ->
  forall ops s, run rx am ops (init rx) = Ok s ->
  forall s1 v, ensure_fields rx am s = Ok s1 -> 0 <= f2i64 (vnum v) <= maxFieldIndex ->
  exists s', set_nf rx am s v = Ok s' /\
    view rx am s' = Ok (join_fields rx s (resize (f2i64 (vnum v)) (fields rx s1)),
                        resize (f2i64 (vnum v)) (fields rx s1), v).
Proof. exact reachable_setnf. Qed.
Print Assumptions C06_reachable_setnf.

(* after ANY script, $(x) reads $0 / the field from the front or the end / "" and changes nothing *)
Theorem C06_reachable_getfield : forall rx am, engine_ok rx am ->
  forall ops s, run rx am ops (init rx) = Ok s ->
  forall x s' w l fl v, view rx am s = Ok (l, fl, v) ->
  exec_op rx am s (GetField rx (IConst x)) = Ok (s', w) ->
  w = OVal (if float_to_int x =? 0 then l else field_at fl (float_to_int x)) /\ view rx am s' = view rx am s.
Proof. exact reachable_getfield. Qed.
Print Assumptions C06_reachable_getfield.

(* ---------------- getline $i ---------------- *)

(* getline $i, the record read being t, is exactly the assignment $i = t (index evaluated
   before the read, converted once) *)
Theorem C06_getline_field_is_setfield : forall rx am s i t,
  exec_op rx am s (GetlineField rx i t) = exec_op rx am s (SetField rx i t).
Proof. exact getline_field_is_setfield. Qed.
Print Assumptions C06_getline_field_is_setfield.

(* ---------------- the FS rules ---------------- *)

(* a literal separator: joining the pieces with it gives the text back, and no piece contains it *)
Theorem C06_split_literal_roundtrip : forall sep s, join sep (split_lit sep s) = s.
Proof. exact join_split_lit. Qed.
Print Assumptions C06_split_literal_roundtrip.

Theorem C06_split_literal_no_sep : forall sep s,
  sep <> [] -> Forall (fun f => forall a b, f <> a ++ sep ++ b) (split_lit sep s).
Proof. exact split_lit_no_sep. Qed.
Print Assumptions C06_split_literal_no_sep.

(* FS = " ": the separators are exactly space, tab and newline (formerly F-C06-3: every
   Unicode White_Space character was one) ... *)
Theorem C06_split_space_blanks : forall b, is_blank b = true <-> b = 32 \/ b = 9 \/ b = 10.
Proof. exact is_blank_spec. Qed.
Print Assumptions C06_split_space_blanks.

(* ... the three laws that determine the split on every record: nothing from nothing; a
   blank-free non-empty run is one field; a blank between two parts separates them and
   vanishes (so leading, trailing and repeated blanks are ignored) ... *)
Theorem C06_split_space_laws :
  fields_bytes [] [] false = [] /\
  (forall f, Forall nonspace f -> f <> [] -> fields_bytes f [] false = [f]) /\
  (forall a sp b, is_blank sp = true ->
     fields_bytes (a ++ sp :: b) [] false = fields_bytes a [] false ++ fields_bytes b [] false).
Proof. exact (conj fields_bytes_nil (conj fields_bytes_one_run fields_bytes_separator)). Qed.
Print Assumptions C06_split_space_laws.

(* ... every field is non-empty and contains no blank, and the fields are the non-blank bytes
   of the record in order *)
Theorem C06_split_space_fields_ok : forall s,
  Forall (fun f => f <> [] /\ Forall nonspace f) (split_blanks s) /\
  concat (split_blanks s) = filter (fun c => negb (is_blank c)) s.
Proof. exact (fun s => conj (split_blanks_fields_ok s) (split_blanks_concat s)). Qed.
Print Assumptions C06_split_space_fields_ok.

(* a regex FS: the fields and the non-empty matches alternate and rebuild the record; empty
   matches are ignored; never a slice out of range *)
Theorem C06_split_regex_rebuild : forall ln ms,
  matches_sorted 0 (zlen ln) ms ->
  exists fl, split_re_go ln ms 0 = Ok fl /\
             length fl = S (length (nonempty_matches ms)) /\
             rebuild ln fl (nonempty_matches ms) = ln.
Proof. exact split_re_rebuild. Qed.
Print Assumptions C06_split_regex_rebuild.

(* RS = "" with a one-character FS: newline separates too (and a CR before it goes); no field
   keeps a newline *)
Theorem C06_rs_empty_no_newline : forall fl, Forall (fun f => ~ In 10 f) (split_newlines fl).
Proof. exact split_newlines_fields_have_no_newline. Qed.
Print Assumptions C06_rs_empty_no_newline.

(* ---------------- the hypotheses are satisfiable ---------------- *)

(* the executable engine (Lib/Regex.v, the one the correspondence check runs) is an engine_ok *)
Theorem C06_engine_ok : engine_ok re Regex.all_matches.
Proof. exact all_matches_sorted. Qed.
Print Assumptions C06_engine_ok.

Definition b_abc : bytes := [97; 32; 98; 32; 99].                     (* "a b c" *)
Definition v_count (n : Z) : value := count_value n.

(* a script satisfying both guards; it runs, and ends with 4 fields, $0 = "a-b--Z", NF = 4 *)
Definition ex_script : list xop :=
  [ReadRecord re b_abc; SetNF re (v_count 2); SetOFS re [45]; SetField re (IConst (FFin 4 0)) [90]; GetNF re].

Example C06_ex_guards : Forall (op_safe re) ex_script /\ Forall (op_nf_guard re) ex_script.
Proof.
  split; repeat constructor. cbn [op_nf_guard]. exists 2. split; reflexivity.
Qed.

Example C06_ex_run :
  (do s <- run re Regex.all_matches ex_script xinit; view re Regex.all_matches s)
  = Ok ([97; 45; 98; 45; 45; 90], [[97]; [98]; []; [90]], count_value 4).
Proof. vm_compute. reflexivity. Qed.

(* FS change between reading and the first field access: the saved FS splits *)
Example C06_ex_lazy_fs :
  (do s <- run re Regex.all_matches
      [SetFS re [44] None; ReadRecord re [97; 44; 98; 32; 99]; SetFS re [32] None] xinit;
   view re Regex.all_matches s)
  = Ok ([97; 44; 98; 32; 99], [[97]; [98; 32; 99]], count_value 2).
Proof. vm_compute. reflexivity. Qed.

Example C06_ex_huge_index :                  (* $(2^100) = "x" is the "too large" error; $(2^100) reads "" *)
  (exists msg, xexec (set_line re xinit b_abc false) (SetField re (IConst (FFin 1 100)) [120]) = Err msg) /\
  (do (_, w) <- xexec (set_line re xinit b_abc false) (GetField re (IConst (FFin 1 100))); Ok w) = Ok (OVal []).
Proof. split; [eexists|]; vm_compute; reflexivity. Qed.

(* $1 = "x y"; $0 = $0 on "p q": the record is re-split, NF = 3 *)
Example C06_ex_reassign_same_text :
  (do s <- run re Regex.all_matches
       [ReadRecord re [112; 32; 113]; SetField re (IConst (FFin 1 0)) [120; 32; 121];
        ModField re (IConst (FFin 0 0)) (fun old => Ok (Some old))] xinit;
   view re Regex.all_matches s)
  = Ok ([120; 32; 121; 32; 113], [[120]; [121]; [113]], count_value 3).
Proof. vm_compute. reflexivity. Qed.

(* record "10 10"; $1 = "10" (a string now); next record "10 10": $1 is a strnum again *)
Example C06_ex_flags_reset :
  fst (trace re Regex.all_matches
       [ReadRecord re [49; 48; 32; 49; 48]; SetField re (IConst (FFin 1 0)) [49; 48]; TypeOf re (IConst (FFin 1 0));
        ReadRecord re [49; 48; 32; 49; 48]; TypeOf re (IConst (FFin 1 0))] xinit)
  = [ONone; ONone; OTyp (Some true); ONone; OTyp (Some false)].
Proof. vm_compute. reflexivity. Qed.

(* OFS="-"; sub(/b/, "b", $2) on "a  b   c": $0 becomes "a-b-c"; sub(/^/, "", $5): NF = 5 *)
Example C06_ex_sub_same_text :
  (do s <- run re Regex.all_matches
       [SetOFS re [45]; ReadRecord re [97; 32; 32; 98; 32; 32; 32; 99];
        ModField re (IConst (FFin 2 0)) (fun old => Ok (Some old))] xinit;
   view re Regex.all_matches s)
  = Ok ([97; 45; 98; 45; 99], [[97]; [98]; [99]], count_value 3)
  /\
  (do s <- run re Regex.all_matches
       [ReadRecord re [97; 32; 98; 32; 99]; ModField re (IConst (FFin 5 0)) (fun old => Ok (Some old))] xinit;
   view re Regex.all_matches s)
  = Ok ([97; 32; 98; 32; 99; 32; 32], [[97]; [98]; [99]; []; []], count_value 5).
Proof. split; vm_compute; reflexivity. Qed.

(* the witnesses of the findings, on the executable model *)
Example C06_ex_nf_2_7 :                      (* $0 = "a b c"; NF = 2.7  ->  NF reads 2.7, 2 fields *)
  (do s <- run re Regex.all_matches [ReadRecord re b_abc; SetNF re v_2_7] xinit; view re Regex.all_matches s)
  = Ok ([97; 32; 98], [[97]; [98]], v_2_7).
Proof. vm_compute. reflexivity. Qed.

Example C06_ex_getline_field :               (* getline $2 with line "X": $0 = "a X c" *)
  (do (s, _) <- xexec (set_line re xinit b_abc false) (GetlineField re (IConst (FFin 2 0)) [88]);
   view re Regex.all_matches s)
  = Ok ([97; 32; 88; 32; 99], [[97]; [88]; [99]], count_value 3).
Proof. vm_compute. reflexivity. Qed.

Example C06_ex_nbsp :                        (* "a<NBSP>b<VT>c d<CR>" has 2 fields (formerly 4) *)
  split_blanks [97; 194; 160; 98; 11; 99; 32; 100; 13] = [[97; 194; 160; 98; 11; 99]; [100; 13]].
Proof. vm_compute. reflexivity. Qed.

Example C06_ex_rs_change :                   (* FS=","; $0="a,b<NL>c"; [x=$1;] RS=""; NF: 2 either way *)
  let s0 := set_line re (set_fs_plain re [44] xinit) [97; 44; 98; 10; 99] true in
  (do (s1, _) <- xexec s0 (GetField re (IConst (FFin 1 0)));
   Ok (fst (trace re Regex.all_matches [SetRS re []; GetNF re] s1)))
  = Ok (fst (trace re Regex.all_matches [SetRS re []; GetNF re] s0))
  /\ fst (trace re Regex.all_matches [SetRS re []; GetNF re] s0) = [ONone; ONF (count_value 2)].
Proof. split; vm_compute; reflexivity. Qed.
