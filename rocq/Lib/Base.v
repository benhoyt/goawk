(* Common vocabulary for all models: bytes, checked slicing, result type.
   Definitions, then the lemmas that characterise them and a few facts about plain lists. *)
From Coq Require Export List ZArith Bool Lia.
Export ListNotations.
Open Scope Z_scope.

Definition byte := Z.
Definition bytes := list Z.

Definition zlen {A} (l : list A) : Z := Z.of_nat (length l).
Definition ztake {A} (n : Z) (l : list A) : list A := firstn (Z.to_nat n) l.
Definition zdrop {A} (n : Z) (l : list A) : list A := skipn (Z.to_nat n) l.

(* Outcome of a modelled Go operation.  [Panic] is where Go would panic
   (slice/index out of range, nil map, explicit panic).  [Err] is a Go error
   value returned to the caller.  [Unmod] marks inputs the executable model
   declines to evaluate (never guessed). *)
Inductive res (A : Type) : Type :=
| Ok (a : A)
| Err (msg : bytes)
| Panic
| Unmod.
Arguments Ok {A} a.
Arguments Err {A} msg.
Arguments Panic {A}.
Arguments Unmod {A}.

Definition rbind {A B} (r : res A) (f : A -> res B) : res B :=
  match r with Ok a => f a | Err m => Err m | Panic => Panic | Unmod => Unmod end.
Notation "'do' x <- r ; k" := (rbind r (fun x => k)) (at level 200, x pattern, r at level 100, k at level 200).

(* Go's s[lo:hi] on a string / slice of length len s: panics unless 0 <= lo <= hi <= len. *)
Definition slice {A} (s : list A) (lo hi : Z) : res (list A) :=
  if (0 <=? lo) && (lo <=? hi) && (hi <=? zlen s)
  then Ok (ztake (hi - lo) (zdrop lo s))
  else Panic.

(* Go's s[i] *)
Definition index {A} (s : list A) (i : Z) : res A :=
  if (0 <=? i) && (i <? zlen s)
  then match nth_error s (Z.to_nat i) with Some a => Ok a | None => Panic end
  else Panic.

Fixpoint bytes_eqb (a b : bytes) : bool :=
  match a, b with
  | [], [] => true
  | x :: a', y :: b' => (x =? y) && bytes_eqb a' b'
  | _, _ => false
  end.

Lemma zlen_nonneg {A} (l : list A) : 0 <= zlen l.
Proof. unfold zlen; lia. Qed.

Lemma zlen_app {A} (a b : list A) : zlen (a ++ b) = zlen a + zlen b.
Proof. unfold zlen; rewrite app_length; lia. Qed.

Lemma zlen_cons {A} (x : A) (l : list A) : zlen (x :: l) = 1 + zlen l.
Proof. unfold zlen; cbn [length]; lia. Qed.

Lemma zlen_nil {A} : zlen (@nil A) = 0.
Proof. reflexivity. Qed.

Lemma bytes_eqb_eq a b : bytes_eqb a b = true <-> a = b.
Proof.
  revert b; induction a as [|x a IH]; intros [|y b]; cbn [bytes_eqb]; split; intro H;
    try reflexivity; try discriminate.
  - apply andb_true_iff in H as [H1 H2]. apply Z.eqb_eq in H1. apply IH in H2. congruence.
  - injection H as -> ->. rewrite Z.eqb_refl. cbn. apply IH. reflexivity.
Qed.

Lemma zlen_ztake {A} n (l : list A) : 0 <= n <= zlen l -> zlen (ztake n l) = n.
Proof. unfold zlen, ztake; intros H. rewrite firstn_length. lia. Qed.

Lemma zlen_zdrop {A} n (l : list A) : 0 <= n <= zlen l -> zlen (zdrop n l) = zlen l - n.
Proof. unfold zlen, zdrop; intros H. rewrite skipn_length. lia. Qed.

Lemma ztake_all {A} n (l : list A) : zlen l <= n -> ztake n l = l.
Proof. unfold zlen, ztake; intros H. apply firstn_all2. lia. Qed.

Lemma zdrop_0 {A} (l : list A) : zdrop 0 l = l.
Proof. reflexivity. Qed.

Lemma zdrop_neg {A} n (l : list A) : n <= 0 -> zdrop n l = l.
Proof. unfold zdrop; intros H. replace (Z.to_nat n) with 0%nat by lia. reflexivity. Qed.

Lemma zdrop_all {A} n (l : list A) : zlen l <= n -> zdrop n l = [].
Proof. unfold zlen, zdrop; intros H. apply skipn_all2. lia. Qed.

Lemma ztake_neg {A} n (l : list A) : n <= 0 -> ztake n l = [].
Proof. unfold ztake; intros H. replace (Z.to_nat n) with 0%nat by lia. reflexivity. Qed.

Lemma bytes_eqb_refl a : bytes_eqb a a = true.
Proof. apply bytes_eqb_eq. reflexivity. Qed.

(* ---- lists ---- *)

Lemma list_len_ind {A} (P : list A -> Prop) :
  (forall l, (forall l', (length l' < length l)%nat -> P l') -> P l) -> forall l, P l.
Proof.
  intros H l. remember (length l) as n eqn:Hn. revert l Hn.
  induction n as [n IH] using lt_wf_ind. intros l ->.
  apply H. intros l' Hlt. exact (IH (length l') Hlt l' eq_refl).
Qed.

Lemma skipn_add {A} (x y : nat) (l : list A) : skipn (x + y) l = skipn y (skipn x l).
Proof.
  revert l; induction x as [|x IH]; intros l; [reflexivity|].
  destruct l as [|a l]; [cbn; destruct y; reflexivity|]. cbn [Nat.add skipn]. apply IH.
Qed.

Lemma rev_cons_app {A} (v : A) vs stk : rev (v :: vs) ++ stk = rev vs ++ v :: stk.
Proof. cbn [rev]. rewrite <- app_assoc. reflexivity. Qed.

Lemma filter_len_le {A} (f : A -> bool) l : (length (filter f l) <= length l)%nat.
Proof. induction l as [|y l IH]; cbn [filter length]; [lia|]. destruct (f y); cbn [length]; lia. Qed.

Lemma forallb_firstn {A} (f : A -> bool) n l : forallb f l = true -> forallb f (firstn n l) = true.
Proof.
  intros H. rewrite <- (firstn_skipn n l), forallb_app in H. apply andb_true_iff in H. tauto.
Qed.

Lemma forallb_skipn {A} (f : A -> bool) n l : forallb f l = true -> forallb f (skipn n l) = true.
Proof.
  intros H. rewrite <- (firstn_skipn n l), forallb_app in H. apply andb_true_iff in H. tauto.
Qed.

Lemma forallb_map {A B} (f : B -> bool) (g : A -> B) (l : list A) : forallb f (map g l) = forallb (fun x => f (g x)) l.
Proof. induction l as [|x l IH]; cbn [map forallb]; [reflexivity|]. rewrite IH. reflexivity. Qed.

Lemma forallb_ext {A} (f g : A -> bool) (l : list A) : (forall x, f x = g x) -> forallb f l = forallb g l.
Proof. intros H. induction l as [|x l IH]; cbn [forallb]; [reflexivity|]. rewrite H, IH. reflexivity. Qed.

Lemma Forall_forallb {A} (p : A -> bool) (Q : A -> Prop) l :
  Forall (fun x => p x = true -> Q x) l -> forallb p l = true -> Forall Q l.
Proof.
  induction 1 as [|x l Hx _ IH]; cbn [forallb]; intros H; [constructor|].
  apply andb_prop in H as [H1 H2]. constructor; auto.
Qed.

Lemma Forall_snoc {A} (Q : A -> Prop) l x : Forall Q l -> Q x -> Forall Q (l ++ [x]).
Proof. intros Hl Hx. apply Forall_app. split; [exact Hl|constructor; [exact Hx|constructor]]. Qed.

Lemma NoDup_app_disj {A} (a b : list A) :
  NoDup a -> NoDup b -> (forall x, In x a -> ~ In x b) -> NoDup (a ++ b).
Proof.
  induction 1 as [|x a Hx Hnd IH]; intros Hb Hd; cbn [app]; [exact Hb|].
  constructor.
  - intros Hc. apply in_app_or in Hc. destruct Hc as [Hc|Hc]; [contradiction|]. apply (Hd x); [left; reflexivity | exact Hc].
  - apply IH; [exact Hb|]. intros y Hy. apply Hd. right; exact Hy.
Qed.

Lemma NoDup_snoc {A} (l : list A) x : NoDup l -> ~ In x l -> NoDup (l ++ [x]).
Proof.
  intros Hnd Hx. apply NoDup_app_disj; [exact Hnd|constructor; [intros []|constructor]|].
  intros y Hy [<-|[]]. exact (Hx Hy).
Qed.

Lemma NoDup_map_inj {A B} (f : A -> B) l x y :
  NoDup (map f l) -> In x l -> In y l -> f x = f y -> x = y.
Proof.
  induction l as [|a l IH]; cbn [map In]; intros Hn Hx Hy Hf; [contradiction|].
  inversion Hn as [|? ? Ha Hn']; subst.
  destruct Hx as [->|Hx], Hy as [->|Hy].
  - reflexivity.
  - exfalso. apply Ha. rewrite Hf. apply in_map. exact Hy.
  - exfalso. apply Ha. rewrite <- Hf. apply in_map. exact Hx.
  - apply IH; assumption.
Qed.

(* ---- zlen, ztake, zdrop ---- *)

Lemma zlen_pos_cons {A} (x : A) s : 0 < zlen (x :: s).
Proof. rewrite zlen_cons. pose proof (zlen_nonneg s). lia. Qed.

Lemma nonnil_zlen {A} (d : list A) : d <> [] -> 0 < zlen d.
Proof. destruct d; [congruence|]. intros _. apply zlen_pos_cons. Qed.

Lemma zlen_0_nil {A} (s : list A) : zlen s = 0 -> s = [].
Proof. destruct s; auto. intros H. pose proof (zlen_pos_cons a s). lia. Qed.

Lemma zlen_map {A B} (g : A -> B) l : zlen (map g l) = zlen l.
Proof. unfold zlen. rewrite map_length. reflexivity. Qed.

Lemma zlen_repeat {A} (x : A) k : zlen (repeat x k) = Z.of_nat k.
Proof. unfold zlen. rewrite repeat_length. reflexivity. Qed.

Lemma zlen_concat_app (a b : list bytes) : zlen (concat (a ++ b)) = zlen (concat a) + zlen (concat b).
Proof. rewrite concat_app. apply zlen_app. Qed.

Lemma zlen_concat_cons (c : bytes) cs : zlen (concat (c :: cs)) = zlen c + zlen (concat cs).
Proof. cbn [concat]. apply zlen_app. Qed.

Lemma ztake_0 {A} (l : list A) : ztake 0 l = [].
Proof. reflexivity. Qed.

Lemma ztake_zdrop {A} k (l : list A) : ztake k l ++ zdrop k l = l.
Proof. unfold ztake, zdrop. apply firstn_skipn. Qed.

Lemma ztake_cons {A} n (x : A) l : 0 < n -> ztake n (x :: l) = x :: ztake (n - 1) l.
Proof.
  intros H. unfold ztake. replace (Z.to_nat n) with (S (Z.to_nat (n - 1))) by lia. reflexivity.
Qed.

Lemma zdrop_cons {A} n (x : A) l : 0 < n -> zdrop n (x :: l) = zdrop (n - 1) l.
Proof.
  intros H. unfold zdrop. replace (Z.to_nat n) with (S (Z.to_nat (n - 1))) by lia. reflexivity.
Qed.

Lemma zdrop_1_cons {A} (x : A) s : zdrop 1 (x :: s) = s.
Proof. reflexivity. Qed.

Lemma ztake_succ_cons {A} (x : A) l n : 0 <= n -> ztake (1 + n) (x :: l) = x :: ztake n l.
Proof. intros H. rewrite ztake_cons by lia. do 2 f_equal. lia. Qed.

Lemma zdrop_succ_cons {A} (x : A) l n : 0 <= n -> zdrop (1 + n) (x :: l) = zdrop n l.
Proof. intros H. rewrite zdrop_cons by lia. f_equal. lia. Qed.

Lemma ztake_app_le {A} n (a b : list A) : n <= zlen a -> ztake n (a ++ b) = ztake n a.
Proof.
  unfold ztake, zlen; intros H. rewrite firstn_app.
  replace (Z.to_nat n - length a)%nat with O by lia. cbn [firstn]. apply app_nil_r.
Qed.

Lemma zdrop_app_le {A} n (a b : list A) : n <= zlen a -> zdrop n (a ++ b) = zdrop n a ++ b.
Proof.
  unfold zdrop, zlen; intros H. rewrite skipn_app.
  replace (Z.to_nat n - length a)%nat with O by lia. reflexivity.
Qed.

Lemma ztake_zlen_app {A} (a b : list A) : ztake (zlen a) (a ++ b) = a.
Proof. rewrite ztake_app_le by lia. apply ztake_all. lia. Qed.

Lemma zdrop_zlen_app {A} (a b : list A) : zdrop (zlen a) (a ++ b) = b.
Proof. rewrite zdrop_app_le by lia. rewrite zdrop_all by lia. reflexivity. Qed.

Lemma zdrop_zdrop {A} a c (l : list A) : 0 <= a -> 0 <= c -> zdrop (a + c) l = zdrop c (zdrop a l).
Proof.
  unfold zdrop; intros Ha Hc. rewrite <- skipn_add. f_equal. lia.
Qed.

Lemma zdrop_app_zlen {A} a (p y : list A) : 0 <= a -> zdrop (zlen p + a) (p ++ y) = zdrop a y.
Proof.
  intros Ha. rewrite zdrop_zdrop by (try apply zlen_nonneg; lia). rewrite zdrop_zlen_app. reflexivity.
Qed.

Lemma ztake_add {A} a b (l : list A) : 0 <= a -> 0 <= b ->
  ztake (a + b) l = ztake a l ++ ztake b (zdrop a l).
Proof.
  intros Ha Hb. rewrite <- (ztake_zdrop a (ztake (a + b) l)). f_equal.
  - unfold ztake. rewrite firstn_firstn. f_equal. lia.
  - unfold ztake, zdrop. rewrite skipn_firstn_comm. f_equal. lia.
Qed.

Lemma ztake_min {A} n (l : list A) : ztake (Z.min n (zlen l)) l = ztake n l.
Proof.
  destruct (Z.le_gt_cases n (zlen l)).
  - rewrite Z.min_l by lia. reflexivity.
  - rewrite Z.min_r by lia. rewrite !ztake_all by lia. reflexivity.
Qed.

Lemma ztake_map {A B} (g : A -> B) n l : ztake n (map g l) = map g (ztake n l).
Proof. unfold ztake. apply firstn_map. Qed.

Lemma ztake_snoc {A} (u : list A) x : ztake (zlen (u ++ [x]) - 1) (u ++ [x]) = u.
Proof.
  rewrite zlen_app. change (zlen [x]) with 1. replace (zlen u + 1 - 1) with (zlen u) by lia.
  apply ztake_zlen_app.
Qed.

Lemma length_zdrop_le {A} k (l : list A) : (length (zdrop k l) <= length l)%nat.
Proof. unfold zdrop. rewrite skipn_length. lia. Qed.

Lemma length_zdrop {A} k (l : list A) : 0 <= k <= zlen l -> length (zdrop k l) = (length l - Z.to_nat k)%nat.
Proof. intros H. unfold zdrop. apply skipn_length. Qed.

Lemma zlen_zdrop_le {A} n (l : list A) : zlen (zdrop n l) <= zlen l.
Proof. unfold zlen, zdrop. rewrite skipn_length. lia. Qed.

Lemma length_zdrop_lt {A} adv (b : list A) : 0 < adv -> adv <= zlen b -> (length (zdrop adv b) < length b)%nat.
Proof.
  unfold zdrop, zlen; intros H1 H2. rewrite skipn_length. lia.
Qed.

Lemma in_ztake {A} (x : A) n l : In x (ztake n l) -> In x l.
Proof. intros H. rewrite <- (ztake_zdrop n l). apply in_or_app. left. exact H. Qed.

Lemma in_zdrop {A} (x : A) n l : In x (zdrop n l) -> In x l.
Proof. intros H. rewrite <- (ztake_zdrop n l). apply in_or_app. right. exact H. Qed.

(* ---- slice, index ---- *)

Lemma slice_ok {A} (s : list A) lo hi : 0 <= lo -> lo <= hi -> hi <= zlen s ->
  slice s lo hi = Ok (ztake (hi - lo) (zdrop lo s)).
Proof.
  intros H1 H2 H3. unfold slice.
  replace (0 <=? lo) with true by (symmetry; apply Z.leb_le; lia).
  replace (lo <=? hi) with true by (symmetry; apply Z.leb_le; lia).
  replace (hi <=? zlen s) with true by (symmetry; apply Z.leb_le; lia).
  reflexivity.
Qed.

Lemma slice_prefix {A} (s : list A) hi : 0 <= hi <= zlen s -> slice s 0 hi = Ok (ztake hi s).
Proof. intros H. rewrite slice_ok by lia. rewrite Z.sub_0_r. reflexivity. Qed.

Lemma slice_to_end {A} (s : list A) lo :
  0 <= lo <= zlen s -> slice s lo (zlen s) = Ok (zdrop lo s).
Proof.
  intros H. rewrite slice_ok by lia. f_equal. apply ztake_all.
  rewrite zlen_zdrop by lia. lia.
Qed.

Lemma slice_app_prefix {A} (a b : list A) : slice (a ++ b) 0 (zlen a) = Ok a.
Proof.
  pose proof (zlen_nonneg a). pose proof (zlen_nonneg b).
  rewrite slice_prefix by (rewrite zlen_app; lia). f_equal. apply ztake_zlen_app.
Qed.

Lemma slice_app_suffix {A} (a b : list A) : slice (a ++ b) (zlen a) (zlen (a ++ b)) = Ok b.
Proof.
  pose proof (zlen_nonneg a). pose proof (zlen_nonneg b).
  rewrite slice_to_end, zdrop_zlen_app by (rewrite zlen_app; lia). reflexivity.
Qed.

Lemma index_inv {A} (l : list A) i a : index l i = Ok a -> 0 <= i < zlen l /\ nth_error l (Z.to_nat i) = Some a.
Proof.
  unfold index. destruct (Z.leb_spec 0 i), (Z.ltb_spec i (zlen l)); cbn [andb]; try discriminate.
  destruct (nth_error l (Z.to_nat i)); [|discriminate]. intros E; injection E as <-. split; [lia|reflexivity].
Qed.

Lemma index_ok {A} (l : list A) i : 0 <= i < zlen l -> exists a, index l i = Ok a /\ nth_error l (Z.to_nat i) = Some a.
Proof.
  intros H. unfold index. destruct (Z.leb_spec 0 i), (Z.ltb_spec i (zlen l)); try lia. cbn [andb].
  destruct (nth_error l (Z.to_nat i)) eqn:E.
  - eexists; split; reflexivity.
  - apply nth_error_None in E. unfold zlen in H. lia.
Qed.

Lemma index_last {A} (a : list A) x : index (a ++ [x]) (zlen (a ++ [x]) - 1) = Ok x.
Proof.
  destruct (index_ok (a ++ [x]) (zlen (a ++ [x]) - 1)) as (y & E & Hn).
  { rewrite zlen_app. change (zlen [x]) with 1. pose proof (zlen_nonneg a). lia. }
  rewrite E. f_equal. rewrite zlen_app in Hn. change (zlen [x]) with 1 in Hn.
  replace (zlen a + 1 - 1) with (zlen a) in Hn by lia. unfold zlen in Hn. rewrite Nat2Z.id in Hn.
  rewrite nth_error_app2, Nat.sub_diag in Hn by lia. injection Hn as <-. reflexivity.
Qed.
